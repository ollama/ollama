(** The binary32 operations through [rk].  On finite operands each is the exact real operation followed by [rov] (round
    to nearest even; beyond the largest finite value, the infinity of the sign).  [rov] is monotone and fixes the finite
    values: the bounds and the monotonicity of the sampler's stages come from these two facts. *)
From Coq Require Import ZArith Reals Psatz Lia Lra SpecFloat Bool.
From Flocq Require Import Core.Core IEEE754.BinarySingleNaN.
From V Require Import Sample.F32 Sample.Model Sample.F32Facts.
Local Open Scope R_scope.

(* the instance declarations of F32Facts.v are local to it *)
Local Existing Instance P24.
Local Instance PE' : Prec_lt_emax 24 128 := eq_refl.

Notation rnd := (round radix2 (SpecFloat.fexp 24 128) (round_mode mode_NE)).

Lemma rnd_le : forall x y, x <= y -> rnd x <= rnd y.
Proof. intros. apply round_le; auto with typeclass_instances. apply (fexp_correct 24 128). exact P24. Qed.

Lemma rnd_0 : rnd 0 = 0.
Proof. apply round_0. auto with typeclass_instances. Qed.

Definition rov (y : R) : R :=
  if Rle_bool (bpow radix2 128) (rnd y) then BIG else if Rle_bool (rnd y) (- bpow radix2 128) then - BIG else rnd y.

Lemma rov_fin : forall x, fin x -> rov (rk x) = rk x.
Proof.
  intros x F. assert (L := fin_bound x F). apply Rabs_def2 in L. destruct (fin_B x F) as (b & _ & _ & E). rewrite E in *.
  unfold rov. rewrite round_generic; [|auto with typeclass_instances|apply generic_format_B2R].
  rewrite !Rle_bool_false; lra.
Qed.

Lemma rov_0 : rov 0 = 0.
Proof. apply (rov_fin fzero). now split. Qed.

Lemma rov_le : forall x y, x <= y -> rov x <= rov y.
Proof.
  intros x y Le. apply rnd_le in Le. assert (G := BIG_gt). assert (P := bpow_gt_0 radix2 128). unfold rov.
  destruct (Rle_bool_spec (bpow radix2 128) (rnd x)).
  { rewrite Rle_bool_true; lra. }
  destruct (Rle_bool_spec (bpow radix2 128) (rnd y)); destruct (Rle_bool_spec (rnd x) (- bpow radix2 128));
    destruct (Rle_bool_spec (rnd y) (- bpow radix2 128)); lra.
Qed.

(** the two outcomes of Flocq's theorems: [x] the result of an operation of exact value [y], [s] the sign on overflow *)
Lemma rk_rounded : forall (x : sf) (y : R) (s : bool),
  (if Rlt_bool (Rabs (rnd y)) (bpow radix2 128)
   then exists c : bf, x = B2SF c /\ is_finite c = true /\ B2R c = rnd y
   else x = S754_infinity s /\ if s then y <= 0 else 0 <= y) ->
  num x /\ rk x = rov y.
Proof.
  intros x y s. unfold rov. destruct (Rlt_bool_spec (Rabs (rnd y)) (bpow radix2 128)) as [L|G].
  - intros (c & -> & Fc & E). destruct (B_fin c Fc) as [F Ec]. split; [now apply fin_num|].
    apply Rabs_def2 in L. rewrite Ec, E, !Rle_bool_false; lra.
  - intros (-> & Hs). assert (P := bpow_gt_0 radix2 128). split; [now destruct s|]. destruct s; cbn [rk].
    + assert (rnd y <= 0) by (rewrite <- rnd_0; now apply rnd_le).
      rewrite Rabs_left1 in G by easy. rewrite Rle_bool_false, Rle_bool_true; lra.
    + assert (0 <= rnd y) by (rewrite <- rnd_0; now apply rnd_le).
      rewrite Rabs_pos_eq in G by easy. now rewrite Rle_bool_true.
Qed.

Lemma Bsign_B2R : forall A : bf, if Bsign A then B2R A <= 0 else 0 <= B2R A.
Proof.
  intros [s|s| |[|] m e H]; cbn; try (destruct s); try lra.
  - apply Rlt_le, F2R_lt_0. reflexivity.
  - apply Rlt_le, F2R_gt_0. reflexivity.
Qed.

Lemma sign_mul : forall (s t : bool) (x y : R),
  (if s then x <= 0 else 0 <= x) -> (if t then y <= 0 else 0 <= y) -> if xorb s t then x * y <= 0 else 0 <= x * y.
Proof. intros [|] [|] x y Hx Hy; cbn [xorb]; nra. Qed.

Theorem fadd_fin : forall a b, fin a -> fin b -> num (fadd a b) /\ rk (fadd a b) = rov (rk a + rk b).
Proof.
  intros a b Fa Fb. destruct (fin_B a Fa) as (A & -> & FA & ->), (fin_B b Fb) as (B & -> & FB & ->).
  unfold fadd, F32.prec, F32.emax. rewrite (SFadd_equiv 24 128 _ _). apply (rk_rounded _ _ (Bsign A)).
  generalize (Bplus_correct 24 128 _ _ mode_NE A B FA FB). case Rlt_bool.
  - intros (E1 & E2 & _). exists (Bplus mode_NE A B). exact (conj eq_refl (conj E2 E1)).
  - intros (E1 & E2). split; [exact E1|].
    assert (SA := Bsign_B2R A). assert (SB := Bsign_B2R B). rewrite <- E2 in SB. destruct (Bsign A); lra.
Qed.

Theorem fsub_fin : forall a b, fin a -> fin b -> num (fsub a b) /\ rk (fsub a b) = rov (rk a - rk b).
Proof.
  intros a b Fa Fb. destruct (fin_B a Fa) as (A & -> & FA & ->), (fin_B b Fb) as (B & -> & FB & ->).
  unfold fsub, F32.prec, F32.emax. rewrite (SFsub_equiv 24 128 _ _). apply (rk_rounded _ _ (Bsign A)).
  generalize (Bminus_correct 24 128 _ _ mode_NE A B FA FB). case Rlt_bool.
  - intros (E1 & E2 & _). exists (Bminus mode_NE A B). exact (conj eq_refl (conj E2 E1)).
  - intros (E1 & E2). split; [exact E1|].
    assert (SA := Bsign_B2R A). assert (SB := Bsign_B2R B). rewrite E2 in SA |- *. destruct (Bsign B); cbn [negb] in *; lra.
Qed.

Theorem fmul_fin : forall a b, fin a -> fin b -> num (fmul a b) /\ rk (fmul a b) = rov (rk a * rk b).
Proof.
  intros a b Fa Fb. destruct (fin_B a Fa) as (A & -> & FA & ->), (fin_B b Fb) as (B & -> & FB & ->).
  unfold fmul, F32.prec, F32.emax. rewrite (SFmul_equiv 24 128 _ _). apply (rk_rounded _ _ (xorb (Bsign A) (Bsign B))).
  generalize (Bmult_correct 24 128 _ _ mode_NE A B). rewrite FA, FB. case Rlt_bool.
  - intros (E1 & E2 & _). exists (Bmult mode_NE A B). exact (conj eq_refl (conj E2 E1)).
  - intros E1. exact (conj E1 (sign_mul _ _ _ _ (Bsign_B2R A) (Bsign_B2R B))).
Qed.

Theorem fdiv_fin : forall a b, fin a -> fin b -> 0 < rk b -> num (fdiv a b) /\ rk (fdiv a b) = rov (rk a / rk b).
Proof.
  intros a b Fa Fb. destruct (fin_B a Fa) as (A & -> & FA & ->), (fin_B b Fb) as (B & -> & FB & ->). intros Pb.
  unfold fdiv, F32.prec, F32.emax. rewrite (SFdiv_equiv 24 128 _ _). apply (rk_rounded _ _ (xorb (Bsign A) (Bsign B))).
  generalize (Bdiv_correct 24 128 _ _ mode_NE A B ltac:(lra)). rewrite FA. case Rlt_bool.
  - intros (E1 & E2 & _). exists (Bdiv mode_NE A B). exact (conj eq_refl (conj E2 E1)).
  - intros E1. split; [exact E1|]. apply sign_mul; [apply Bsign_B2R|].
    assert (SB := Bsign_B2R B). destruct (Bsign B); [lra|]. now apply Rlt_le, Rinv_0_lt_compat.
Qed.

Lemma fadd_pinf_l : forall b, fin b -> fadd pinf b = pinf.
Proof. now intros [s|s| |s m e] [V F]. Qed.

Lemma fadd_pinf_r : forall a, fin a -> fadd a pinf = pinf.
Proof. now intros [s|s| |s m e] [V F]. Qed.

Lemma fsub_ninf_l : forall m, is_nan m = false -> is_ninf m = false -> fsub ninf m = ninf.
Proof. intros [s|[|]| |s m e]; easy. Qed.

Lemma fsub_pinf_r : forall a, is_nan a = false -> is_pinf a = false -> fsub a pinf = ninf.
Proof. intros [s|[|]| |s m e]; easy. Qed.

Lemma fdiv_pinf_r : forall a, fin a -> is_zero (fdiv a pinf) = true.
Proof. now intros [s|s| |s m e] [V F]. Qed.

Lemma fadd_nan_l : forall x y, is_nan x = true -> is_nan (fadd x y) = true.
Proof. now intros [s|s| |s m e]. Qed.

Lemma fadd_nan_r : forall x y, is_nan y = true -> is_nan (fadd x y) = true.
Proof. intros x [s|s| |s m e] H; try easy. now destruct x. Qed.

Lemma fdiv_nan_r : forall x y, is_nan y = true -> is_nan (fdiv x y) = true.
Proof. intros x [s|s| |s m e] H; try easy. now destruct x. Qed.

Lemma fadd_zero_r : forall c z, num c -> is_zero z = true -> num (fadd c z) /\ rk (fadd c z) = rk c.
Proof.
  intros c z [Hv Hn] Hz. destruct z as [sz| | |]; try easy.
  destruct c as [s|s| |s m e]; try easy; unfold fadd; cbn;
    try (destruct (Bool.eqb s sz)); (split; [now split|reflexivity]).
Qed.

Lemma fsub_self : forall x, is_nan x = false -> is_inf x = false -> is_zero (fsub x x) = true.
Proof.
  intros [s|s| |s m e]; try easy.
  - intros _ _. unfold fsub. cbn. now destruct s.
  - intros _ _. unfold fsub, SFsub. rewrite Z.sub_diag. reflexivity.
Qed.

Lemma fmul_comm : forall a b, fmul a b = fmul b a.
Proof.
  intros a b. unfold fmul.
  destruct a as [s|s| |s m e], b as [s'|s'| |s' m' e']; cbn; try reflexivity;
    try (now rewrite xorb_comm).
  now rewrite xorb_comm, Pos.mul_comm, Z.add_comm.
Qed.

Lemma nonneg_cases : forall x, num x -> 0 <= rk x -> x = pinf \/ fin x.
Proof.
  intros x Hx Px. assert (G := BIG_pos). destruct (num_cases x Hx) as [->|[->|F]]; auto. cbn in Px. lra.
Qed.

Lemma unit_fin : forall x, num x -> 0 <= rk x <= 1 -> fin x.
Proof.
  intros x Hx Px. assert (G := one_lt_BIG). destruct (nonneg_cases x Hx) as [->|F]; [lra| |easy]. cbn in Px. lra.
Qed.

Lemma fadd_nonneg : forall a b, num a -> num b -> 0 <= rk a -> 0 <= rk b ->
  num (fadd a b) /\ rk a <= rk (fadd a b) /\ rk b <= rk (fadd a b).
Proof.
  intros a b Ha Hb Pa Pb. assert (Ra := rk_range a Ha). assert (Rb := rk_range b Hb).
  destruct (nonneg_cases a Ha Pa) as [->|Fa]; destruct (nonneg_cases b Hb Pb) as [->|Fb].
  - split; [apply num_pinf|cbn; lra].
  - rewrite fadd_pinf_l by easy. split; [apply num_pinf|cbn [rk pinf] in *; lra].
  - rewrite fadd_pinf_r by easy. split; [apply num_pinf|cbn [rk pinf] in *; lra].
  - destruct (fadd_fin a b Fa Fb) as [N ->]. split; [easy|].
    rewrite <- (rov_fin a Fa) at 1. rewrite <- (rov_fin b Fb) at 2. split; apply rov_le; lra.
Qed.

Lemma fmul_unit_l : forall a b, num a -> num b -> 0 <= rk a <= 1 -> 0 <= rk b ->
  is_nan (fmul a b) = false -> num (fmul a b) /\ 0 <= rk (fmul a b) <= rk b.
Proof.
  intros a b Ha Hb Pa Pb. assert (Fa := unit_fin a Ha Pa).
  destruct (nonneg_cases b Hb Pb) as [->|Fb].
  - destruct a as [s| | |[|] m e]; try (now destruct Fa).
    + assert (X := rk_finite_neg m e). lra.
    + change (fmul (S754_finite false m e) pinf) with pinf.
      intros _. split; [apply num_pinf|]. assert (G := BIG_pos). cbn [rk pinf]. lra.
  - destruct (fmul_fin a b Fa Fb) as [N E]. intros _. split; [exact N|].
    rewrite E. split; [rewrite <- rov_0|rewrite <- (rov_fin b Fb) at 2]; apply rov_le; nra.
Qed.

Lemma fmul_unit_r : forall a b, num a -> num b -> 0 <= rk a <= 1 -> 0 <= rk b ->
  is_nan (fmul b a) = false -> num (fmul b a) /\ 0 <= rk (fmul b a) <= rk b.
Proof. intros a b. rewrite (fmul_comm b a). apply fmul_unit_l. Qed.

Lemma fdiv_prob : forall e s, num e -> num s -> 0 <= rk e <= 1 -> 0 < rk s ->
  num (fdiv e s) /\ 0 <= rk (fdiv e s) /\ (is_zero e = true -> is_zero (fdiv e s) = true).
Proof.
  intros e s He Hs Pe Ps. assert (Fe := unit_fin e He Pe).
  destruct (nonneg_cases s Hs ltac:(lra)) as [->|Fs].
  - assert (Z := fdiv_pinf_r e Fe). destruct (fdiv e pinf); try easy. split; [now split|]. split; [cbn; lra|easy].
  - destruct (fdiv_fin e s Fe Fs Ps) as [N E]. split; [easy|]. split.
    + rewrite E, <- rov_0. apply rov_le. apply Rmult_le_pos; [lra|]. apply Rlt_le, Rinv_0_lt_compat, Ps.
    + destruct e as [se| | |]; try easy. destruct s as [ss| | |ss ms es]; try (now destruct Fs). cbn in Ps. lra.
Qed.

Lemma fdiv_mono : forall e1 e2 s, num e1 -> num e2 -> num s -> 0 <= rk e1 -> rk e1 <= rk e2 -> rk e2 <= 1 -> 0 < rk s ->
  rk (fdiv e1 s) <= rk (fdiv e2 s).
Proof.
  intros e1 e2 s H1 H2 Hs P1 L12 P2 Ps.
  assert (F1 := unit_fin e1 H1 ltac:(lra)). assert (F2 := unit_fin e2 H2 ltac:(lra)).
  destruct (nonneg_cases s Hs ltac:(lra)) as [->|Fs].
  - rewrite !rk_zero by now apply fdiv_pinf_r. lra.
  - destruct (fdiv_fin e1 s F1 Fs Ps) as [_ ->]. destruct (fdiv_fin e2 s F2 Fs Ps) as [_ ->].
    apply rov_le, Rmult_le_compat_r; [|easy]. apply Rlt_le, Rinv_0_lt_compat, Ps.
Qed.

Lemma sm_diff_le0 : forall mx v, num mx -> mx <> ninf -> num v -> rk v <= rk mx ->
  num (sm_diff mx v) /\ rk (sm_diff mx v) <= 0.
Proof.
  intros mx v Hm Nm Hv Le. assert (G := BIG_pos). unfold sm_diff.
  destruct (is_pinf v) eqn:Pv; [split; [apply num_fzero|cbn; lra]|].
  destruct (num_cases mx Hm) as [->|[->|Fm]]; [easy| |].
  - rewrite fsub_pinf_r; [|apply Hv|easy]. split; [apply num_ninf|cbn; lra].
  - destruct (num_cases v Hv) as [->|[->|Fv]]; [|easy|].
    + rewrite fsub_ninf_l; [|apply Hm|now apply fin_not_ninf]. split; [apply num_ninf|cbn; lra].
    + destruct (fsub_fin v mx Fv Fm) as [N ->]. split; [easy|]. rewrite <- rov_0. apply rov_le. lra.
Qed.

Lemma sm_diff_self : forall mx, num mx -> mx <> ninf -> is_zero (sm_diff mx mx) = true.
Proof.
  intros mx Hm Nm. destruct (num_cases mx Hm) as [->|[->|F]]; [easy..|].
  unfold sm_diff. rewrite fin_not_pinf by easy. apply fsub_self; [apply Hm|now apply fin_not_inf].
Qed.

Lemma sm_diff_ninf : forall mx, num mx -> mx <> ninf -> sm_diff mx ninf = ninf.
Proof.
  intros mx Hm Nm. destruct (num_cases mx Hm) as [->|[->|F]]; [easy..|].
  apply fsub_ninf_l; [apply Hm|now apply fin_not_ninf].
Qed.

Lemma sm_diff_mono : forall mx v1 v2, num mx -> mx <> ninf -> num v1 -> num v2 ->
  rk v1 <= rk v2 -> rk v2 <= rk mx -> rk (sm_diff mx v1) <= rk (sm_diff mx v2).
Proof.
  intros mx v1 v2 Hm Nm H1 H2 L12 L2m. assert (G := BIG_pos).
  destruct (sm_diff_le0 mx v1 Hm Nm H1 ltac:(lra)) as [_ Z1]. assert (R2 := rk_range _ (proj1 (sm_diff_le0 mx v2 Hm Nm H2 L2m))).
  destruct (num_cases v2 H2) as [->|[->|F2]].
  - assert (v1 = ninf) by (apply rk_ninf_iff; [easy|]; assert (Q := rk_range v1 H1); cbn [rk ninf] in L12; lra).
    subst v1. lra.
  - exact Z1.
  - destruct (num_cases v1 H1) as [->|[->|F1]].
    + rewrite sm_diff_ninf by easy. cbn [rk ninf]. lra.
    + apply fin_lt_BIG in F2. cbn [rk pinf] in L12. lra.
    + unfold sm_diff. rewrite !fin_not_pinf by easy.
      destruct (num_cases mx Hm) as [->|[->|Fm]]; [easy| |].
      * rewrite !fsub_pinf_r; [lra|apply H2|now apply fin_not_pinf|apply H1|now apply fin_not_pinf].
      * destruct (fsub_fin v1 mx F1 Fm) as [_ ->]. destruct (fsub_fin v2 mx F2 Fm) as [_ ->]. apply rov_le. lra.
Qed.

Definition MAXR : R := rk fmaxpos.

Lemma MAXR_eq : MAXR = bpow radix2 128 - bpow radix2 104.
Proof.
  unfold MAXR. cbn [rk fmaxpos SF2R cond_Zopp]. unfold F2R. cbn [Fnum Fexp].
  replace (bpow radix2 128) with (bpow radix2 24 * bpow radix2 104) by (rewrite <- bpow_plus; reflexivity).
  change (bpow radix2 24) with (IZR 16777216). replace (IZR 16777215) with (IZR 16777216 - 1) by (rewrite <- minus_IZR; reflexivity).
  ring.
Qed.

Lemma MAXR_lt_BIG : 0 < MAXR < BIG.
Proof.
  split; [apply rk_finite_pos|]. rewrite MAXR_eq. assert (0 < bpow radix2 104) by apply bpow_gt_0. assert (G := BIG_gt). lra.
Qed.

Lemma rk_fmaxneg : rk fmaxneg = - MAXR.
Proof.
  unfold MAXR. cbn [rk fmaxpos fmaxneg SF2R cond_Zopp]. unfold F2R. cbn [Fnum Fexp]. rewrite opp_IZR. ring.
Qed.

Lemma fin_le_MAXR : forall x, fin x -> - MAXR <= rk x <= MAXR.
Proof.
  intros x F. destruct (fin_B x F) as (b & _ & _ & ->). apply Rabs_le_inv. rewrite MAXR_eq.
  exact (abs_B2R_le_emax_minus_prec 24 128 P24 b).
Qed.

Definition clampf (q : sf) : sf := if is_inf q then (if sf_sign q then fmaxneg else fmaxpos) else q.

Lemma clampf_rk : forall q, num q -> fin (clampf q) /\ rk (clampf q) = Rmax (- MAXR) (Rmin MAXR (rk q)).
Proof.
  intros q Hq. assert (M := MAXR_lt_BIG). destruct (num_cases q Hq) as [->|[->|F]].
  - split; [now split|]. cbn [clampf is_inf sf_sign ninf]. rewrite rk_fmaxneg, rk_ninf, Rmin_right, Rmax_left; lra.
  - split; [now split|]. cbn [clampf is_inf sf_sign pinf]. fold MAXR. rewrite rk_pinf, Rmin_left, Rmax_right; lra.
  - assert (L := fin_le_MAXR q F). unfold clampf. rewrite fin_not_inf by easy.
    split; [easy|]. rewrite Rmin_right, Rmax_right; lra.
Qed.

Lemma scale_fin : forall T v, fin T -> 0 < rk T -> fin v ->
  fin (scale T v) /\ rk (scale T v) = Rmax (- MAXR) (Rmin MAXR (rov (rk v / rk T))).
Proof.
  intros T v FT PT Fv. destruct (fdiv_fin v T Fv FT PT) as [N E]. rewrite <- E.
  unfold scale. rewrite (fin_not_inf v Fv), andb_true_r.
  exact (clampf_rk _ N).
Qed.

Lemma scale_inf : forall T s, fin T -> 0 < rk T -> scale T (S754_infinity s) = S754_infinity s.
Proof.
  intros [st|st| |[|] m e] s [V F] PT; try easy.
  - cbn in PT. lra.
  - assert (X := rk_finite_neg m e). lra.
  - now destruct s.
Qed.

Lemma scale_num : forall T v, fin T -> 0 < rk T -> num v -> num (scale T v).
Proof.
  intros T v FT PT Hv.
  destruct (num_cases v Hv) as [->|[->|Fv]]; [unfold ninf|unfold pinf|]; rewrite ?scale_inf by easy; try easy.
  now apply fin_num, scale_fin.
Qed.

Lemma scale_ninf_iff : forall T v, fin T -> 0 < rk T -> num v -> (scale T v = ninf <-> v = ninf).
Proof.
  intros T v FT PT Hv.
  destruct (num_cases v Hv) as [->|[->|Fv]]; [unfold ninf|unfold pinf|]; rewrite ?scale_inf by easy; try easy.
  destruct (scale_fin T v FT PT Fv) as [F _]. apply fin_not_inf in F. split; intros X; rewrite X in *; [easy|].
  now apply fin_not_inf in Fv.
Qed.

Lemma scale_mono : forall T v1 v2, fin T -> 0 < rk T -> num v1 -> num v2 ->
  rk v1 <= rk v2 -> rk (scale T v1) <= rk (scale T v2).
Proof.
  intros T v1 v2 FT PT H1 H2 Le. assert (G := BIG_pos).
  assert (R1 := rk_range _ (scale_num T v1 FT PT H1)).
  assert (R2 := rk_range _ (scale_num T v2 FT PT H2)).
  destruct (num_cases v2 H2) as [->|[->|F2]].
  - assert (v1 = ninf) by (apply rk_ninf_iff; [easy|]; assert (Q := rk_range v1 H1); cbn [rk ninf] in Le; lra).
    subst v1. lra.
  - unfold pinf in *. rewrite scale_inf in * by easy. cbn [rk]. lra.
  - destruct (num_cases v1 H1) as [->|[->|F1]].
    + unfold ninf in *. rewrite scale_inf in * by easy. cbn [rk] in *. lra.
    + apply fin_lt_BIG in F2. cbn [rk pinf] in Le. lra.
    + destruct (scale_fin T v1 FT PT F1) as [_ ->]. destruct (scale_fin T v2 FT PT F2) as [_ ->].
      apply Rle_max_compat_l, Rle_min_compat_l, rov_le, Rmult_le_compat_r; [|easy].
      apply Rlt_le, Rinv_0_lt_compat, PT.
Qed.

(** Soundness of the executable legality check of Corr.v: a topK output the check accepts is a [Proofs.legal_topk]. *)
From Coq Require Import ZArith List Bool SpecFloat Lia Reals Lra Permutation Sorted.
From V Require Import Sample.F32 Sample.Model Sample.F32Facts Sample.Proofs Sample.Corr.
Import ListNotations.
Open Scope Z_scope.

Lemma sf_same_eq : forall x y, sf_same x y = true -> x = y.
Proof.
  intros [s|s| |s m e] [s'|s'| |s' m' e'] H; try discriminate H; cbn in H; [| |easy|].
  - apply eqb_prop in H. now subst.
  - apply eqb_prop in H. now subst.
  - apply andb_prop in H. destruct H as [H H3]. apply andb_prop in H. destruct H as [H1 H2].
    apply eqb_prop in H1. apply Pos.eqb_eq in H2. apply Z.eqb_eq in H3. now subst.
Qed.

Lemma tok_same_eq : forall a b, tok_same a b = true -> a = b.
Proof.
  intros [i v] [j w] H. unfold tok_same in H. cbn [tid tv fst snd] in H. apply andb_prop in H. destruct H as [H1 H2].
  apply Z.eqb_eq in H1. apply sf_same_eq in H2. now subst.
Qed.

Lemma distinct_NoDup : forall l, distinct l = true -> NoDup l.
Proof.
  induction l as [|x r IH]; intros H; [constructor|]. cbn [distinct] in H. apply andb_prop in H. destruct H as [H1 H2].
  constructor; [|now apply IH]. intros X. apply negb_true_iff in H1.
  assert (existsb (Z.eqb x) r = true) by (apply existsb_exists; exists x; split; [easy|apply Z.eqb_refl]). congruence.
Qed.

Lemma sorted_descb_strong : forall l, numl l -> sorted_descb l = true -> StronglySorted descR l.
Proof.
  intros l Hl H. apply Sorted_StronglySorted.
  { intros a b c Hab Hbc. unfold descR in *. lra. }
  induction l as [|a r IH]; [constructor|]. inversion Hl as [|? ? Ha Hr]; subst.
  destruct r as [|b r']; [repeat constructor|].
  cbn [sorted_descb] in H. apply andb_prop in H. destruct H as [H1 H2]. apply negb_true_iff in H1.
  constructor; [now apply IH|]. constructor. unfold descR. inversion Hr; subst. apply flt_false_iff; easy.
Qed.

(** the arrangement that witnesses legality is [out] followed by the sorted rest, the input tokens whose id is not in [out] *)
Theorem legal_topkb_sound : forall ts k out,
  numl ts -> NoDup (map tid ts) -> legal_topkb ts k out = true -> legal_topk ts k out.
Proof.
  intros ts k out Hts Hnd H. unfold legal_topkb in H.
  apply andb_prop in H. destruct H as [H H5]. apply andb_prop in H. destruct H as [H H4].
  apply andb_prop in H. destruct H as [H H3]. apply andb_prop in H. destruct H as [H1 H2].
  apply Nat.eqb_eq in H1.
  assert (Incl : forall o, In o out -> In o ts).
  { intros o Ho. rewrite forallb_forall in H3. specialize (H3 o Ho). apply existsb_exists in H3.
    destruct H3 as (t & T1 & T2). apply tok_same_eq in T2. now subst. }
  assert (Hout : numl out) by (apply Forall_forall; intros o Ho; apply (numl_In ts); [easy|now apply Incl]).
  assert (Nout : NoDup (map tid out)) by now apply distinct_NoDup.
  set (rest := filter (fun t => negb (mem_id (tid t) out)) ts).
  assert (Hrest : numl rest) by (apply Forall_forall; intros t Ht; apply filter_In in Ht; now apply (numl_In ts)).
  assert (Mem : forall t, In t ts -> mem_id (tid t) out = true -> In t out).
  { intros t Ht Hm. unfold mem_id in Hm. apply existsb_exists in Hm. destruct Hm as (o & O1 & O2). apply Z.eqb_eq in O2.
    assert (o = t) by (apply (same_key_eq tid ts); [easy|now apply Incl|easy|easy]). now subst. }
  assert (P : Permutation (out ++ rest) ts).
  { apply NoDup_Permutation.
    - apply NoDup_app'; [now apply (NoDup_map_inv tid)|apply NoDup_filter; now apply (NoDup_map_inv tid)|].
      intros x Hx Hr. apply filter_In in Hr. destruct Hr as [_ Hr]. apply negb_true_iff in Hr.
      assert (mem_id (tid x) out = true) by (apply existsb_exists; exists x; split; [easy|apply Z.eqb_refl]). congruence.
    - now apply (NoDup_map_inv tid).
    - intros x. split.
      + intros Hx. apply in_app_or in Hx. destruct Hx as [Hx|Hx]; [now apply Incl|]. now apply filter_In in Hx.
      + intros Hx. apply in_or_app. destruct (mem_id (tid x) out) eqn:M; [left; now apply Mem|].
        right. apply filter_In. split; [easy|]. now rewrite M. }
  assert (PL : Permutation (out ++ sort_desc rest) ts) by (rewrite <- P; apply Permutation_app_head, sort_desc_perm).
  exists (out ++ sort_desc rest). split; [exact PL|]. split.
  - apply sorted_desc_iff; [apply (numl_perm ts); [now symmetry|easy]|]. apply StronglySorted_app.
    + now apply sorted_descb_strong.
    + now apply sort_desc_sorted.
    + intros a b Ha Hb. apply (Permutation_in _ (sort_desc_perm rest)) in Hb. apply filter_In in Hb. destruct Hb as [Hb1 Hb2].
      rewrite forallb_forall in H5. specialize (H5 b Hb1). apply negb_true_iff in Hb2. rewrite Hb2 in H5. cbn [orb] in H5.
      rewrite forallb_forall in H5. specialize (H5 a Ha). apply negb_true_iff in H5.
      unfold descR. apply flt_false_iff; [now apply (numl_In out)|now apply (numl_In ts)|easy].
  - rewrite <- H1. rewrite firstn_app, Nat.sub_diag, firstn_all. cbn. now rewrite app_nil_r.
Qed.

Lemma enumerate_ids_NoDup : forall l s, NoDup (map tid (enumerate s l)).
Proof.
  induction l as [|v r IH]; intros s; [constructor|]. cbn. constructor; [|apply IH].
  intros X. apply in_map_iff in X. destruct X as (t & Et & Ht). apply enumerate_In in Ht. lia.
Qed.

Theorem chk_topk_legal_sound : forall logits k out,
  Forall (fun b => is_nan (fb b) = false) logits ->
  chk_topk_legal logits k out = true ->
  legal_topk (enumerate 0 (map fb logits)) k (decs out).
Proof.
  intros logits k out Hn H. apply legal_topkb_sound; [|apply enumerate_ids_NoDup|exact H].
  apply enumerate_numl. apply Forall_forall. intros x Hx. apply in_map_iff in Hx. destruct Hx as (b & <- & Hb).
  split; [apply f32_of_bits_valid|exact (proj1 (Forall_forall _ _) Hn b Hb)].
Qed.

Lemma grammar_both_eq : forall E pr rej logits r1 r2,
  grammar_both E pr rej logits r1 r2 = (Sample_grammar E pr rej logits r1 r2, grammar_draws E pr rej logits r1).
Proof.
  intros E pr rej logits r1 r2. unfold grammar_both, Sample_grammar, grammar_draws. destruct logits as [|l0 lr]; [easy|].
  destruct (sample E pr (enumerate 0 (l0 :: lr)) r1) as [t| | |]; destruct (feq (p_temp pr) fzero); try easy;
    destruct (first_pick_rejected rej t); easy.
Qed.

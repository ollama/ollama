(** Values and order of the binary32 arithmetic of F32.v, through Flocq 4.1.  [SpecFloat]'s operations are Flocq's
    [Bplus/Bminus/Bmult/Bdiv] at [mode_NE] (proofs as in Flocq's PrimFloat.v, which has them for binary64), so Flocq's
    correctness theorems apply (F32Mono.v).  The real-number axioms of the standard library enter here and in F32Mono.v only. *)
From Coq Require Import ZArith Reals Psatz Lia Lra SpecFloat Bool.
From Flocq Require Import Core.Core IEEE754.BinarySingleNaN.
From V Require Import Sample.F32.

Section Bridge.
Variable prec emax : Z.
Context (prec_gt_0_ : Prec_gt_0 prec).
Context (prec_lt_emax_ : Prec_lt_emax prec emax).

Lemma round_nearest_even_equiv s m l :
  round_nearest_even m l = choice_mode mode_NE s m l.
Proof.
case l; [reflexivity|intro c].
case c; [ | reflexivity..].
now simpl; unfold Round.cond_incr; case Z.even.
Qed.

Lemma binary_round_aux_equiv sx mx ex lx :
  SpecFloat.binary_round_aux prec emax sx mx ex lx
  = binary_round_aux prec emax mode_NE sx mx ex lx.
Proof.
unfold SpecFloat.binary_round_aux, binary_round_aux.
set (mrse' := shr_fexp _ _ _ _ _).
case mrse'; intros mrs' e'; simpl.
now rewrite (round_nearest_even_equiv sx).
Qed.

Lemma binary_round_equiv s m e :
  SpecFloat.binary_round prec emax s m e =
  binary_round prec emax mode_NE s m e.
Proof.
unfold SpecFloat.binary_round, binary_round, shl_align_fexp.
set (mez := shl_align _ _ _); case mez as [mz ez].
apply binary_round_aux_equiv.
Qed.

Lemma binary_normalize_equiv m e szero :
  SpecFloat.binary_normalize prec emax m e szero
  = B2SF (binary_normalize prec emax _ _ mode_NE m e szero).
Proof.
case m as [ | p | p].
- now simpl.
- simpl; rewrite B2SF_SF2B; apply binary_round_equiv.
- simpl; rewrite B2SF_SF2B; apply binary_round_equiv.
Qed.

Lemma SFadd_equiv (x y : binary_float prec emax) :
  SFadd prec emax (B2SF x) (B2SF y) = B2SF (Bplus mode_NE x y).
Proof.
destruct x as [sx|sx| |sx mx ex Bx]; destruct y as [sy|sy| |sy my ey By];
  try (now (trivial || simpl; case Bool.eqb)).
apply binary_normalize_equiv.
Qed.

Lemma SFsub_equiv (x y : binary_float prec emax) :
  SFsub prec emax (B2SF x) (B2SF y) = B2SF (Bminus mode_NE x y).
Proof.
destruct x as [sx|sx| |sx mx ex Bx]; destruct y as [sy|sy| |sy my ey By];
  try (now (trivial || simpl; case Bool.eqb)).
simpl.
unfold Zminus.
rewrite <- cond_Zopp_negb.
apply binary_normalize_equiv.
Qed.

Lemma SFmul_equiv (x y : binary_float prec emax) :
  SFmul prec emax (B2SF x) (B2SF y) = B2SF (Bmult mode_NE x y).
Proof.
destruct x as [sx|sx| |sx mx ex Bx]; destruct y as [sy|sy| |sy my ey By]; try now trivial.
simpl.
rewrite B2SF_SF2B.
apply binary_round_aux_equiv.
Qed.

Lemma SFdiv_equiv (x y : binary_float prec emax) :
  SFdiv prec emax (B2SF x) (B2SF y) = B2SF (Bdiv mode_NE x y).
Proof.
destruct x as [sx|sx| |sx mx ex Bx]; destruct y as [sy|sy| |sy my ey By];
  try (now (trivial || simpl; case Bool.eqb)).
simpl.
rewrite B2SF_SF2B.
set (melz := SFdiv_core_binary _ _ _ _ _ _).
case melz as [[mz ez] lz].
apply binary_round_aux_equiv.
Qed.
End Bridge.

Local Instance P24 : Prec_gt_0 24 := eq_refl.
Local Instance PE : Prec_lt_emax 24 128 := eq_refl.
Notation bf := (binary_float 24 128).
Local Open Scope R_scope.

Definition num (x : sf) : Prop := valid x = true /\ is_nan x = false.
Definition fin (x : sf) : Prop := valid x = true /\ is_fin x = true.

(** order-embedding of the non-NaN values into the reals: the infinities sit at +-2^200, beyond every finite value *)
Definition BIG : R := bpow radix2 200.
Definition rk (x : sf) : R :=
  match x with
  | S754_infinity true => - BIG
  | S754_infinity false => BIG
  | _ => SF2R radix2 x
  end.

Lemma BIG_gt : bpow radix2 128 < BIG.
Proof. unfold BIG. apply bpow_lt. lia. Qed.

Lemma BIG_pos : 0 < BIG.
Proof. unfold BIG. apply bpow_gt_0. Qed.

Lemma one_lt_BIG : 1 < BIG.
Proof. unfold BIG. apply (bpow_lt radix2 0 200). lia. Qed.
Global Opaque BIG.

Lemma num_cases : forall x, num x -> x = ninf \/ x = pinf \/ fin x.
Proof. intros [s|[|]| |s m e] [V N]; auto; [|discriminate|]; right; right; now split. Qed.

Lemma fin_num : forall x, fin x -> num x.
Proof. intros x [V F]. split; [easy|now destruct x]. Qed.

Lemma num_fin : forall x, num x -> is_inf x = false -> fin x.
Proof. intros x Hx I. now destruct (num_cases x Hx) as [->|[->|F]]. Qed.

Lemma fin_not_inf : forall x, fin x -> is_inf x = false.
Proof. now intros [s|s| |s m e] [V F]. Qed.

Lemma fin_not_pinf : forall x, fin x -> is_pinf x = false.
Proof. now intros [s|s| |s m e] [V F]. Qed.

Lemma fin_not_ninf : forall x, fin x -> is_ninf x = false.
Proof. now intros [s|s| |s m e] [V F]. Qed.

Lemma fin_B : forall x, fin x -> exists b : bf, x = B2SF b /\ is_finite b = true /\ rk x = B2R b.
Proof.
  intros x [V F]. exists (SF2B x V). rewrite B2SF_SF2B, is_finite_SF2B, B2R_SF2B.
  now destruct x as [s|s| |s m e].
Qed.

Lemma B_fin : forall b : bf, is_finite b = true -> fin (B2SF b) /\ rk (B2SF b) = B2R b.
Proof. intros b F. split; [split; [apply valid_binary_B2SF|]|]; now destruct b. Qed.

Lemma fin_bound : forall x, fin x -> Rabs (rk x) < bpow radix2 128.
Proof. intros x F. destruct (fin_B x F) as (b & _ & _ & ->). apply abs_B2R_lt_emax. Qed.

Lemma fin_lt_BIG : forall x, fin x -> - BIG < rk x < BIG.
Proof. intros x F. assert (X := fin_bound x F). apply Rabs_def2 in X. assert (G := BIG_gt). lra. Qed.

Lemma rk_range : forall x, num x -> - BIG <= rk x <= BIG.
Proof.
  intros x Hx. assert (G := BIG_pos).
  destruct (num_cases x Hx) as [->|[->|F]]; [cbn; lra..|]. apply fin_lt_BIG in F. lra.
Qed.

Lemma rk_ninf_iff : forall x, num x -> (rk x = - BIG <-> x = ninf).
Proof.
  intros x Hx. assert (G := BIG_pos). split; [|now intros ->].
  destruct (num_cases x Hx) as [->|[->|F]]; [easy|cbn; lra|]. apply fin_lt_BIG in F. lra.
Qed.

Lemma fcompare_fin : forall a b, fin a -> fin b -> SFcompare a b = Some (Rcompare (rk a) (rk b)).
Proof.
  intros a b Fa Fb. destruct (fin_B a Fa) as (A & -> & FA & ->), (fin_B b Fb) as (B & -> & FB & ->).
  now apply Bcompare_correct.
Qed.

Theorem fcompare_rk : forall a b, num a -> num b -> SFcompare a b = Some (Rcompare (rk a) (rk b)).
Proof.
  intros a b Ha Hb. assert (G := BIG_pos).
  destruct (num_cases a Ha) as [->|[->|Fa]]; destruct (num_cases b Hb) as [->|[->|Fb]];
    try (now apply fcompare_fin);
    try (assert (La := fin_lt_BIG a Fa)); try (assert (Lb := fin_lt_BIG b Fb)).
  (* an infinity on at least one side: both sides compute *)
  all: try (destruct a as [s| | |s m e]; try (now destruct Fa));
       try (destruct b as [s'| | |s' m' e']; try (now destruct Fb));
       cbn [SFcompare ninf pinf]; symmetry; f_equal;
       first [apply Rcompare_Eq; reflexivity | apply Rcompare_Lt; cbn [rk ninf pinf] in *; lra
             | apply Rcompare_Gt; cbn [rk ninf pinf] in *; lra].
Qed.

Lemma flt_spec : forall a b, num a -> num b -> if flt a b then rk a < rk b else rk b <= rk a.
Proof.
  intros a b Ha Hb. unfold flt, SFltb. rewrite fcompare_rk by easy. destruct (Rcompare_spec (rk a) (rk b)); lra.
Qed.

Lemma fle_spec : forall a b, num a -> num b -> if fle a b then rk a <= rk b else rk b < rk a.
Proof.
  intros a b Ha Hb. unfold fle, SFleb. rewrite fcompare_rk by easy. destruct (Rcompare_spec (rk a) (rk b)); lra.
Qed.

Lemma feq_spec : forall a b, num a -> num b -> if feq a b then rk a = rk b else rk a <> rk b.
Proof.
  intros a b Ha Hb. unfold feq, SFeqb. rewrite fcompare_rk by easy. destruct (Rcompare_spec (rk a) (rk b)); lra.
Qed.

Lemma flt_true_iff : forall a b, num a -> num b -> (flt a b = true <-> rk a < rk b).
Proof. intros a b Ha Hb. assert (X := flt_spec a b Ha Hb). destruct (flt a b); split; (easy || lra). Qed.

Lemma flt_false_iff : forall a b, num a -> num b -> (flt a b = false <-> rk b <= rk a).
Proof. intros a b Ha Hb. assert (X := flt_spec a b Ha Hb). destruct (flt a b); split; (easy || lra). Qed.

Lemma flt_nan_l : forall a b, is_nan a = true -> flt a b = false.
Proof. now intros [s|s| |s m e]. Qed.

Lemma flt_nan_r : forall a b, is_nan b = true -> flt a b = false.
Proof. intros a [s|s| |s m e] H; try easy. now destruct a as [s'|[|]| |[|] m' e']. Qed.

Lemma rk_fzero : rk fzero = 0. Proof. reflexivity. Qed.
Lemma rk_fone : rk fone = 1.
Proof. cbn. unfold F2R. cbn. lra. Qed.
Lemma rk_ninf : rk ninf = - BIG. Proof. reflexivity. Qed.
Lemma rk_pinf : rk pinf = BIG. Proof. reflexivity. Qed.
Lemma num_fzero : num fzero. Proof. now split. Qed.
Lemma num_fone : num fone. Proof. now split. Qed.
Lemma num_ninf : num ninf. Proof. now split. Qed.
Lemma num_pinf : num pinf. Proof. now split. Qed.
Lemma num_fmaxpos : num fmaxpos. Proof. now split. Qed.
Lemma num_fmaxneg : num fmaxneg. Proof. now split. Qed.

Lemma rk_zero : forall x, is_zero x = true -> rk x = 0.
Proof. now intros [s|s| |s m e]. Qed.

Lemma rk_finite_pos : forall m e, 0 < rk (S754_finite false m e).
Proof. intros. apply F2R_gt_0. reflexivity. Qed.

Lemma rk_finite_neg : forall m e, rk (S754_finite true m e) < 0.
Proof. intros. apply F2R_lt_0. reflexivity. Qed.

Local Open Scope Z_scope.
Lemma valid_finite : forall s p e,
  Z.max (Zdigits radix2 (Z.pos p) + e - 24) (-149) = e -> e <= 104 -> valid (S754_finite s p e) = true.
Proof.
  intros s p e H1 H2. unfold valid, valid_binary, bounded, canonical_mantissa. rewrite Zpos_digits2_pos.
  unfold SpecFloat.fexp, SpecFloat.emin, F32.prec, F32.emax.
  apply andb_true_intro. split; [apply Zeq_bool_true|apply Zle_bool_true]; lia.
Qed.

Lemma f32_of_bits_valid : forall b, valid (f32_of_bits b) = true.
Proof.
  intros b0. unfold f32_of_bits.
  set (b := b0 mod 4294967296).
  set (e := (b / 8388608) mod 256). set (m := b mod 8388608).
  assert (He : 0 <= e < 256) by (apply Z.mod_pos_bound; lia).
  assert (Hm : 0 <= m < 8388608) by (apply Z.mod_pos_bound; lia).
  clearbody e m b.
  destruct (e =? 255) eqn:E1. { now destruct (m =? 0). }
  apply Z.eqb_neq in E1.
  destruct (e =? 0) eqn:E0.
  - (* subnormal: at most 23 digits, exponent -149 *)
    destruct m as [|p|p]; [reflexivity| |lia]. apply valid_finite; [|lia].
    assert (D : Zdigits radix2 (Z.pos p) <= 23) by (apply Zdigits_le_Zpower; cbn; lia). lia.
  - (* normal: 24 digits *)
    apply Z.eqb_neq in E0. destruct (m + 8388608) as [|p|p] eqn:Em; [lia| |lia]. apply valid_finite; [|lia].
    rewrite (Zdigits_unique radix2 (Z.pos p) 24) by (cbn; lia). lia.
Qed.

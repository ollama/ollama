(** Lemmas about the sampler model (Model.v); the binary32 facts come from F32Facts.v and F32Mono.v. *)
From Coq Require Import ZArith List Bool SpecFloat Lia Reals Lra Permutation Sorted.
From V Require Import Sample.F32 Sample.Model Sample.F32Facts Sample.F32Mono.
Import ListNotations.
Open Scope Z_scope.

Section Lists.
Context {A B : Type}.
Implicit Types (l : list A) (P : A -> Prop) (R : A -> A -> Prop).

Lemma Forall_In : forall P l x, Forall P l -> In x l -> P x.
Proof. intros P l x H. now apply Forall_forall. Qed.

Lemma firstn_In : forall n l x, In x (firstn n l) -> In x l.
Proof. intros n l x H. rewrite <- (firstn_skipn n l). apply in_or_app. now left. Qed.

Lemma skipn_In : forall n l x, In x (skipn n l) -> In x l.
Proof. intros n l x H. rewrite <- (firstn_skipn n l). apply in_or_app. now right. Qed.

Lemma Forall_firstn : forall P n l, Forall P l -> Forall P (firstn n l).
Proof. intros P n l H. apply Forall_forall. intros t Ht. apply firstn_In in Ht. now apply (Forall_In P l). Qed.

Lemma nth_firstn_lt : forall l n j d, (j < n)%nat -> nth j (firstn n l) d = nth j l d.
Proof.
  induction l as [|x r IH]; intros n j d H; [now rewrite firstn_nil|].
  destruct n; [lia|]. cbn [firstn]. destruct j; [easy|]. cbn [nth]. apply IH. lia.
Qed.

Lemma nth_error_firstn_lt : forall l n j t, nth_error (firstn n l) j = Some t -> (j < n)%nat /\ nth_error l j = Some t.
Proof.
  induction l as [|x r IH]; intros n j t H; [rewrite firstn_nil in H; now destruct j|].
  destruct n; [now destruct j|]. cbn [firstn] in H. destruct j; [split; [lia|easy]|].
  cbn [nth_error] in *. apply IH in H. split; [lia|easy].
Qed.

Lemma last_nth_error : forall l d, l <> [] -> nth_error l (length l - 1) = Some (last l d).
Proof.
  induction l as [|x r IH]; intros d H; [easy|]. destruct r as [|y r'].
  - reflexivity.
  - cbn [length]. replace (S (S (length r')) - 1)%nat with (S (length (y :: r') - 1)) by (cbn; lia).
    cbn [nth_error]. rewrite (IH d); easy.
Qed.

Lemma StronglySorted_map_mono : forall R (R' : B -> B -> Prop) (f : A -> B) l,
  (forall a b, In a l -> In b l -> R a b -> R' (f a) (f b)) ->
  StronglySorted R l -> StronglySorted R' (map f l).
Proof.
  induction l as [|x r IH]; intros Hf Hs; [constructor|]. inversion Hs as [|? ? Sr Fx]; subst. cbn [map]. constructor.
  - apply IH; [|easy]. intros a b Ha Hb. apply Hf; now right.
  - apply Forall_map. apply Forall_forall. intros z Hz. apply Hf; [now left|now right|]. now apply (Forall_In _ r).
Qed.

Lemma StronglySorted_weaken : forall R R' l,
  (forall a b, In a l -> In b l -> R a b -> R' a b) -> StronglySorted R l -> StronglySorted R' l.
Proof.
  induction l as [|x r IH]; intros H Hs; [constructor|]. inversion Hs as [|? ? Sr Fx]; subst. constructor.
  - apply IH; [|easy]. intros a b Ha Hb. apply H; now right.
  - apply Forall_forall. intros z Hz. apply H; [now left|now right|]. exact (Forall_In _ _ _ Fx Hz).
Qed.

Lemma StronglySorted_firstn : forall R n l, StronglySorted R l -> StronglySorted R (firstn n l).
Proof.
  intros R n l. revert n. induction l as [|x r IH]; intros n H; [now rewrite firstn_nil|].
  destruct n; [constructor|]. inversion H as [|? ? Sr Fx]; subst. cbn [firstn]. constructor; [now apply IH|].
  now apply Forall_firstn.
Qed.

Lemma StronglySorted_app : forall R l1 l2,
  StronglySorted R l1 -> StronglySorted R l2 -> (forall a b, In a l1 -> In b l2 -> R a b) ->
  StronglySorted R (l1 ++ l2).
Proof.
  induction l1 as [|x r IH]; intros l2 H1 H2 Hc; [easy|]. inversion H1 as [|? ? Sr Fx]; subst. cbn [app]. constructor.
  - apply IH; try easy. intros a b Ha Hb. apply Hc; [now right|easy].
  - apply Forall_app. split; [easy|]. apply Forall_forall. intros y Hy. apply Hc; [now left|easy].
Qed.

Lemma NoDup_app' : forall l1 l2 : list A, NoDup l1 -> NoDup l2 -> (forall x, In x l1 -> In x l2 -> False) -> NoDup (l1 ++ l2).
Proof.
  induction l1 as [|x r IH]; intros l2 H1 H2 Hd; [easy|]. inversion H1; subst. cbn [app]. constructor.
  - intros X. apply in_app_or in X. destruct X as [X|X]; [easy|]. apply (Hd x); [now left|easy].
  - apply IH; try easy. intros y Hy. apply Hd. now right.
Qed.

Lemma same_key_eq : forall (f : A -> B) l a b, NoDup (map f l) -> In a l -> In b l -> f a = f b -> a = b.
Proof.
  induction l as [|x r IH]; intros a b H Ha Hb E; [easy|]. cbn [map] in H. inversion H as [|? ? Nx Nr]; subst.
  destruct Ha as [<-|Ha], Hb as [<-|Hb]; try easy.
  - exfalso. apply Nx. rewrite E. now apply in_map.
  - exfalso. apply Nx. rewrite <- E. now apply in_map.
  - now apply IH.
Qed.
End Lists.

Definition numl (l : list tok) : Prop := Forall (fun t => num (tv t)) l.

Lemma numl_In : forall l t, numl l -> In t l -> num (tv t).
Proof. intros l t. apply (Forall_In (fun t => num (tv t))). Qed.

Lemma numl_perm : forall l l', Permutation l l' -> numl l -> numl l'.
Proof. intros l l' P H. unfold numl. now rewrite <- P. Qed.

Lemma max_fold : forall l acc, num acc -> numl l ->
  let m := fold_left (fun m t => if fgt (tv t) m then tv t else m) l acc in
  num m /\ (rk acc <= rk m)%R /\ (forall t, In t l -> (rk (tv t) <= rk m)%R) /\
  (m = acc \/ exists t, In t l /\ tv t = m).
Proof.
  induction l as [|x r IH]; intros acc Ha Hl; cbn [fold_left].
  - split; [easy|]. split; [lra|]. split; [intros t []|now left].
  - inversion Hl as [|? ? Hx Hr]; subst.
    set (acc' := if fgt (tv x) acc then tv x else acc).
    assert (Ge : num acc' /\ (rk acc <= rk acc')%R /\ (rk (tv x) <= rk acc')%R /\ (acc' = acc \/ acc' = tv x)).
    { unfold acc', fgt. assert (F := flt_spec acc (tv x) Ha Hx).
      destruct (flt acc (tv x)); (split; [easy|]); (split; [lra|]); (split; [lra|]); [now right|now left]. }
    destruct Ge as (Ha' & G1 & G2 & G3). destruct (IH acc' Ha' Hr) as (I1 & I2 & I3 & I4).
    split; [easy|]. split; [lra|]. split.
    + intros t [<-|Ht]; [lra|now apply I3].
    + destruct I4 as [I4|(t & T1 & T2)]; [|right; exists t; split; [now right|easy]].
      destruct G3 as [G|G]; [left; congruence|right; exists x; split; [now left|congruence]].
Qed.

Lemma greedy_tv : forall l mx,
  tv (greedy_from mx l) = fold_left (fun m t => if fgt (tv t) m then tv t else m) l (tv mx).
Proof. induction l as [|t r IH]; intros mx; cbn; [easy|]. rewrite IH. now destruct (fgt (tv t) (tv mx)). Qed.

Lemma greedy_In : forall l mx, In (greedy_from mx l) (mx :: l).
Proof.
  induction l as [|t r IH]; intros mx; cbn [greedy_from]; [now left|].
  destruct (IH (if fgt (tv t) (tv mx) then t else mx)) as [<-|H]; [|now do 2 right].
  destruct (fgt (tv t) (tv mx)); [right|]; now left.
Qed.

Lemma max_logit_spec : forall ts, numl ts -> (exists t, In t ts /\ tv t <> ninf) ->
  num (max_logit ts) /\ max_logit ts <> ninf /\ (forall t, In t ts -> (rk (tv t) <= rk (max_logit ts))%R) /\
  exists t, In t ts /\ tv t = max_logit ts.
Proof.
  intros ts Hts Hw.
  destruct (max_fold ts ninf num_ninf Hts) as (M1 & _ & M3 & M4). fold (max_logit ts) in M1, M3, M4.
  assert (Mn : max_logit ts <> ninf).
  { intros X. destruct Hw as (w & W1 & W2). assert (L := M3 w W1). rewrite X, rk_ninf in L.
    assert (Nw := numl_In ts w Hts W1). assert (Q := rk_range _ Nw). apply W2, rk_ninf_iff; [easy|lra]. }
  split; [exact M1|]. split; [exact Mn|]. split; [exact M3|]. destruct M4 as [M4|M4]; [now elim Mn|exact M4].
Qed.

Definition all_ninf (l : list tok) : Prop := Forall (fun t => tv t = ninf) l.

Lemma max_logit_all_ninf : forall l, all_ninf l -> max_logit l = ninf.
Proof.
  unfold max_logit. induction l as [|x r IH]; intros H; [easy|]. inversion H as [|? ? Hx Hr]; subst.
  cbn [fold_left]. rewrite Hx. cbn. now apply IH.
Qed.

Lemma all_ninf_or_not : forall l : list sf, Forall (fun x => x = ninf) l \/ exists x, In x l /\ x <> ninf.
Proof.
  induction l as [|v r [IH|(x & Hx & Nx)]]; [now left| |right; exists x; split; [now right|easy]].
  destruct (is_ninf v) eqn:Nv.
  - left. constructor; [now destruct v as [s|[|]| |s m e]|easy].
  - right. exists v. split; [now left|]. now intros ->.
Qed.

Lemma enumerate_length : forall l s, length (enumerate s l) = length l.
Proof. induction l; intros; cbn; [easy|now rewrite IHl]. Qed.

Lemma enumerate_map_tv : forall l s, map tv (enumerate s l) = l.
Proof. induction l; intros; cbn; [easy|now rewrite IHl]. Qed.

Lemma enumerate_In : forall l s t, In t (enumerate s l) ->
  s <= tid t < s + Z.of_nat (length l) /\ nth_error l (Z.to_nat (tid t - s)) = Some (tv t).
Proof.
  induction l as [|v r IH]; intros s t H; [easy|].
  cbn [enumerate] in H. destruct H as [<-|H].
  - cbn [tid tv fst snd length]. split; [lia|]. now rewrite Z.sub_diag.
  - apply IH in H. destruct H as [H1 H2]. cbn [length]. split; [lia|].
    replace (Z.to_nat (tid t - s)) with (S (Z.to_nat (tid t - (s + 1)))) by lia. exact H2.
Qed.

Lemma enumerate_numl : forall l s, Forall num l -> numl (enumerate s l).
Proof. induction l; intros s H; cbn; constructor; inversion H; subst; [easy|now apply IHl]. Qed.

Lemma enumerate_vals : forall l s v, In v l -> exists t, In t (enumerate s l) /\ tv t = v.
Proof.
  induction l as [|a r IH]; intros s v H; [easy|]. destruct H as [<-|H].
  - exists (s, a). split; [now left|easy].
  - destruct (IH (s + 1) v H) as (t & T1 & T2). exists t. split; [now right|easy].
Qed.

Definition desc (a b : tok) : Prop := flt (tv a) (tv b) = false.
Definition descR (a b : tok) : Prop := (rk (tv b) <= rk (tv a))%R.

Lemma sorted_desc_iff : forall l, numl l -> (StronglySorted desc l <-> StronglySorted descR l).
Proof.
  intros l Hl. split; apply StronglySorted_weaken; intros a b Ha Hb; apply flt_false_iff; now apply (numl_In l).
Qed.

Lemma insert_desc_perm : forall x l, Permutation (insert_desc x l) (x :: l).
Proof.
  induction l as [|y r IH]; cbn [insert_desc]; [easy|].
  destruct (flt (tv x) (tv y)); [|easy].
  rewrite IH. apply perm_swap.
Qed.

Lemma sort_desc_perm : forall l, Permutation (sort_desc l) l.
Proof.
  induction l as [|x r IH]; [easy|]. unfold sort_desc in *. cbn [fold_right].
  rewrite insert_desc_perm. now constructor.
Qed.

Lemma insert_desc_sorted : forall x l, num (tv x) -> numl l ->
  StronglySorted descR l -> StronglySorted descR (insert_desc x l).
Proof.
  induction l as [|y r IH]; intros Hx Hl Hs; cbn [insert_desc].
  - constructor; constructor.
  - inversion Hl as [|? ? Hy Hr]; subst. inversion Hs as [|? ? Sr Fy]; subst.
    assert (F := flt_spec (tv x) (tv y) Hx Hy). destruct (flt (tv x) (tv y)).
    + constructor; [now apply IH|]. rewrite insert_desc_perm. constructor; [unfold descR; lra|easy].
    + constructor; [now constructor|]. constructor; [exact F|].
      eapply Forall_impl; [|exact Fy]. unfold descR. intros t Ht. lra.
Qed.

Lemma sort_desc_sorted : forall l, numl l -> StronglySorted descR (sort_desc l).
Proof.
  induction l as [|x r IH]; intros H; [constructor|]. inversion H; subst.
  unfold sort_desc in *. cbn [fold_right]. apply insert_desc_sorted; try easy.
  - apply (numl_perm r); [|easy]. symmetry. apply sort_desc_perm.
  - now apply IH.
Qed.

(** a legal result of topK: the first [eff_k] tokens of *some* descending arrangement of the input (the Go code's
    pdqsort / heap produce one such arrangement; which one, among equal values, is not specified) *)
Definition legal_topk (ts : list tok) (k : Z) (S : list tok) : Prop :=
  exists L, Permutation L ts /\ StronglySorted desc L /\ S = firstn (eff_k (length ts) k) L.

Lemma topK_firstn : forall ts k, topK ts k = firstn (eff_k (length ts) k) (sort_desc ts).
Proof.
  intros ts k. unfold topK, eff_k. destruct ((Z.of_nat (length ts) <=? k) || (k <=? 0)); [|easy].
  rewrite <- (Permutation_length (sort_desc_perm ts)). now rewrite firstn_all.
Qed.

Lemma topK_legal : forall ts k, numl ts -> legal_topk ts k (topK ts k).
Proof.
  intros ts k H. exists (sort_desc ts). split; [apply sort_desc_perm|]. split; [|apply topK_firstn].
  apply sorted_desc_iff; [|now apply sort_desc_sorted]. apply (numl_perm ts); [|easy]. symmetry; apply sort_desc_perm.
Qed.

Lemma eff_k_pos : forall n k, (1 <= n)%nat -> (1 <= eff_k n k)%nat.
Proof.
  intros n k Hn. unfold eff_k. destruct ((Z.of_nat n <=? k) || (k <=? 0)) eqn:X; [easy|].
  apply orb_false_iff in X. lia.
Qed.

Lemma legal_facts : forall ts k top, numl ts -> ts <> [] -> legal_topk ts k top ->
  numl top /\ incl top ts /\ StronglySorted descR top /\
  exists h rest, top = h :: rest /\ forall t, In t ts -> (rk (tv t) <= rk (tv h))%R.
Proof.
  intros ts k top Hn Hne (L & P & Ss & ->).
  assert (HL : numl L) by (apply (numl_perm ts); [now symmetry|easy]).
  apply sorted_desc_iff in Ss; [|easy].
  split; [now apply Forall_firstn|]. split.
  { intros t Ht. apply firstn_In in Ht. now apply (Permutation_in _ P). }
  split; [now apply StronglySorted_firstn|].
  destruct L as [|h L']. { apply Permutation_nil in P. now subst. }
  assert (Hk := eff_k_pos (length ts) k ltac:(destruct ts; [easy|cbn; lia])).
  destruct (eff_k (length ts) k) as [|n]; [lia|]. exists h, (firstn n L'). split; [easy|].
  intros t Ht. apply (Permutation_in _ (Permutation_sym P)) in Ht.
  inversion Ss as [|? ? _ Fh]; subst. destruct Ht as [<-|Ht]; [lra|]. exact (Forall_In _ _ _ Fh Ht).
Qed.

Lemma legal_rest : forall ts k top, legal_topk ts k top ->
  exists rest, Permutation (top ++ rest) ts /\ forall s t, In s top -> In t rest -> flt (tv s) (tv t) = false.
Proof.
  intros ts k top (L & P & Ss & ->). generalize (eff_k (length ts) k). intros n.
  exists (skipn n L). split; [now rewrite firstn_skipn|].
  clear P. revert n. induction L as [|x L IH]; intros n s t Hs Ht.
  - now rewrite firstn_nil in Hs.
  - destruct n; [easy|]. cbn in Hs, Ht. inversion Ss as [|? ? SL Fx]; subst. destruct Hs as [<-|Hs].
    + apply (Forall_In _ _ _ Fx). now apply (skipn_In n).
    + now apply (IH SL n).
Qed.

Lemma legal_enumerate : forall logits k top, Forall num logits -> (exists x, In x logits /\ x <> ninf) ->
  legal_topk (enumerate 0 logits) k top ->
  numl top /\ incl top (enumerate 0 logits) /\ StronglySorted descR top /\ exists h rest, top = h :: rest /\ tv h <> ninf.
Proof.
  intros logits k top Hl (x & Hx & Nx) HS.
  assert (Hts : numl (enumerate 0 logits)) by now apply enumerate_numl.
  assert (Hne : enumerate 0 logits <> []) by now destruct logits.
  destruct (legal_facts _ k top Hts Hne HS) as (L1 & L2 & L3 & h & rest & ES & Hh).
  split; [exact L1|]. split; [exact L2|]. split; [exact L3|]. exists h, rest. split; [exact ES|]. intros X.
  destruct (enumerate_vals logits 0 x Hx) as (tx & Tx1 & Tx2). apply Hh in Tx1. rewrite Tx2, X, rk_ninf in Tx1.
  assert (Nn := Forall_In _ _ _ Hl Hx). assert (Q := rk_range x Nn). apply Nx, rk_ninf_iff; [easy|lra].
Qed.

Definition nthv (x : list tok) (i : nat) : sf := tv (nth i x (0, fnan)).

(** slices.BinarySearchFunc: the invariant holds on any list, sorted or not *)
Lemma bsearch_spec : forall fuel x target i j,
  (i <= j <= length x)%nat -> (j - i < fuel)%nat ->
  (i = 0%nat \/ flt (nthv x (i - 1)) target = true) ->
  (j = length x \/ flt (nthv x j) target = false) ->
  let k := bsearch fuel x target i j in
  (i <= k <= j)%nat /\ (k = 0%nat \/ flt (nthv x (k - 1)) target = true) /\
  (k = length x \/ flt (nthv x k) target = false).
Proof.
  induction fuel as [|f IH]; intros x target i j Hij Hf Hi Hj; [lia|].
  cbn [bsearch]. destruct (i <? j)%nat eqn:L.
  - apply Nat.ltb_lt in L. set (h := ((i + j) / 2)%nat).
    assert (Hh : (i <= h < j)%nat).
    { unfold h. split; [apply Nat.div_le_lower_bound|apply Nat.div_lt_upper_bound]; lia. }
    clearbody h. clear L. fold (nthv x h). destruct (flt (nthv x h) target) eqn:F.
    + assert (A : (S h <= j <= length x /\ j - S h < f)%nat) by lia.
      destruct (IH x target (S h) j (proj1 A) (proj2 A)) as (K1 & K2); [|exact Hj|split; [lia|exact K2]].
      right. now rewrite Nat.sub_1_r.
    + assert (A : (i <= h <= length x /\ h - i < f)%nat) by lia.
      destruct (IH x target i h (proj1 A) (proj2 A) Hi (or_intror F)) as (K1 & K2). split; [lia|exact K2].
  - apply Nat.ltb_ge in L. replace j with i in * by lia. split; [lia|now split].
Qed.

Lemma cumsum_length : forall l s, length (cumsum s l) = length l.
Proof. induction l; intros; cbn; [easy|now rewrite IHl]. Qed.

(** partial sums as topP computes them: the sum of the first j+1 values, starting from s *)
Fixpoint psum (s : sf) (l : list tok) (j : nat) : sf :=
  match l with
  | [] => s
  | t :: r => match j with O => fadd s (tv t) | S j' => psum (fadd s (tv t)) r j' end
  end.

Lemma cumsum_nth : forall l s k t, nth_error l k = Some t -> nth_error (cumsum s l) k = Some (tid t, psum s l k).
Proof.
  induction l as [|x r IH]; intros s k t H; [now destruct k|]. destruct k; cbn in *; [now inversion H|now apply IH].
Qed.

Lemma psum_S : forall l s k t, nth_error l (S k) = Some t -> psum s l (S k) = fadd (psum s l k) (tv t).
Proof.
  induction l as [|x r IH]; intros s k t H; [easy|]. cbn [nth_error] in H. destruct k; [|now apply IH].
  destruct r; [easy|]. cbn in *. now inversion H.
Qed.

Definition nonneg (t : tok) : Prop := num (tv t) /\ (0 <= rk (tv t))%R.

Lemma cumsum_nonneg : forall l s, num s -> (0 <= rk s)%R -> Forall nonneg l -> Forall nonneg (cumsum s l).
Proof.
  induction l as [|x r IH]; intros s Hs Ps Hl; [constructor|]. inversion Hl as [|? ? [Hx Px] Hr]; subst.
  cbn [cumsum]. destruct (fadd_nonneg s (tv x) Hs Hx Ps Px) as (A1 & A2 & A3).
  constructor; [split; [easy|cbn [tv snd]; lra]|]. apply IH; try easy. lra.
Qed.

Lemma sum_fold : forall l acc, num acc -> (0 <= rk acc)%R -> Forall nonneg l ->
  let s := fold_left (fun s t => fadd s (tv t)) l acc in
  num s /\ (rk acc <= rk s)%R /\ forall t, In t l -> (rk (tv t) <= rk s)%R.
Proof.
  induction l as [|x r IH]; intros acc Ha Pa Hl; cbn [fold_left].
  - split; [easy|]. split; [lra|]. intros t [].
  - inversion Hl as [|? ? [Hx Px] Hr]; subst.
    destruct (fadd_nonneg acc (tv x) Ha Hx Pa Px) as (A1 & A2 & A3).
    destruct (IH (fadd acc (tv x)) A1 ltac:(lra) Hr) as (I1 & I2 & I3).
    split; [easy|]. split; [lra|]. intros t [<-|Ht]; [lra|now apply I3].
Qed.

Lemma topP_cut_pos : forall l p s, l <> [] -> (1 <= topP_cut p s l <= length l)%nat.
Proof.
  induction l as [|x r IH]; intros p s H; [easy|]. cbn [topP_cut length].
  destruct (fgt (fadd s (tv x)) p); [lia|]. destruct r; [cbn; lia|].
  specialize (IH p (fadd s (tv x)) ltac:(easy)). lia.
Qed.

Lemma topP_firstn : forall l p, l <> [] ->
  let c := if feq p fone then length l else topP_cut p fzero l in
  (1 <= c <= length l)%nat /\ topP l p = firstn c l.
Proof.
  intros l p H. unfold topP. destruct (feq p fone).
  - split; [destruct l; [easy|cbn; lia]|now rewrite firstn_all].
  - split; [now apply topP_cut_pos|easy].
Qed.

Lemma minP_cut_le : forall l thr, (minP_cut thr l <= length l)%nat.
Proof. induction l; intros; cbn; [lia|]. destruct (flt (tv a) thr); [lia|]. specialize (IHl thr). lia. Qed.

Lemma minP_cut_kept : forall l thr j, (j < minP_cut thr l)%nat -> flt (nthv l j) thr = false.
Proof.
  induction l as [|x r IH]; intros thr j H; [cbn in H; lia|].
  cbn [minP_cut] in H. destruct (flt (tv x) thr) eqn:F; [lia|].
  destruct j; [exact F|]. unfold nthv. cbn [nth]. apply IH. lia.
Qed.

Lemma minP_cut_exact : forall l thr, numl l -> num thr -> StronglySorted descR l ->
  forall j, (j < length l)%nat -> ((j < minP_cut thr l)%nat <-> flt (nthv l j) thr = false).
Proof.
  induction l as [|x r IH]; intros thr Hl Ht Hs j Hj; [cbn in Hj; lia|].
  inversion Hl as [|? ? Hx Hr]; subst. inversion Hs as [|? ? Sr Fx]; subst.
  cbn [minP_cut]. destruct (flt (tv x) thr) eqn:F.
  - split; [lia|]. intros X. exfalso.
    destruct j; [unfold nthv in X; cbn in X; congruence|].
    apply (flt_true_iff _ _ Hx Ht) in F.
    unfold nthv in X. cbn [nth] in X.
    assert (In (nth j r (0, fnan)) r) by (apply nth_In; cbn in Hj; lia).
    apply flt_false_iff in X; [|now apply (numl_In r)|easy].
    assert (Y := Forall_In _ _ _ Fx H). unfold descR in Y. lra.
  - destruct j; [split; [intros _; exact F|lia]|].
    unfold nthv. cbn [nth]. cbn [length] in Hj. specialize (IH thr Hr Ht Sr j ltac:(lia)). unfold nthv in IH.
    split; intros X; [apply IH; lia|apply IH in X; lia].
Qed.

Lemma topP_cut_before : forall l p s j, (S j < topP_cut p s l)%nat -> fgt (psum s l j) p = false.
Proof.
  induction l as [|x r IH]; intros p s j H; [cbn in H; lia|].
  cbn [topP_cut] in H. destruct (fgt (fadd s (tv x)) p) eqn:F; [lia|].
  destruct j; [exact F|]. cbn [psum]. apply IH. lia.
Qed.

Lemma topP_cut_hit : forall l p s, l <> [] ->
  fgt (psum s l (topP_cut p s l - 1)) p = true \/
  (topP_cut p s l = length l /\ forall j, (j < length l)%nat -> fgt (psum s l j) p = false).
Proof.
  induction l as [|x r IH]; intros p s Hne; [easy|]. cbn [topP_cut].
  destruct (fgt (fadd s (tv x)) p) eqn:F.
  - left. cbn. exact F.
  - destruct r as [|y r'].
    + right. cbn. split; [easy|]. intros j Hj. assert (j = 0%nat) by lia. subst. exact F.
    + destruct (IH p (fadd s (tv x)) ltac:(easy)) as [H|[H1 H2]].
      * left. assert (Q := topP_cut_pos (y :: r') p (fadd s (tv x)) ltac:(easy)).
        replace (S (topP_cut p (fadd s (tv x)) (y :: r')) - 1)%nat with (S (topP_cut p (fadd s (tv x)) (y :: r') - 1)) by lia.
        exact H.
      * right. split; [cbn [length] in *; lia|]. intros j Hj. destruct j; [exact F|]. cbn [psum]. apply H2. cbn [length] in *. lia.
Qed.

Lemma minP_firstn : forall l mp, l <> [] -> Forall nonneg l -> num mp -> (0 <= rk mp <= 1)%R ->
  let c := minP_cut (fmul (nthv l 0) mp) l in
  (1 <= c <= length l)%nat /\ minP l mp = Some (firstn c l).
Proof.
  intros [|t0 rest] mp Hne Hnn Hmp Pmp; [easy|]. cbn zeta. change (nthv (t0 :: rest) 0) with (tv t0).
  split; [|reflexivity]. split; [|apply minP_cut_le].
  inversion Hnn as [|? ? [N0 P0] _]; subst. cbn [minP_cut].
  assert (Fb := fmul_unit_r mp (tv t0) Hmp N0 Pmp P0).
  replace (flt (tv t0) (fmul (tv t0) mp)) with false; [lia|]. symmetry.
  destruct (is_nan (fmul (tv t0) mp)) eqn:Nn; [now apply flt_nan_r|]. destruct (Fb eq_refl) as (Fb1 & Fb2).
  apply flt_false_iff; try easy; lra.
Qed.

Lemma filters_spec : forall probs p mp, probs <> [] -> Forall nonneg probs -> num mp -> (0 <= rk mp <= 1)%R ->
  exists c, (1 <= c <= length probs)%nat /\ minP (topP probs p) mp = Some (firstn c probs) /\
    (forall j, (j < c)%nat -> flt (nthv probs j) (fmul (nthv probs 0) mp) = false) /\
    (feq p fone = false -> forall j, (S j < c)%nat -> fgt (psum fzero probs j) p = false).
Proof.
  intros probs p mp Hne Hnn Hmp Pmp.
  destruct (topP_firstn probs p Hne) as [Hc1 Ht]. set (c1 := if feq p fone then _ else _) in *.
  assert (Hk : firstn c1 probs <> []) by (destruct probs; [easy|]; destruct c1; [lia|easy]).
  destruct (minP_firstn (firstn c1 probs) mp Hk (Forall_firstn _ _ _ Hnn) Hmp Pmp) as [Hc2 Hm].
  unfold nthv in Hc2, Hm. rewrite nth_firstn_lt in Hc2, Hm by lia. fold (nthv probs 0) in Hc2, Hm.
  set (thr := fmul (nthv probs 0) mp) in *. set (c2 := minP_cut thr (firstn c1 probs)) in *.
  rewrite firstn_length in Hc2. exists c2. split; [lia|]. split.
  { rewrite Ht, Hm, firstn_firstn. do 2 f_equal. lia. }
  split.
  - intros j Hj. assert (X := minP_cut_kept _ thr j Hj). unfold nthv in *. now rewrite nth_firstn_lt in X by lia.
  - intros Fp j Hj. apply topP_cut_before. unfold c1 in Hc2. rewrite Fp in Hc2. lia.
Qed.

(** sample() overwrites the values with the cumulative sums before it returns tokens[idx]: [a] carries the id of [t]
    and a cumulative sum as its value *)
Lemma pick_spec : forall ts r, ts <> [] -> Forall nonneg ts -> num r -> (0 <= rk r <= 1)%R ->
  exists k a t, nth_error ts k = Some t /\ pick ts r = Tok a /\ tid a = tid t /\
    (k = 0%nat \/ is_zero (tv t) = false).
Proof.
  intros ts r Hne Hnn Hr Pr.
  set (cs := cumsum fzero ts).
  assert (Hcs : Forall nonneg cs) by (apply cumsum_nonneg; [apply num_fzero|rewrite rk_fzero; lra|easy]).
  assert (Hlen : length cs = length ts) by apply cumsum_length.
  assert (Hn : (1 <= length cs)%nat) by (rewrite Hlen; destruct ts; [easy|cbn; lia]).
  assert (Hcne : cs <> []) by (destruct cs; [cbn in Hn; lia|easy]).
  set (total := tv (last cs (0, fnan))).
  assert (Hl := last_nth_error cs (0, fnan) Hcne).
  destruct (Forall_In _ _ _ Hcs (nth_error_In _ _ Hl)) as [Nt Pt]. fold total in Nt, Pt.
  set (r' := fmul r total).
  (* whatever is below r * total is below total *)
  assert (Hr' : forall x, num x -> flt x r' = true -> num r' /\ (rk x < rk r' <= rk total)%R).
  { intros x Hx Fx. assert (Rb := fmul_unit_l r total Hr Nt Pr Pt). fold r' in Rb.
    destruct (is_nan r') eqn:Nr; [now rewrite flt_nan_r in Fx|]. destruct (Rb eq_refl) as (Rb1 & Rb2).
    apply (flt_true_iff _ _ Hx Rb1) in Fx. split; [easy|lra]. }
  destruct (bsearch_spec (S (length cs)) cs r' 0 (length cs) ltac:(lia) ltac:(lia) (or_introl eq_refl) (or_introl eq_refl)) as (K1 & K2 & K3).
  set (k := bsearch (S (length cs)) cs r' 0 (length cs)) in *.
  (* the search does not run off the end: the last cumulative sum is not below r * total *)
  assert (Hk : (k < length cs)%nat).
  { destruct (Nat.eq_dec k (length cs)) as [Ek|]; [|lia]. exfalso.
    destruct K2 as [K2|K2]; [lia|]. rewrite Ek in K2. unfold nthv in K2.
    rewrite (nth_error_nth _ _ _ Hl) in K2. fold total in K2. destruct (Hr' total Nt K2). lra. }
  destruct (nth_error ts k) as [t|] eqn:Tt; [|apply nth_error_None in Tt; lia].
  assert (Ea := cumsum_nth ts fzero k t Tt). fold cs in Ea.
  exists k, (tid t, psum fzero ts k), t. split; [easy|]. split.
  { unfold pick. destruct ts; [easy|]. fold cs. fold total. fold r'. fold k. destruct Nt as [_ Nt]. now rewrite Nt, Ea. }
  split; [easy|].
  (* at a position k > 0 the sums before and at k differ (one is below r * total, the other is not), so the value
     added at k is not a zero *)
  destruct k as [|k']; [now left|right].
  destruct K2 as [K2|K2]; [lia|]. destruct K3 as [K3|K3]; [lia|].
  replace (S k' - 1)%nat with k' in K2 by lia.
  destruct (nth_error ts k') as [t'|] eqn:Tt'; [|apply nth_error_None in Tt'; lia].
  assert (Ea' := cumsum_nth ts fzero k' t' Tt'). fold cs in Ea'.
  unfold nthv in K2, K3. rewrite (nth_error_nth _ _ _ Ea') in K2. rewrite (nth_error_nth _ _ _ Ea) in K3.
  cbn [tv snd] in K2, K3. rewrite (psum_S _ _ _ _ Tt) in K3.
  destruct (is_zero (tv t)) eqn:Z; [exfalso|easy].
  destruct (Forall_In _ _ _ Hcs (nth_error_In _ _ Ea')) as [Na' _]. cbn [tv snd] in Na'.
  destruct (fadd_zero_r _ (tv t) Na' Z) as (Z1 & Z2).
  destruct (Hr' _ Na' K2) as [Rb1 Rb2]. apply (flt_false_iff _ _ Z1 Rb1) in K3. lra.
Qed.

Definition all_nan (l : list tok) : Prop := Forall (fun t => is_nan (tv t) = true) l.

Lemma sum_nan : forall (l : list tok) acc, is_nan acc = true -> is_nan (fold_left (fun s t => fadd s (tv t)) l acc) = true.
Proof. induction l as [|x r IH]; intros acc H; [easy|]. cbn [fold_left]. now apply IH, fadd_nan_l. Qed.

Lemma cumsum_alln : forall l s, all_nan l -> all_nan (cumsum s l).
Proof.
  induction l as [|x r IH]; intros s H; [constructor|]. inversion H; subst. cbn [cumsum].
  constructor; [cbn [tv snd]; now apply fadd_nan_r|now apply IH].
Qed.

Lemma pick_alln : forall ts r, ts <> [] -> all_nan ts -> pick ts r = ErrNaN.
Proof.
  intros ts r Hne H. unfold pick. destruct ts as [|t0 rest] eqn:Ets; [easy|]. rewrite <- Ets in *.
  set (cs := cumsum fzero ts).
  assert (Hcs : all_nan cs) by now apply cumsum_alln.
  assert (Hcne : cs <> []) by (unfold cs; rewrite Ets; easy).
  assert (Hl := last_nth_error cs (0, fnan) Hcne). apply nth_error_In in Hl.
  now rewrite (Forall_In _ _ _ Hcs Hl).
Qed.

Lemma filters_alln : forall probs p mp r, probs <> [] -> all_nan probs ->
  match minP (topP probs p) mp with Some ts' => pick ts' r = ErrNaN | None => False end.
Proof.
  intros probs p mp r Hne H. destruct (topP_firstn probs p Hne) as [Hc1 ->].
  destruct probs as [|t0 rest]; [easy|]. destruct (if feq p fone then _ else _) as [|c1']; [lia|].
  cbn [firstn minP]. inversion H; subst. apply pick_alln.
  - cbn [minP_cut]. now rewrite flt_nan_l.
  - apply Forall_firstn. constructor; [easy|now apply Forall_firstn].
Qed.

Definition scaled (T : sf) (top : list tok) : list tok := map (fun x => (tid x, scale T (tv x))) top.

Lemma temperature_scaled : forall top t, temperature top t = scaled (eff_temp t) top.
Proof. reflexivity. Qed.

Section Scaled.
Variables (T : sf) (top : list tok).
Hypothesis FT : fin T.
Hypothesis PT : (0 < rk T)%R.
Hypothesis HS : numl top.
Hypothesis Hw : exists t, In t top /\ tv t <> ninf.

Lemma scaled_numl : numl (scaled T top).
Proof.
  apply Forall_map. eapply Forall_impl; [|exact HS]. intros t Ht. now apply scale_num.
Qed.

Lemma scaled_not_all_ninf : exists t, In t (scaled T top) /\ tv t <> ninf.
Proof.
  destruct Hw as (w & W1 & W2). exists (tid w, scale T (tv w)). split; [now apply (in_map (fun x => (tid x, scale T (tv x))))|].
  cbn [tv snd]. intros X. apply scale_ninf_iff in X; try easy. now apply (numl_In top).
Qed.

Lemma scaled_le_max : forall t, In t top -> (rk (scale T (tv t)) <= rk (max_logit (scaled T top)))%R.
Proof.
  intros t Ht. destruct (max_logit_spec _ scaled_numl scaled_not_all_ninf) as (_ & _ & M3 & _).
  now apply (M3 (tid t, scale T (tv t))), (in_map (fun x => (tid x, scale T (tv x)))).
Qed.

End Scaled.

Definition params_ok (temp topp minp : sf) : Prop := num temp /\ is_inf temp = false /\ num topp /\ num minp.
(** a draw of rng.Float32(): a number in [0,1] *)
Definition draw_ok (r : sf) : Prop := num r /\ (0 <= rk r <= 1)%R.

Lemma clamp01_unit : forall p, num p -> num (clamp01 p) /\ (0 <= rk (clamp01 p) <= 1)%R.
Proof.
  intros p Hp. unfold clamp01.
  set (p1 := if flt p fzero then fzero else p).
  assert (H1 : num p1 /\ (0 <= rk p1)%R).
  { unfold p1. assert (F := flt_spec p fzero Hp num_fzero). rewrite rk_fzero in F.
    destruct (flt p fzero); [split; [apply num_fzero|rewrite rk_fzero; lra]|easy]. }
  destruct H1 as [N1 P1]. assert (F := fle_spec fone p1 num_fone N1). rewrite rk_fone in F.
  destruct (fle fone p1); [split; [apply num_fone|rewrite rk_fone; lra]|split; [easy|lra]].
Qed.

Lemma new_sampler_temp : forall temp k topp minp, num temp ->
  let t' := p_temp (new_sampler temp k topp minp) in
  (is_inf temp = false -> fin t') /\ if feq t' fzero then (rk temp <= 0)%R else (0 < rk temp /\ 0 < rk t')%R.
Proof.
  intros t k topp minp Ht. cbn [new_sampler p_temp]. assert (F := flt_spec t fzero Ht num_fzero). rewrite rk_fzero in F.
  destruct (flt t fzero).
  - split; [now split|]. cbn. lra.
  - split; [now apply num_fin|]. assert (Q := feq_spec t fzero Ht num_fzero). rewrite rk_fzero in Q.
    destruct (feq t fzero); lra.
Qed.

Lemma temp_zero_iff : forall temp k topp minp, num temp ->
  (feq (p_temp (new_sampler temp k topp minp)) fzero = true <-> (rk temp <= 0)%R).
Proof.
  intros temp k topp minp Ht. destruct (new_sampler_temp temp k topp minp Ht) as (_ & X).
  destruct (feq _ fzero); split; (easy || lra).
Qed.

Lemma eff_temp_fin : forall T, fin T -> (0 < rk T)%R -> fin (eff_temp T) /\ (0 < rk (eff_temp T))%R.
Proof.
  intros T FT PT. unfold eff_temp. rewrite (proj2 (fin_num T FT)).
  destruct (flt T ftiny); [|easy]. split; [now split|apply rk_finite_pos].
Qed.

Lemma new_sampler_facts : forall temp k topp minp, num temp -> is_inf temp = false -> num minp ->
  let pr := new_sampler temp k topp minp in
  num (p_minp pr) /\ (0 <= rk (p_minp pr) <= 1)%R /\
  (feq (p_temp pr) fzero = false -> fin (eff_temp (p_temp pr)) /\ (0 < rk (eff_temp (p_temp pr)))%R).
Proof.
  intros temp k topp minp Ht Ft Hm pr. destruct (clamp01_unit minp Hm) as (C1 & C2). split; [exact C1|]. split; [exact C2|].
  intros Fz. destruct (new_sampler_temp temp k topp minp Ht) as (T1 & T2). fold pr in T1, T2. rewrite Fz in T2.
  apply eff_temp_fin; [now apply T1|apply T2].
Qed.

Lemma mask_enumerate : forall rej l s, mask rej (enumerate s l) = enumerate s (mask_logits rej s l).
Proof.
  intros rej. induction l as [|v r IH]; intros s; [easy|]. cbn [enumerate mask_logits]. unfold mask in *. cbn [map tid tv fst snd].
  now rewrite IH.
Qed.

Lemma mask_logits_nth : forall rej l s i,
  nth_error (mask_logits rej s l) i = option_map (fun v => if rej (s + Z.of_nat i) then ninf else v) (nth_error l i).
Proof.
  intros rej. induction l as [|v r IH]; intros s i; [now destruct i|]. destruct i.
  - cbn. now rewrite Z.add_0_r.
  - cbn [mask_logits nth_error]. rewrite IH. now replace (s + 1 + Z.of_nat i) with (s + Z.of_nat (S i)) by lia.
Qed.

Lemma mask_logits_length : forall rej l s, length (mask_logits rej s l) = length l.
Proof. intros rej. induction l; intros; cbn; [easy|now rewrite IHl]. Qed.

Lemma mask_logits_num : forall rej l s, Forall num l -> Forall num (mask_logits rej s l).
Proof.
  intros rej. induction l as [|v r IH]; intros s H; [constructor|]. inversion H; subst. cbn [mask_logits].
  constructor; [destruct (rej s); [apply num_ninf|easy]|now apply IH].
Qed.

(** [E] stands for  x |-> float32(math.Exp(float64(x)));  the hypotheses are the components of Properties_C18.exp_oracle_ok
    and exp_oracle_mono, tested against math.Exp on every run of the check (props/c18.py) *)
Section Sampler.
Variable E : sf -> sf.
Hypothesis E_range : forall x, num x -> (rk x <= 0)%R -> num (E x) /\ (0 <= rk (E x) <= 1)%R.
Hypothesis E_zero : forall x, is_zero x = true -> E x = fone.
Hypothesis E_ninf : is_zero (E ninf) = true.
(* only for the descending probabilities *)
Hypothesis E_mono : forall x y, num x -> num y -> (rk x <= rk y)%R -> (rk y <= 0)%R -> (rk (E x) <= rk (E y))%R.
(* only for a logit vector that is all -Inf *)
Hypothesis E_nan : is_nan (E fnan) = true.

Definition exp_sum (ts : list tok) : sf :=
  fold_left (fun s t => fadd s (tv t)) (map (fun t => (tid t, E (sm_diff (max_logit ts) (tv t)))) ts) fzero.
Definition prob (ts : list tok) (v : sf) : sf := fdiv (E (sm_diff (max_logit ts) v)) (exp_sum ts).

Lemma softmax_prob : forall ts, softmax E ts = map (fun t => (tid t, prob ts (tv t))) ts.
Proof. intros ts. unfold softmax, prob, exp_sum. now rewrite map_map. Qed.

(** the exponentials are in [0,1], that of the maximum is 1, so the sum is at least 1 *)
Section Softmax.
Variable ts : list tok.
Hypothesis Hts : numl ts.
Hypothesis Hw : exists t, In t ts /\ tv t <> ninf.

Lemma exp_unit : forall v, num v -> (rk v <= rk (max_logit ts))%R ->
  num (E (sm_diff (max_logit ts) v)) /\ (0 <= rk (E (sm_diff (max_logit ts) v)) <= 1)%R.
Proof.
  intros v Hv Le. destruct (max_logit_spec ts Hts Hw) as (M1 & Mn & _). destruct (sm_diff_le0 _ v M1 Mn Hv Le). now apply E_range.
Qed.

Lemma exp_sum_spec : num (exp_sum ts) /\ (1 <= rk (exp_sum ts))%R.
Proof.
  destruct (max_logit_spec ts Hts Hw) as (M1 & Mn & M3 & m & Hm & Em). unfold exp_sum.
  set (es := map (fun t => (tid t, E (sm_diff (max_logit ts) (tv t)))) ts).
  assert (He : Forall nonneg es).
  { apply Forall_map, Forall_forall. intros t Ht.
    destruct (exp_unit (tv t) (numl_In ts t Hts Ht) (M3 t Ht)). split; cbn [tv snd]; [easy|lra]. }
  destruct (sum_fold es fzero num_fzero ltac:(rewrite rk_fzero; lra) He) as (U1 & _ & U3). split; [easy|].
  assert (I : In (tid m, E (sm_diff (max_logit ts) (tv m))) es) by (apply in_map_iff; now exists m).
  apply U3 in I. cbn [tv snd] in I. now rewrite Em, (E_zero _ (sm_diff_self _ M1 Mn)), rk_fone in I.
Qed.

Lemma prob_spec : forall v, num v -> (rk v <= rk (max_logit ts))%R ->
  num (prob ts v) /\ (0 <= rk (prob ts v))%R /\ (v = ninf -> is_zero (prob ts v) = true).
Proof.
  intros v Hv Le. destruct (exp_unit v Hv Le) as (E1 & E2). destruct exp_sum_spec as (U1 & U2).
  destruct (fdiv_prob _ _ E1 U1 E2 ltac:(lra)) as (F1 & F2 & F3).
  split; [easy|]. split; [easy|]. intros ->. apply F3.
  destruct (max_logit_spec ts Hts Hw) as (M1 & Mn & _). rewrite sm_diff_ninf by easy. exact E_ninf.
Qed.

Lemma prob_mono : forall v1 v2, num v1 -> num v2 ->
  (rk v1 <= rk v2)%R -> (rk v2 <= rk (max_logit ts))%R -> (rk (prob ts v1) <= rk (prob ts v2))%R.
Proof.
  intros v1 v2 H1 H2 L12 L2. destruct (max_logit_spec ts Hts Hw) as (M1 & Mn & _). destruct exp_sum_spec as (U1 & U2).
  destruct (sm_diff_le0 _ v1 M1 Mn H1 ltac:(lra)) as (D1 & _). destruct (sm_diff_le0 _ v2 M1 Mn H2 L2) as (D2 & Z2).
  destruct (exp_unit v1 H1 ltac:(lra)) as (A1 & A2). destruct (exp_unit v2 H2 L2) as (B1 & B2).
  apply fdiv_mono; [exact A1|exact B1|exact U1|lra| |lra|lra]. apply E_mono; [exact D1|exact D2| |exact Z2].
  now apply sm_diff_mono.
Qed.

End Softmax.

Definition prob_of (T : sf) (top : list tok) (v : sf) : sf := prob (scaled T top) (scale T v).

Lemma softmax_scaled : forall T top, softmax E (scaled T top) = map (fun t => (tid t, prob_of T top (tv t))) top.
Proof. intros T top. rewrite softmax_prob. unfold scaled. now rewrite map_map. Qed.

Section ScaledProbs.
Variables (T : sf) (top : list tok).
Hypothesis FT : fin T.
Hypothesis PT : (0 < rk T)%R.
Hypothesis HS : numl top.
Hypothesis Hw : exists t, In t top /\ tv t <> ninf.

Lemma prob_of_spec : forall t, In t top ->
  num (prob_of T top (tv t)) /\ (0 <= rk (prob_of T top (tv t)))%R /\ (tv t = ninf -> is_zero (prob_of T top (tv t)) = true).
Proof.
  intros t Ht. assert (Nt := numl_In top t HS Ht).
  destruct (prob_spec _ (scaled_numl T top FT PT HS) (scaled_not_all_ninf T top FT PT HS Hw) (scale T (tv t))) as (P1 & P2 & P3);
    [now apply scale_num|now apply (scaled_le_max T top FT PT HS Hw)|].
  split; [easy|]. split; [easy|]. intros X. apply P3. now apply scale_ninf_iff.
Qed.

Theorem probs_sorted : StronglySorted descR top -> StronglySorted descR (softmax E (scaled T top)).
Proof.
  intros Sorted. rewrite softmax_scaled. apply (StronglySorted_map_mono descR descR); [|easy].
  intros a b Ha Hb Rab. unfold descR in *. cbn [tv snd].
  assert (Na := numl_In top a HS Ha). assert (Nb := numl_In top b HS Hb).
  apply (prob_mono _ (scaled_numl T top FT PT HS) (scaled_not_all_ninf T top FT PT HS Hw)); try (now apply scale_num).
  - now apply scale_mono.
  - now apply (scaled_le_max T top FT PT HS Hw).
Qed.

End ScaledProbs.

(** -Inf - -Inf is NaN, so is its exponential, the sum and every quotient *)
Lemma softmax_all_ninf : forall ts, ts <> [] -> all_ninf ts -> all_nan (softmax E ts).
Proof.
  intros ts Hne H. rewrite softmax_prob. apply Forall_map, Forall_forall. intros t _. cbn [tv snd]. apply fdiv_nan_r.
  unfold exp_sum. rewrite (max_logit_all_ninf ts H). destruct ts as [|t0 rest]; [easy|]. inversion H as [|? ? H0 _]; subst.
  cbn [map fold_left tv snd]. rewrite H0. change (sm_diff ninf ninf) with fnan.
  apply sum_nan, fadd_nan_r, E_nan.
Qed.

Theorem after_topk_spec : forall pr top r,
  fin (eff_temp (p_temp pr)) -> (0 < rk (eff_temp (p_temp pr)))%R ->
  num (p_minp pr) -> (0 <= rk (p_minp pr) <= 1)%R ->
  numl top -> (exists t, In t top /\ tv t <> ninf) -> num r -> (0 <= rk r <= 1)%R ->
  let probs := softmax E (temperature top (p_temp pr)) in
  exists k t a, nth_error top k = Some t /\ after_topk E pr top r = Tok a /\ tid a = tid t /\
    (k = 0%nat \/ tv t <> ninf) /\
    flt (nthv probs k) (fmul (nthv probs 0) (p_minp pr)) = false /\
    (feq (p_topp pr) fone = false -> forall j, (j < k)%nat -> fgt (psum fzero probs j) (p_topp pr) = false).
Proof.
  intros pr top r FT PT Hmp Pmp HS Hw Hr Pr probs.
  assert (Ep : probs = map (fun t => (tid t, prob_of (eff_temp (p_temp pr)) top (tv t))) top) by (unfold probs; rewrite temperature_scaled; apply softmax_scaled).
  assert (HPV := prob_of_spec _ top FT PT HS Hw).
  assert (Hpne : probs <> []) by (rewrite Ep; destruct Hw as (w & Hw & _); now destruct top).
  assert (Hnn : Forall nonneg probs).
  { rewrite Ep. apply Forall_map, Forall_forall. intros t Ht. destruct (HPV t Ht) as (P1 & P2 & _). now split. }
  destruct (filters_spec probs (p_topp pr) (p_minp pr) Hpne Hnn Hmp Pmp) as (c & Hc & Ef & Fa & Fb).
  assert (Hkne : firstn c probs <> []) by (destruct probs; [easy|]; destruct c; [lia|easy]).
  destruct (pick_spec (firstn c probs) r Hkne (Forall_firstn _ _ _ Hnn) Hr Pr) as (k & a & t' & Tk & Pk & Ti & Kz).
  apply nth_error_firstn_lt in Tk. destruct Tk as [Kc Tk].
  rewrite Ep in Tk. rewrite nth_error_map in Tk. destruct (nth_error top k) as [t|] eqn:Es; [|easy].
  cbn in Tk. inversion Tk; subst t'. clear Tk.
  exists k, t, a. split; [easy|]. split.
  { unfold after_topk. fold probs. now rewrite Ef. }
  split; [easy|]. split.
  { destruct Kz as [Kz|Kz]; [now left|right]. intros X. cbn [tv snd] in Kz.
    destruct (HPV t (nth_error_In _ _ Es)) as (_ & _ & P3). now rewrite (P3 X) in Kz. }
  split; [now apply Fa|]. intros Fp j Hj. apply (Fb Fp). lia.
Qed.

Theorem after_topk_legal : forall temp k topp minp logits r top,
  params_ok temp topp minp -> draw_ok r -> Forall num logits ->
  (exists x, In x logits /\ x <> ninf) ->
  let pr := new_sampler temp k topp minp in
  feq (p_temp pr) fzero = false ->
  legal_topk (enumerate 0 logits) k top ->
  let probs := softmax E (temperature top (p_temp pr)) in
  exists i t a, nth_error top i = Some t /\ after_topk E pr top r = Tok a /\ tid a = tid t /\
    0 <= tid a < Z.of_nat (length logits) /\ nth_error logits (Z.to_nat (tid a)) = Some (tv t) /\ tv t <> ninf /\
    flt (nthv probs i) (fmul (nthv probs 0) (p_minp pr)) = false /\
    (feq (p_topp pr) fone = false -> forall j, (j < i)%nat -> fgt (psum fzero probs j) (p_topp pr) = false).
Proof.
  intros temp k topp minp logits r top (Nt & Ft & _ & Nm) (Hr & Pr) Hl Ex pr Fz HS probs.
  destruct (new_sampler_facts temp k topp minp Nt Ft Nm) as (M1 & M2 & M3). destruct (M3 Fz) as (T1 & T2).
  destruct (legal_enumerate logits k top Hl Ex HS) as (L1 & L2 & _ & h & rest & ES & Nh).
  assert (Hw : exists t, In t top /\ tv t <> ninf) by (exists h; split; [rewrite ES; now left|easy]).
  destruct (after_topk_spec pr top r T1 T2 M1 M2 L1 Hw Hr Pr) as (i & t & a & A1 & A2 & A3 & A4 & A5 & A6).
  exists i, t, a. split; [easy|]. split; [easy|]. split; [easy|].
  destruct (enumerate_In logits 0 t (L2 t (nth_error_In _ _ A1))) as (R1 & R2). rewrite Z.sub_0_r in R2.
  split; [rewrite A3; lia|]. split; [now rewrite A3|]. split; [|easy].
  destruct A4 as [A4|A4]; [|easy]. subst i. rewrite ES in A1. cbn in A1. now inversion A1; subst.
Qed.

Theorem probs_sorted_legal : forall temp k topp minp logits top,
  params_ok temp topp minp -> Forall num logits ->
  (exists x, In x logits /\ x <> ninf) ->
  let pr := new_sampler temp k topp minp in
  feq (p_temp pr) fzero = false ->
  legal_topk (enumerate 0 logits) k top ->
  let probs := softmax E (temperature top (p_temp pr)) in
  numl probs /\ StronglySorted desc probs.
Proof.
  intros temp k topp minp logits top (Nt & Ft & _ & Nm) Hl Ex pr Fz HS probs.
  destruct (new_sampler_facts temp k topp minp Nt Ft Nm) as (_ & _ & M3). destruct (M3 Fz) as (T1 & T2).
  destruct (legal_enumerate logits k top Hl Ex HS) as (L1 & _ & Sorted & h & rest & ES & Nh).
  assert (Hw : exists t, In t top /\ tv t <> ninf) by (exists h; split; [rewrite ES; now left|easy]).
  assert (Np : numl probs).
  { unfold probs. rewrite temperature_scaled, softmax_scaled.
    apply Forall_map, Forall_forall. intros t Ht. now apply prob_of_spec. }
  split; [easy|]. apply sorted_desc_iff; [easy|]. unfold probs. rewrite temperature_scaled. now apply probs_sorted.
Qed.

Theorem after_topk_all_masked : forall pr top r,
  fin (eff_temp (p_temp pr)) -> (0 < rk (eff_temp (p_temp pr)))%R ->
  top <> [] -> all_ninf top -> after_topk E pr top r = ErrNaN.
Proof.
  intros pr top r FT PT Hne Hall. unfold after_topk.
  rewrite temperature_scaled. set (sc := scaled (eff_temp (p_temp pr)) top).
  assert (Hsc : all_ninf sc).
  { apply Forall_map. eapply Forall_impl; [|exact Hall]. intros t ->. cbn [tv snd]. now apply scale_ninf_iff. }
  assert (Hsne : sc <> []) by (unfold sc, scaled; destruct top; easy).
  assert (Hp := softmax_all_ninf sc Hsne Hsc).
  assert (Hpne : softmax E sc <> []) by (unfold softmax; destruct sc; easy).
  assert (X := filters_alln (softmax E sc) (p_topp pr) (p_minp pr) r Hpne Hp).
  now destruct (minP (topP (softmax E sc) (p_topp pr)) (p_minp pr)).
Qed.

Lemma Sample_cons : forall pr logits r, logits <> [] ->
  exists t0 rest, enumerate 0 logits = t0 :: rest /\
    Sample E pr logits r = if feq (p_temp pr) fzero then Tok (greedy_from t0 rest)
                           else after_topk E pr (topK (t0 :: rest) (p_topk pr)) r.
Proof. intros pr [|l0 lr] r H; [easy|]. now exists (0, l0), (enumerate (0 + 1) lr). Qed.

Theorem Sample_greedy : forall pr logits r,
  Forall num logits -> logits <> [] -> feq (p_temp pr) fzero = true ->
  exists a, Sample E pr logits r = Tok a /\
    0 <= tid a < Z.of_nat (length logits) /\ nth_error logits (Z.to_nat (tid a)) = Some (tv a) /\
    forall x, In x logits -> flt (tv a) x = false.
Proof.
  intros pr logits r Hl Hne Fz.
  destruct (Sample_cons pr logits r Hne) as (t0 & rest & Ets & ->). rewrite Fz.
  assert (Hts : numl (t0 :: rest)) by (rewrite <- Ets; now apply enumerate_numl). inversion Hts as [|? ? H0 Hrest]; subst.
  assert (G1 := greedy_In rest t0). rewrite <- Ets in G1.
  destruct (max_fold rest (tv t0) H0 Hrest) as (G2 & G3 & G4 & _). rewrite <- greedy_tv in G2, G3, G4.
  set (g := greedy_from t0 rest) in *.
  destruct (enumerate_In logits 0 g G1) as (R1 & R2). rewrite Z.sub_0_r in R2.
  exists g. split; [easy|]. split; [lia|]. split; [easy|].
  intros x Hx. destruct (enumerate_vals logits 0 x Hx) as (tx & Tx1 & Tx2). rewrite Ets in Tx1.
  apply flt_false_iff; [easy|exact (Forall_In _ _ _ Hl Hx)|].
  destruct Tx1 as [<-|Tx1]; [now rewrite <- Tx2|]. apply G4 in Tx1. now rewrite Tx2 in Tx1.
Qed.

Theorem Sample_admissible : forall temp k topp minp logits r,
  params_ok temp topp minp -> draw_ok r -> Forall num logits ->
  (exists x, In x logits /\ x <> ninf) ->
  exists a v, Sample E (new_sampler temp k topp minp) logits r = Tok a /\
    0 <= tid a < Z.of_nat (length logits) /\ nth_error logits (Z.to_nat (tid a)) = Some v /\ v <> ninf.
Proof.
  intros temp k topp minp logits r Hp Hr Hl Ex.
  assert (Hne : logits <> []) by (destruct Ex as (x & Hx & _); now destruct logits).
  destruct (feq (p_temp (new_sampler temp k topp minp)) fzero) eqn:Fz.
  - (* greedy: the maximum is not below the logit that is not -Inf *)
    destruct (Sample_greedy _ logits r Hl Hne Fz) as (a & -> & R1 & R2 & G).
    exists a, (tv a). split; [easy|]. split; [easy|]. split; [easy|]. intros X. destruct Ex as (x & Hx & Nx).
    assert (Nn := Forall_In _ _ _ Hl Hx). apply G in Hx. rewrite X in Hx. apply flt_false_iff in Hx; [|apply num_ninf|easy].
    assert (Q := rk_range x Nn). apply Nx, rk_ninf_iff; [easy|]. rewrite rk_ninf in Hx. lra.
  - destruct (Sample_cons (new_sampler temp k topp minp) logits r Hne) as (t0 & rest & Ets & ->). rewrite Fz, <- Ets.
    destruct (after_topk_legal temp k topp minp logits r (topK (enumerate 0 logits) k) Hp Hr Hl Ex Fz)
      as (i & t & a & A1 & A2 & A3 & A4 & A5 & A6 & _).
    { apply topK_legal. now apply enumerate_numl. }
    exists a, (tv t). exact (conj A2 (conj A4 (conj A5 A6))).
Qed.

Theorem Sample_all_masked : forall temp k topp minp logits r,
  params_ok temp topp minp -> logits <> [] -> Forall (fun x => x = ninf) logits ->
  feq (p_temp (new_sampler temp k topp minp)) fzero = false ->
  Sample E (new_sampler temp k topp minp) logits r = ErrNaN.
Proof.
  intros temp k topp minp logits r (Nt & Ft & _ & Nm) Hne Hall Fz.
  destruct (new_sampler_facts temp k topp minp Nt Ft Nm) as (_ & _ & M3). destruct (M3 Fz) as (T1 & T2).
  destruct (Sample_cons (new_sampler temp k topp minp) logits r Hne) as (t0 & rest & Ets & ->). rewrite Fz, <- Ets.
  assert (Hts : numl (enumerate 0 logits)).
  { apply enumerate_numl. eapply Forall_impl; [|exact Hall]. intros x ->. apply num_ninf. }
  destruct (legal_facts _ k _ Hts ltac:(now rewrite Ets) (topK_legal _ k Hts)) as (_ & L2 & _ & h & rest' & ES & _).
  apply after_topk_all_masked; [exact T1|exact T2| |].
  - cbn [new_sampler p_topk]. now rewrite ES.
  - apply Forall_forall. intros t Ht. apply L2 in Ht. destruct (enumerate_In logits 0 t Ht) as (_ & R2).
    exact (Forall_In _ _ _ Hall (nth_error_In _ _ R2)).
Qed.

Theorem Sample_no_panic : forall temp k topp minp logits r,
  params_ok temp topp minp -> draw_ok r -> Forall num logits ->
  Sample E (new_sampler temp k topp minp) logits r <> Panic.
Proof.
  intros temp k topp minp logits r Hp Hr Hl.
  destruct logits as [|l0 lr] eqn:El; [easy|]. rewrite <- El in *. assert (Hne : logits <> []) by now rewrite El.
  destruct (feq (p_temp (new_sampler temp k topp minp)) fzero) eqn:Fz.
  - destruct (Sample_greedy _ logits r Hl Hne Fz) as (a & -> & _). easy.
  - destruct (all_ninf_or_not logits) as [Hall|Ex].
    + now rewrite Sample_all_masked.
    + destruct (Sample_admissible temp k topp minp logits r Hp Hr Hl Ex) as (a & v & -> & _). easy.
Qed.

Theorem Sample_grammar_cases : forall pr rej logits r1 r2,
  match Sample E pr logits r1 with
  | Tok t => if first_pick_rejected rej t
             then Sample_grammar E pr rej logits r1 r2 = Sample E pr (mask_logits rej 0 logits) r2
             else Sample_grammar E pr rej logits r1 r2 = Tok t
  | e => Sample_grammar E pr rej logits r1 r2 = e
  end.
Proof.
  intros pr rej logits r1 r2. unfold Sample_grammar, Sample. destruct logits as [|l0 lr]; [easy|].
  set (logits := l0 :: lr). destruct (sample E pr (enumerate 0 logits) r1) as [t| | |]; try easy.
  destruct (first_pick_rejected rej t); [|easy].
  rewrite mask_enumerate. unfold logits. now cbn [mask_logits].
Qed.

Theorem Sample_grammar_admissible : forall temp k topp minp rej logits r1 r2,
  params_ok temp topp minp -> draw_ok r1 -> draw_ok r2 -> Forall num logits ->
  (exists i v, nth_error logits i = Some v /\ rej (Z.of_nat i) = false /\ v <> ninf) ->
  exists a v, Sample_grammar E (new_sampler temp k topp minp) rej logits r1 r2 = Tok a /\
    0 <= tid a < Z.of_nat (length logits) /\ nth_error logits (Z.to_nat (tid a)) = Some v /\ v <> ninf /\
    rej (tid a) = false.
Proof.
  intros temp k topp minp rej logits r1 r2 Hp Hr1 Hr2 Hl (i & v & Hi & Ri & Nv).
  set (pr := new_sampler temp k topp minp).
  assert (Ex : exists x, In x logits /\ x <> ninf) by (exists v; split; [now apply nth_error_In in Hi|easy]).
  destruct (Sample_admissible temp k topp minp logits r1 Hp Hr1 Hl Ex) as (a1 & v1 & S1 & R1 & N1 & V1).
  fold pr in S1. assert (C := Sample_grammar_cases pr rej logits r1 r2). rewrite S1 in C.
  destruct (first_pick_rejected rej a1) eqn:F.
  - (* re-sampled under the mask *)
    set (ml := mask_logits rej 0 logits) in *.
    assert (Hml : Forall num ml) by now apply mask_logits_num.
    assert (Exm : exists x, In x ml /\ x <> ninf).
    { exists v. split; [|easy]. apply (nth_error_In ml i). unfold ml. rewrite mask_logits_nth, Hi. cbn. now rewrite Ri. }
    destruct (Sample_admissible temp k topp minp ml r2 Hp Hr2 Hml Exm) as (a & w & S2 & R2 & N2 & V2).
    fold pr in S2. exists a, w. rewrite C. split; [easy|]. unfold ml in R2, N2. rewrite mask_logits_length in R2. split; [easy|].
    rewrite mask_logits_nth in N2. destruct (nth_error logits (Z.to_nat (tid a))) as [u|] eqn:Eu; [|easy].
    cbn in N2. rewrite Z2Nat.id in N2 by lia.
    destruct (rej (tid a)); inversion N2; subst; easy.
  - exists a1, v1. unfold first_pick_rejected in F. apply orb_false_iff in F. exact (conj C (conj R1 (conj N1 (conj V1 (proj1 F))))).
Qed.

End Sampler.

Fixpoint ndraws (pr : params) (stream : list (list sf)) : nat :=
  match stream with
  | [] => O
  | l :: rest => (if draws pr l then 1 else 0) + ndraws pr rest
  end.

Lemma Sample_stream_draws : forall E pr stream rs1 rs2,
  firstn (ndraws pr stream) rs1 = firstn (ndraws pr stream) rs2 ->
  Sample_stream E pr stream rs1 = Sample_stream E pr stream rs2.
Proof.
  intros E pr. induction stream as [|l rest IH]; intros rs1 rs2 H; [easy|].
  cbn [Sample_stream ndraws] in *. destruct (draws pr l).
  - destruct rs1 as [|a rs1], rs2 as [|b rs2]; try easy.
    cbn in H. inversion H; subst. f_equal. now apply IH.
  - f_equal. now apply IH.
Qed.

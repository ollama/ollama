(** UTF-8 facts that discharge the side condition [lossless_run] of Runner/StopProofs.v from the
    hypothesis "the generated text is a prefix of valid UTF-8" (property C14). *)
From Coq Require Import List NArith Bool Arith Lia.
From V Require Import Common.Bytes Runner.Stop Runner.StopProofs.
Import ListNotations.

(** Go's accept ranges for the second byte: from A0 after E0 and from 90 after F0 (no overlong forms), up to 9F after
    ED (no surrogates), up to 8F after F4 (nothing above U+10FFFF) *)
Definition lead3 (b0 b1 : N) : bool :=
  (N.eqb b0 224 && in_rng 160 191 b1) ||
  ((in_rng 225 236 b0 || in_rng 238 239 b0) && cont b1) ||
  (N.eqb b0 237 && in_rng 128 159 b1).
Definition lead4 (b0 b1 : N) : bool :=
  (N.eqb b0 240 && in_rng 144 191 b1) ||
  (in_rng 241 243 b0 && cont b1) ||
  (N.eqb b0 244 && in_rng 128 143 b1).

Inductive is_char : str -> Prop :=
| ch1 b0 : N.ltb b0 128 = true -> is_char [b0]
| ch2 b0 b1 : in_rng 194 223 b0 = true -> cont b1 = true -> is_char [b0; b1]
| ch3 b0 b1 b2 : lead3 b0 b1 = true -> cont b2 = true -> is_char [b0; b1; b2]
| ch4 b0 b1 b2 b3 : lead4 b0 b1 = true -> cont b2 = true -> cont b3 = true -> is_char [b0; b1; b2; b3].

Lemma is_char_length c : is_char c -> 1 <= length c <= 4.
Proof. intros Hc. destruct Hc; cbn [length]; lia. Qed.

Lemma in_rng_iff lo hi c : in_rng lo hi c = true <-> (lo <= c <= hi)%N.
Proof. unfold in_rng. rewrite andb_true_iff, !N.leb_le. reflexivity. Qed.
Lemma in_rng_out lo hi c : (c < lo \/ hi < c)%N -> in_rng lo hi c = false.
Proof. intros H. apply not_true_is_false. rewrite in_rng_iff. lia. Qed.

Lemma lead3_range b0 b1 : lead3 b0 b1 = true -> (224 <= b0 <= 239)%N /\ cont b1 = true.
Proof.
  unfold lead3, cont. intros H.
  apply orb_prop in H as [H|H]; [apply orb_prop in H as [H|H]|]; apply andb_prop in H as [H0 H1];
    apply in_rng_iff in H1;
    [apply N.eqb_eq in H0 | apply orb_prop in H0 as [H0|H0]; apply in_rng_iff in H0 | apply N.eqb_eq in H0];
    (split; [|apply in_rng_iff]; lia).
Qed.

Lemma lead4_range b0 b1 : lead4 b0 b1 = true -> (240 <= b0 <= 244)%N /\ cont b1 = true.
Proof.
  unfold lead4, cont. intros H.
  apply orb_prop in H as [H|H]; [apply orb_prop in H as [H|H]|]; apply andb_prop in H as [H0 H1];
    apply in_rng_iff in H1;
    [apply N.eqb_eq in H0 | apply in_rng_iff in H0 | apply N.eqb_eq in H0];
    (split; [|apply in_rng_iff]; lia).
Qed.

Lemma utf8_valid_cons b0 r0 : utf8_valid (b0 :: r0) =
  if N.ltb b0 128 then utf8_valid r0 else
  match r0 with
  | [] => false
  | b1 :: r1 =>
      if in_rng 194 223 b0 then cont b1 && utf8_valid r1 else
      match r1 with
      | [] => false
      | b2 :: r2 =>
          if lead3 b0 b1 then cont b2 && utf8_valid r2 else
          match r2 with
          | [] => false
          | b3 :: r3 => lead4 b0 b1 && cont b2 && cont b3 && utf8_valid r3
          end
      end
  end.
Proof.
  cbn [utf8_valid]. destruct (N.ltb b0 128); [reflexivity|]. destruct r0 as [|b1 r1]; [reflexivity|].
  destruct (in_rng 194 223 b0); [reflexivity|]. destruct r1 as [|b2 r2]; [reflexivity|].
  unfold lead3, lead4.
  (* the four first bytes with a narrowed second byte: every other test on [b0] computes *)
  destruct (N.eqb_spec b0 224) as [->|_]; [cbn; destruct (in_rng 160 191 b1), r2; reflexivity|].
  destruct (N.eqb_spec b0 237) as [->|_]; [cbn; destruct (in_rng 128 159 b1), r2; reflexivity|].
  destruct (N.eqb_spec b0 240) as [->|_]; [cbn; destruct r2; rewrite ?orb_false_r; reflexivity|].
  destruct (N.eqb_spec b0 244) as [->|_]; [cbn; destruct r2; reflexivity|].
  cbn [andb orb]. rewrite !orb_false_r.
  destruct (in_rng 225 236 b0 || in_rng 238 239 b0), (cont b1), (in_rng 241 243 b0), r2; reflexivity.
Qed.

Lemma is_char_app c r : is_char c -> utf8_valid (c ++ r) = utf8_valid r.
Proof.
  intros [b0 H0 | b0 b1 H0 H1 | b0 b1 b2 H0 H2 | b0 b1 b2 b3 H0 H2 H3]; cbn [app]; rewrite utf8_valid_cons.
  - rewrite H0. reflexivity.
  - rewrite H0, H1. apply in_rng_iff in H0. rewrite (proj2 (N.ltb_ge _ _)) by lia. reflexivity.
  - rewrite H0, H2. apply lead3_range in H0 as [H0 _].
    rewrite (proj2 (N.ltb_ge _ _)), in_rng_out by lia. reflexivity.
  - rewrite H0, H2, H3. apply lead4_range in H0 as [H0 _].
    rewrite (proj2 (N.ltb_ge _ _)), in_rng_out by lia.
    destruct (lead3 b0 b1) eqn:E3; [apply lead3_range in E3; lia | reflexivity].
Qed.

Lemma utf8_valid_peel b0 r0 : utf8_valid (b0 :: r0) = true ->
  exists c r, b0 :: r0 = c ++ r /\ is_char c /\ utf8_valid r = true.
Proof.
  rewrite utf8_valid_cons. destruct (N.ltb b0 128) eqn:E1.
  { intros Hr. exists [b0], r0. auto using ch1. }
  destruct r0 as [|b1 r1]; [discriminate|]. destruct (in_rng 194 223 b0) eqn:E2.
  { intros [H1 Hr]%andb_prop. exists [b0; b1], r1. auto using ch2. }
  destruct r1 as [|b2 r2]; [discriminate|]. destruct (lead3 b0 b1) eqn:E3.
  { intros [H2 Hr]%andb_prop. exists [b0; b1; b2], r2. auto using ch3. }
  destruct r2 as [|b3 r3]; [discriminate|].
  intros [[[H1 H2]%andb_prop H3]%andb_prop Hr]%andb_prop. exists [b0; b1; b2; b3], r3. auto using ch4.
Qed.

Lemma utf8_valid_ind (P : str -> Prop) :
  P [] -> (forall c r, is_char c -> utf8_valid r = true -> P r -> P (c ++ r)) ->
  forall s, utf8_valid s = true -> P s.
Proof.
  intros Hnil Hchar s. remember (length s) as n eqn:En. revert s En.
  induction n as [n IH] using lt_wf_ind. intros [|b0 r0] -> Hv; [exact Hnil|].
  destruct (utf8_valid_peel _ _ Hv) as [c [r [E [Hc Hr]]]]. rewrite E.
  apply Hchar; [exact Hc | exact Hr |]. apply (IH (length r)); [|reflexivity | exact Hr].
  rewrite E, app_length. pose proof (is_char_length _ Hc). lia.
Qed.

Lemma utf8_valid_app a b : utf8_valid a = true -> utf8_valid (a ++ b) = utf8_valid b.
Proof.
  revert a. apply utf8_valid_ind; [reflexivity|].
  intros c r Hc _ IH. rewrite <- app_assoc, (is_char_app _ _ Hc). exact IH.
Qed.

Lemma utf8_valid_concat l :
  Forall (fun p => utf8_valid p = true) l -> utf8_valid (concat l) = true.
Proof.
  intros Hl. induction Hl as [|p l Hp Hl IH]; [reflexivity|].
  cbn [concat]. rewrite (utf8_valid_app _ _ Hp). exact IH.
Qed.

Lemma valid_prefix_split a b : utf8_valid (a ++ b) = true ->
  exists a1 a2, a = a1 ++ a2 /\ utf8_valid a1 = true /\
                (a2 = [] \/ exists l, l <> [] /\ is_char (a2 ++ l)).
Proof.
  intros Hv. remember (a ++ b) as s eqn:Es. revert a b Es. pattern s. revert s Hv.
  apply utf8_valid_ind.
  - intros a b E. symmetry in E. apply app_eq_nil in E as [-> _]. exists [], []. auto.
  - intros c r Hc _ IH a b E. apply app_eq_app in E as [l [[-> Hb]|[-> Hr]]].
    + destruct l as [|x l].
      * exists a, []. rewrite app_nil_r in *. rewrite <- (app_nil_r a), (is_char_app _ _ Hc). auto.
      * exists [], a. split; [reflexivity|]. split; [reflexivity|]. right. exists (x :: l). split; [discriminate | exact Hc].
    + destruct (IH _ _ Hr) as [l1 [l2 [-> [H1 H2]]]].
      exists (c ++ l1), l2. rewrite app_assoc, (is_char_app _ _ Hc). auto.
Qed.

(** IncompleteUnicode's masks: [isK] a continuation byte; [width c] the length that [c] announces as a lead byte,
    0 for any other byte *)
Definition isK (c : N) : bool := N.eqb (N.land c 192) 128.
Definition width (c : N) : nat :=
  if N.eqb (N.land c 224) 192 then 2
  else if N.eqb (N.land c 240) 224 then 3
  else if N.eqb (N.land c 248) 240 then 4
  else 0.

Lemma incomplete_aux_cons c r i f :
  incomplete_aux (c :: r) i (S f) = if isK c then incomplete_aux r (S i) f else i <? width c.
Proof.
  cbn [incomplete_aux]. unfold isK, width. destruct (N.eqb (N.land c 192) 128); [reflexivity|].
  destruct (N.eqb (N.land c 224) 192); [reflexivity|].
  destruct (N.eqb (N.land c 240) 224); [reflexivity|].
  destruct (N.eqb (N.land c 248) 240); reflexivity.
Qed.

Lemma incomplete_aux_lead k b m : forall i fuel,
  Forall (fun c => isK c = true) k -> isK b = false -> length k < fuel ->
  incomplete_aux (k ++ b :: m) i fuel = (i + length k <? width b).
Proof.
  induction k as [|c k IH]; intros i [|f] Hk Hb Hf; try (inversion Hf; fail);
    cbn [app length]; rewrite incomplete_aux_cons.
  - rewrite Hb, Nat.add_0_r. reflexivity.
  - inversion Hk as [|? ? Hc Hk']; subst. rewrite Hc, Nat.add_succ_r. apply IH; [exact Hk' | exact Hb | cbn [length] in Hf; lia].
Qed.

Lemma incomplete_unicode_lead a b t :
  isK b = false -> Forall (fun c => isK c = true) t -> length t < 4 ->
  incomplete_unicode (a ++ b :: t) = (S (length t) <? width b).
Proof.
  intros Hb Ht Hl. unfold incomplete_unicode. rewrite rev_app_distr. cbn [rev]. rewrite <- app_assoc. cbn [app].
  rewrite incomplete_aux_lead; [rewrite rev_length; reflexivity | apply Forall_rev; exact Ht | exact Hb | rewrite rev_length; exact Hl].
Qed.

Definition class_row (c : N) : bool :=
  Bool.eqb (isK c) (cont c) &&
  (width c =? if in_rng 192 223 c then 2 else if in_rng 224 239 c then 3 else if in_rng 240 247 c then 4 else 0).

Fixpoint holds_from (f : N -> bool) (c : N) (n : nat) : bool :=
  match n with 0 => true | S n' => f c && holds_from f (N.succ c) n' end.

Lemma holds_from_spec f n : forall c x,
  holds_from f c n = true -> (c <= x < c + N.of_nat n)%N -> f x = true.
Proof.
  induction n as [|n IH]; intros c x H Hx; [lia|]. cbn [holds_from] in H. apply andb_prop in H as [H0 H].
  destruct (N.eq_dec x c) as [->|]; [exact H0|]. apply (IH (N.succ c)); [exact H | lia].
Qed.

Lemma class_table : holds_from class_row 0 256 = true.
Proof. vm_compute. reflexivity. Qed.

Lemma byte_class c : (c < 256)%N ->
  isK c = cont c /\
  width c = if in_rng 192 223 c then 2 else if in_rng 224 239 c then 3 else if in_rng 240 247 c then 4 else 0.
Proof.
  intros Hc. pose proof (holds_from_spec _ _ _ c class_table ltac:(lia)) as H.
  apply andb_prop in H as [HK HW]. split; [apply eqb_prop; exact HK | apply Nat.eqb_eq; exact HW].
Qed.

Lemma cont_isK b : cont b = true -> isK b = true.
Proof. intros Hb. pose proof (proj1 (in_rng_iff _ _ _) Hb). rewrite (proj1 (byte_class b ltac:(lia))). exact Hb. Qed.

Lemma lead_shape b t :
  length t = 1 /\ (192 <= b <= 223)%N \/ length t = 2 /\ (224 <= b <= 239)%N \/ length t = 3 /\ (240 <= b <= 247)%N ->
  Forall (fun x => cont x = true) t ->
  isK b = false /\ Forall (fun x => isK x = true) t /\ width b = S (length t).
Proof.
  intros H Ht. destruct (byte_class b ltac:(lia)) as [-> ->]. unfold cont.
  split; [apply in_rng_out; lia|]. split; [eapply Forall_impl; [apply cont_isK | exact Ht]|].
  destruct H as [[-> H]|[[-> H]|[-> H]]].
  - rewrite (proj2 (in_rng_iff 192 223 b)) by lia. reflexivity.
  - rewrite (in_rng_out 192 223), (proj2 (in_rng_iff 224 239 b)) by lia. reflexivity.
  - rewrite (in_rng_out 192 223), (in_rng_out 224 239), (proj2 (in_rng_iff 240 247 b)) by lia. reflexivity.
Qed.

Lemma is_char_shape b t : is_char (b :: t) ->
  isK b = false /\ Forall (fun x => isK x = true) t /\ (t <> [] -> width b = S (length t)).
Proof.
  intros Hc. inversion Hc as [b0 H0 | b0 b1 H0 H1 | b0 b1 b2 H0 H2 | b0 b1 b2 b3 H0 H2 H3]; subst.
  - apply N.ltb_lt in H0. split; [|split; [constructor | congruence]].
    rewrite (proj1 (byte_class b ltac:(lia))). apply in_rng_out. lia.
  - apply in_rng_iff in H0. destruct (lead_shape b [b1]) as [HK [Ht HW]]; [cbn; lia | auto | auto].
  - apply lead3_range in H0 as [H0 H1]. destruct (lead_shape b [b1; b2]) as [HK [Ht HW]]; [cbn; lia | auto | auto].
  - apply lead4_range in H0 as [H0 H1]. destruct (lead_shape b [b1; b2; b3]) as [HK [Ht HW]]; [cbn; lia | auto | auto].
Qed.

Lemma utf8_complete_prefix a b :
  utf8_valid (a ++ b) = true -> incomplete_unicode a = false -> utf8_valid a = true.
Proof.
  intros Hv Hi. destruct (valid_prefix_split a b Hv) as [a1 [[|x a2] [-> [H1 H2]]]];
    [rewrite app_nil_r; exact H1|].
  (* otherwise [a] ends with [x :: a2], a character less its end [l]: scanning backwards IncompleteUnicode passes
     the continuation bytes [a2] and meets the lead byte [x], which announces more bytes than are there *)
  destruct H2 as [|[l [Hl Hc]]]; [discriminate|]. exfalso.
  pose proof (is_char_length _ Hc) as Hlen. cbn [app length] in Hlen. rewrite app_length in Hlen.
  destruct (is_char_shape _ _ Hc) as [HK [Ht%Forall_app HW]].
  rewrite incomplete_unicode_lead, HW, app_length in Hi; [| destruct a2; [exact Hl | discriminate] | exact HK | apply Ht | lia].
  apply Nat.ltb_ge in Hi. destruct l; [congruence | cbn [length] in Hi; lia].
Qed.

Section ValidText.
  Variable stops : list str.
  Variable limit : nat.
  Hypothesis stops_nonempty : forall t, In t stops -> t <> [].

  Lemma lossless_run_fin ts : forall s r, fin s = Some r -> lossless_run stops limit s ts.
  Proof.
    induction ts as [|t ts IH]; intros s r Hf; cbn [lossless_run]; [exact I|].
    split.
    - unfold lossless_step. rewrite Hf. exact I.
    - rewrite step_fin_sticky by congruence. exact (IH s r Hf).
  Qed.

  Lemma valid_text_lossless_step s t rest :
    Inv stops s ->
    (forall p, t = Piece p -> fin s = None -> utf8_valid (gen s ++ p ++ rest) = true) ->
    lossless_step stops limit s t.
  Proof.
    intros Hi Hv. destruct (step_cases stops limit s t) as [ | | | | | p Hf _ _ Hc Hinc]; try exact I.
    (* what is about to be flushed follows the valid pieces already streamed and does not end inside a character *)
    specialize (Hv p eq_refl Hf). rewrite app_assoc, (gen_snoc stops s p) in Hv;
      [|unfold Inv in Hi; rewrite Hf in Hi; exact Hi].
    unfold output in Hv. rewrite <- app_assoc, utf8_valid_app in Hv;
      [|apply utf8_valid_concat, (Inv_pieces_valid stops), Hi].
    exact (utf8_complete_prefix _ _ Hv Hinc).
  Qed.

  Lemma valid_text_lossless_from ts : forall s rest,
    Inv stops s ->
    (fin s = None -> utf8_valid (gen s ++ gen_text ts ++ rest) = true) ->
    lossless_run stops limit s ts.
  Proof.
    induction ts as [|t ts IH]; intros s rest Hi Hv; cbn [lossless_run]; [exact I|].
    assert (Hv' : forall p, t = Piece p -> fin s = None -> utf8_valid (gen s ++ p ++ gen_text ts ++ rest) = true).
    { intros p -> Hf. specialize (Hv Hf). cbn [gen_text] in Hv. rewrite <- app_assoc in Hv. exact Hv. }
    pose proof (valid_text_lossless_step s t _ Hi Hv') as Hstep.
    split; [exact Hstep|].
    apply (IH _ rest); [apply Inv_step; assumption|].
    intros Hrun. destruct (step_running stops limit s t Hrun) as [Hf [_ [p [-> [-> _]]]]].
    rewrite <- app_assoc. exact (Hv' p eq_refl Hf).
  Qed.

  Theorem valid_text_lossless ts rest :
    utf8_valid (gen_text ts ++ rest) = true -> lossless_run stops limit init ts.
  Proof.
    intros Hv. apply (valid_text_lossless_from ts init rest).
    - apply Inv_init. exact stops_nonempty.
    - intros _. exact Hv.
  Qed.

  Lemma pieces_whole_and_stop_free ts rest :
    utf8_valid (gen_text ts ++ rest) = true ->
    Forall (fun p => utf8_valid p = true /\ forall t, In t stops -> ~ Infix t p)
           (out (settle limit (run stops limit ts))).
  Proof.
    intros Hv. pose proof (Inv_final stops limit stops_nonempty ts (valid_text_lossless ts rest Hv)) as Hi.
    pose proof (Inv_pieces_valid stops _ Hi) as Hval.
    pose proof (Inv_stop_free stops _ Hi) as Hs.
    apply Forall_forall. intros p Hp. split; [exact (proj1 (Forall_forall _ _) Hval p Hp)|].
    intros t Ht Hinf. apply (Hs t Ht). unfold output.
    apply in_split in Hp. destruct Hp as [l1 [l2 ->]]. rewrite concat_app. cbn [concat].
    apply Infix_app_l, Infix_app_r. exact Hinf.
  Qed.
End ValidText.

(** Proofs about the streaming state machine of Runner/Stop.v (property C14). *)
From Coq Require Import List NArith Bool Arith Lia.
From V Require Import Common.Bytes Runner.Stop.
Import ListNotations.

(** [concat_app_single] at type [str]: [rewrite] does not match it against goals that mention [str] *)
Lemma concat_snoc (l : list str) (x : str) : concat (l ++ [x]) = concat l ++ x.
Proof. apply concat_app_single. Qed.

Lemma find_stop_best_in seq stops : forall best i s,
  find_stop_best seq stops best = Some (i, s) ->
  best = Some (i, s) \/ In s stops /\ index_of seq s = Some i.
Proof.
  induction stops as [|s0 rest IH]; intros best i s H; cbn [find_stop_best] in H; [auto|].
  apply IH in H as [H|[H1 H2]]; [|right; split; [right|]; assumption].
  destruct (index_of seq s0) as [i0|] eqn:E0; [|auto].
  assert (Some (i0, s0) = Some (i, s) -> In s (s0 :: rest) /\ index_of seq s = Some i)
    by (intros [= <- <-]; split; [left; reflexivity | exact E0]).
  destruct best as [[j sj]|]; [destruct (i0 <? j)|]; auto.
Qed.

Lemma find_stop_best_le seq stops : forall best s j,
  best = Some (j, s) \/ In s stops /\ index_of seq s = Some j ->
  exists i s', find_stop_best seq stops best = Some (i, s') /\ i <= j.
Proof.
  (* after [s0] the best has an index at most that of the old best and of [s0]: in every case a candidate for the
     rest of the list - the new best, or [s] further down - has an index <= [j], and the IH bounds the result by it *)
  induction stops as [|s0 rest IH]; intros best s j Hc; cbn [find_stop_best].
  - destruct Hc as [->|[[] _]]. eauto.
  - destruct Hc as [->|[[<-|Hin] Hj]].
    + destruct (index_of seq s0) as [i0|]; [destruct (i0 <? j) eqn:E|]; [|apply (IH _ s j); auto ..].
      apply Nat.ltb_lt in E. destruct (IH (Some (i0, s0)) s0 i0) as [i [s' [-> Hi]]]; [auto|].
      exists i, s'. split; [reflexivity | lia].
    + rewrite Hj. destruct best as [[j0 sj]|]; [destruct (j <? j0) eqn:E|]; [apply (IH _ s0 j); auto | | apply (IH _ s0 j); auto].
      apply Nat.ltb_ge in E. destruct (IH (Some (j0, sj)) sj j0) as [i [s' [-> Hi]]]; [auto|].
      exists i, s'. split; [reflexivity | lia].
    + apply (IH _ s j). auto.
Qed.

Lemma find_stop_none seq stops :
  find_stop seq stops = None -> forall s, In s stops -> ~ Infix s seq.
Proof.
  unfold find_stop. intros H s Hin. apply index_of_none. destruct (index_of seq s) as [j|] eqn:E; [|reflexivity].
  destruct (find_stop_best_le seq stops None s j) as [i [s' [Hr _]]]; [auto|]. rewrite Hr in H. discriminate.
Qed.

Lemma find_stop_some seq stops stop :
  find_stop seq stops = Some stop ->
  exists i, In stop stops /\ index_of seq stop = Some i /\
            forall s' j, In s' stops -> index_of seq s' = Some j -> i <= j.
Proof.
  unfold find_stop. destruct (find_stop_best seq stops None) as [[i s]|] eqn:E; [|discriminate].
  intros [= <-]. destruct (find_stop_best_in _ _ _ _ _ E) as [|[Hin Hi]]; [discriminate|].
  exists i. split; [exact Hin|]. split; [exact Hi|]. intros s' j Hin' Hj.
  destruct (find_stop_best_le seq stops None s' j) as [i' [s'' [Hr Hle]]]; [auto|].
  rewrite E in Hr. injection Hr as <- _. exact Hle.
Qed.

Definition StopFree (stops : list str) (s : str) : Prop := forall t, In t stops -> ~ Infix t s.
(** a text that is [StopFree] and [NoStopSuffix] is called clean below: whatever is appended, no stop begins in it *)
Definition NoStopSuffix (stops : list str) (s : str) : Prop :=
  forall t u, In t stops -> u <> [] -> Suffix u s -> ~ Prefix u t.

Lemma StopFree_nonempty stops F : StopFree stops F -> forall t, In t stops -> t <> [].
Proof. intros H t Hin ->. apply (H [] Hin). exists [], F. reflexivity. Qed.

Lemma nonempty_prefixes_aux_spec acc s p :
  In p (nonempty_prefixes_aux acc s) <-> exists u, u <> [] /\ Prefix u s /\ p = acc ++ u.
Proof.
  revert acc; induction s as [|c s IH]; intros acc; cbn.
  - split; [intros []|]. intros [u [Hu [[r Hr] _]]]. destruct u; [congruence|discriminate].
  - split.
    + intros [<-|H].
      * exists [c]. split; [discriminate|]. split; [exists s; reflexivity | reflexivity].
      * apply IH in H as [u [Hu [[r ->] ->]]]. exists (c :: u). split; [discriminate|].
        split; [exists r; reflexivity | rewrite <- app_assoc; reflexivity].
    + intros [u [Hu [[r Hr] ->]]]. destruct u as [|c' u]; [congruence|].
      cbn in Hr. inversion Hr; subst. destruct u as [|c'' u].
      * left. reflexivity.
      * right. apply IH. exists (c'' :: u). split; [discriminate|].
        split; [exists r; reflexivity | rewrite <- app_assoc; reflexivity].
Qed.

Lemma contains_stop_suffix_false stops sq :
  contains_stop_suffix sq stops = false -> NoStopSuffix stops sq.
Proof.
  unfold contains_stop_suffix, NoStopSuffix. intros H t u Hin Hu Hsuf Hpre.
  assert (E : existsb (fun stop => existsb (fun p => suffixb p sq) (nonempty_prefixes stop)) stops = true).
  { apply existsb_exists. exists t. split; [exact Hin|]. apply existsb_exists. exists u. split.
    - unfold nonempty_prefixes. apply nonempty_prefixes_aux_spec. exists u. auto.
    - apply suffixb_spec. exact Hsuf. }
  congruence.
Qed.

Lemma Suffix_app_inv u a b : Suffix u (a ++ b) ->
  Suffix u b \/ exists u', u = u' ++ b /\ Suffix u' a.
Proof.
  intros [r H]. apply app_eq_app in H as [l [[Ha Hb]|[Hr Hb]]].
  - right. exists l. split; [exact Hb | exists r; exact Ha].
  - left. exists l. exact Hb.
Qed.

Lemma stopfree_app stops F sq :
  StopFree stops F -> NoStopSuffix stops F -> StopFree stops sq -> StopFree stops (F ++ sq).
Proof.
  intros HF HFs Hsq t Hin Hinf. apply Infix_app_cases in Hinf as [H|[H|[u [v [-> [Hu [Hv [Hsu Hpv]]]]]]]].
  - exact (HF _ Hin H).
  - exact (Hsq _ Hin H).
  - apply (HFs _ u Hin Hu Hsu). apply Prefix_app_r.
Qed.

Lemma NoStopSuffix_app stops F sq :
  NoStopSuffix stops F -> NoStopSuffix stops sq -> NoStopSuffix stops (F ++ sq).
Proof.
  intros HFs Hsqs t u Hin Hu Hsuf Hpre. apply Suffix_app_inv in Hsuf as [H|[u' [-> Hs']]].
  - exact (Hsqs _ _ Hin Hu H Hpre).
  - destruct u' as [|c u'].
    + apply (Hsqs t sq Hin Hu); [exists []; reflexivity | exact Hpre].
    + apply (HFs t (c :: u') Hin); [discriminate | exact Hs' |].
      eapply Prefix_trans; [apply Prefix_app_r | exact Hpre].
Qed.

Lemma StopFree_prefix stops p s : Prefix p s -> StopFree stops s -> StopFree stops p.
Proof. intros Hp Hs t Hin Hinf. apply (Hs t Hin). eapply Infix_prefix; eassumption. Qed.

Lemma index_of_intro s t a b :
  s = a ++ t ++ b -> (forall a' b', s = a' ++ t ++ b' -> length a <= length a') ->
  index_of s t = Some (length a).
Proof.
  intros Hs Hmin. destruct (index_of s t) as [k|] eqn:E.
  - apply index_of_some in E as [a0 [b0 [Hs0 [-> Hmin0]]]].
    f_equal. apply Nat.le_antisymm; [eapply Hmin0; exact Hs | eapply Hmin; exact Hs0].
  - apply index_of_none in E. exfalso; apply E. exists a, b. exact Hs.
Qed.

Lemma index_of_clean_app stops F sq t :
  StopFree stops F -> NoStopSuffix stops F -> In t stops ->
  index_of (F ++ sq) t = option_map (fun i => length F + i) (index_of sq t).
Proof.
  intros HF0 HFs0 Hin. pose proof (HF0 _ Hin) as HF. pose proof (HFs0 t) as HFs.
  destruct (index_of sq t) as [i|] eqn:E; cbn [option_map].
  - apply index_of_some in E as [a0 [b0 [Hsq [-> Hmin]]]].
    rewrite <- app_length. apply index_of_intro with (b := b0).
    + rewrite Hsq, <- app_assoc. reflexivity.
    + intros a' b' H. rewrite app_length.
      apply app_eq_app in H as [l [[HFa Hl]|[Ha Hl]]].
      * destruct l as [|c l].
        -- cbn in Hl. rewrite app_nil_r in HFa. subst a'.
           specialize (Hmin [] b' (eq_sym Hl)). cbn in Hmin. lia.
        -- exfalso. apply app_eq_app in Hl as [l' [[Ht' Hb]|[Hl' Hb]]].
           ++ apply (HFs (c :: l) Hin); [discriminate | exists a'; exact HFa | exists l'; exact Ht'].
           ++ apply HF. exists a', l'. rewrite HFa, Hl'. reflexivity.
      * subst a'. rewrite app_length. specialize (Hmin l b' Hl). lia.
  - apply index_of_none. apply index_of_none in E. intros Hinf.
    apply Infix_app_cases in Hinf as [H|[H|[u [v [-> [Hu [Hv [Hsu Hpv]]]]]]]].
    + exact (HF H).
    + exact (E H).
    + apply (HFs u Hin Hu Hsu). apply Prefix_app_r.
Qed.

Definition EarliestStop (stops : list str) (g : str) (k : nat) : Prop :=
  (exists t, In t stops /\ index_of g t = Some k) /\
  forall t j, In t stops -> index_of g t = Some j -> k <= j.

Lemma EarliestStop_shift stops F sq i :
  StopFree stops F -> NoStopSuffix stops F ->
  EarliestStop stops sq i -> EarliestStop stops (F ++ sq) (length F + i).
Proof.
  intros HF HFs [[stop [Hin Hi]] Hmin]. split.
  - exists stop. split; [exact Hin|]. rewrite (index_of_clean_app stops), Hi by assumption. reflexivity.
  - intros t j Hint Hj. rewrite (index_of_clean_app stops) in Hj by assumption.
    destruct (index_of sq t) as [j0|] eqn:E; [|discriminate]. injection Hj as <-.
    specialize (Hmin _ _ Hint E). lia.
Qed.

Lemma StopFree_before_earliest stops sq i :
  (forall t, In t stops -> t <> []) -> EarliestStop stops sq i -> StopFree stops (firstn i sq).
Proof.
  intros Hne [_ Hmin] t Hin Hinf. destruct (index_of sq t) as [j|] eqn:Ej.
  - specialize (Hmin _ _ Hin Ej). apply index_of_some in Ej as [a [b [_ [-> Hleast]]]].
    destruct Hinf as [a' [b' Hab]].
    assert (Hsq : sq = a' ++ t ++ (b' ++ skipn i sq)).
    { rewrite <- (firstn_skipn i sq) at 1. rewrite Hab, <- !app_assoc. reflexivity. }
    specialize (Hleast _ _ Hsq).
    pose proof (firstn_le_length i sq) as Hlen. rewrite Hab, !app_length in Hlen.
    specialize (Hne _ Hin). destruct t; [congruence | cbn [length] in Hlen; lia].
  - apply index_of_none in Ej. apply Ej. eapply Infix_prefix; [apply Prefix_firstn | exact Hinf].
Qed.

Lemma trim_fuel_prefix n s : Prefix (trim_valid_fuel n s) s.
Proof.
  revert s; induction n as [|n IH]; intros s; cbn; destruct (utf8_valid s); try apply Prefix_refl; try apply Prefix_nil.
  eapply Prefix_trans; [apply IH|]. rewrite removelast_firstn_len. apply Prefix_firstn.
Qed.

Lemma trim_fuel_valid n s : length s <= n -> utf8_valid (trim_valid_fuel n s) = true.
Proof.
  revert s; induction n as [|n IH]; intros s Hl; cbn; destruct (utf8_valid s) eqn:E; try exact E; try reflexivity.
  apply IH. rewrite removelast_firstn_len, firstn_length. lia.
Qed.

Lemma trim_valid_prefix s : Prefix (trim_valid s) s.
Proof. apply trim_fuel_prefix. Qed.
Lemma trim_valid_valid s : utf8_valid (trim_valid s) = true.
Proof. apply trim_fuel_valid. lia. Qed.
Lemma trim_fuel_id n s : utf8_valid s = true -> trim_valid_fuel n s = s.
Proof. destruct n; cbn; intros ->; reflexivity. Qed.
Lemma trim_valid_id s : utf8_valid s = true -> trim_valid s = s.
Proof. apply trim_fuel_id. Qed.

Lemma resplit_cons p ps rem : rem <> [] ->
  resplit (p :: ps) rem =
  if length p <=? length rem
  then (let '(r, t) := resplit ps (skipn (length p) rem) in (firstn (length p) rem :: r, t))
  else ([rem], true).
Proof. destruct rem; [congruence | reflexivity]. Qed.

Lemma resplit_concat pieces rem :
  Prefix rem (concat pieces) -> concat (fst (resplit pieces rem)) = rem.
Proof.
  revert rem; induction pieces as [|p ps IH]; intros rem Hp.
  - destruct Hp as [r Hr]. cbn in Hr. destruct rem; [reflexivity|discriminate].
  - destruct rem as [|c rem']; [reflexivity|]. rewrite resplit_cons by discriminate.
    revert Hp. generalize (c :: rem'). intros rem Hp.
    destruct (length p <=? length rem) eqn:El; [|cbn; apply app_nil_r].
    (* [p] is a whole piece of [rem]: [rem = p ++ y] with [y] a prefix of the remaining pieces *)
    apply Nat.leb_le in El. destruct (Prefix_cmp p rem _ (Prefix_app_r p (concat ps)) Hp El) as [y ->].
    destruct Hp as [x Hx]. cbn [concat] in Hx. rewrite <- app_assoc in Hx. apply app_inv_head in Hx.
    rewrite skipn_app, firstn_app, skipn_all, firstn_all, Nat.sub_diag. cbn [skipn firstn app].
    specialize (IH y (ex_intro _ x Hx)). destruct (resplit ps y) as [r t]. cbn [fst concat] in *.
    rewrite IH, app_nil_r. reflexivity.
Qed.

Lemma truncate_stop_concat pieces stop i :
  index_of (concat pieces) stop = Some i ->
  concat (fst (truncate_stop pieces stop)) = firstn i (concat pieces).
Proof.
  intros H. unfold truncate_stop. rewrite H. apply resplit_concat. apply Prefix_firstn.
Qed.

Section Run.
  Variable stops : list str.
  Variable limit : nat.
  Hypothesis stops_nonempty : forall t, In t stops -> t <> [].

  (** mid-stream flushes never had to drop bytes (true whenever the generated text is valid UTF-8) *)
  Definition flush_lossless (s : st) : Prop := utf8_valid (concat (pending s)) = true.

  (** [step] with the no-drop side condition made explicit: a relation that is [step] on runs where every
      mid-stream flush is lossless *)
  Definition lossless_step (s : st) (t : tok) : Prop :=
    match fin s with
    | Some _ => True
    | None =>
        if at_limit limit s then True
        else match t with
             | EOS => True
             | Piece p =>
                 let sq := concat (pending s ++ [p]) in
                 match find_stop sq stops with
                 | Some _ => True
                 | None => if contains_stop_suffix sq stops then True
                           else if incomplete_unicode sq then True
                           else utf8_valid sq = true
                 end
             end
    end.

  Fixpoint lossless_run (s : st) (ts : list tok) : Prop :=
    match ts with
    | [] => True
    | t :: ts' => lossless_step s t /\ lossless_run (step stops limit s t) ts'
    end.

  (** while generating.  Only the output is clean: a flush happens when the joined pending text holds no stop and
      no partial stop at its end; what is held back may end in a partial stop *)
  Definition InvRunning (s : st) : Prop :=
    gen s = output s ++ concat (pending s) /\
    StopFree stops (output s) /\ NoStopSuffix stops (output s) /\
    StopFree stops (concat (pending s)) /\
    Forall (fun p => utf8_valid p = true) (out s).

  (** the text that was due to be streamed: everything generated, or the part before the earliest stop *)
  Definition Cut (s : st) (c : str) : Prop :=
    (StopFree stops (gen s) /\ c = gen s) \/
    (exists k, EarliestStop stops (gen s) k /\ c = firstn k (gen s)).

  (** what holds once the sequence has finished: the output is the cut, less an invalid UTF-8 tail of the
      part that was still pending *)
  Definition Finished (s : st) : Prop :=
    pending s = [] /\ StopFree stops (output s) /\
    Forall (fun p => utf8_valid p = true) (out s) /\
    exists F body, Cut s (F ++ body) /\ output s = F ++ trim_valid body.

  Definition Inv (s : st) : Prop :=
    match fin s with None => InvRunning s | Some _ => Finished s end.

  (** the six ways a step can go: [step_case s t s' L] when the step from [s] on [t] ends in [s'] and is
      lossless exactly if [L] *)
  Inductive step_case (s : st) : tok -> st -> Prop -> Prop :=
  | sc_done r t : fin s = Some r -> step_case s t s True
  | sc_limit t : fin s = None -> at_limit limit s = true -> step_case s t (finish RLength s) True
  | sc_eos : fin s = None -> at_limit limit s = false ->
      step_case s EOS (finish RStop (mkSt (pending s) (out s) (S (npred s)) None (gen s))) True
  | sc_stop p stop : fin s = None -> at_limit limit s = false ->
      find_stop (concat (pending s ++ [p])) stops = Some stop ->
      step_case s (Piece p)
        (finish RStop (mkSt (fst (truncate_stop (pending s ++ [p]) stop)) (out s) (S (npred s)) None (gen s ++ p)))
        True
  | sc_hold p : fin s = None -> at_limit limit s = false ->
      find_stop (concat (pending s ++ [p])) stops = None ->
      step_case s (Piece p) (mkSt (pending s ++ [p]) (out s) (S (npred s)) None (gen s ++ p)) True
  | sc_flush p : fin s = None -> at_limit limit s = false ->
      find_stop (concat (pending s ++ [p])) stops = None ->
      contains_stop_suffix (concat (pending s ++ [p])) stops = false ->
      incomplete_unicode (concat (pending s ++ [p])) = false ->
      step_case s (Piece p) (flush (mkSt (pending s ++ [p]) (out s) (S (npred s)) None (gen s ++ p)))
        (flush_lossless (mkSt (pending s ++ [p]) (out s) (S (npred s)) None (gen s ++ p))).

  Lemma step_cases s t : step_case s t (step stops limit s t) (lossless_step s t).
  Proof.
    unfold step, lossless_step. destruct (fin s) eqn:Ef; [eapply sc_done; exact Ef|].
    destruct (at_limit limit s) eqn:El; [apply sc_limit; assumption|].
    destruct t as [p|]; [|apply sc_eos; assumption]. cbv zeta.
    destruct (find_stop _ stops) eqn:Es; [apply sc_stop; assumption|].
    destruct (contains_stop_suffix _ stops) eqn:Ec; [apply sc_hold; assumption|].
    destruct (incomplete_unicode _) eqn:Ei; [apply sc_hold | apply sc_flush]; assumption.
  Qed.

  Lemma step_fin_sticky s t : fin s <> None -> step stops limit s t = s.
  Proof. unfold step. destruct (fin s); [reflexivity | congruence]. Qed.

  Lemma fold_fin_sticky ts : forall s, fin s <> None -> fold_left (step stops limit) ts s = s.
  Proof.
    induction ts as [|t ts IH]; intros s Hf; cbn; [reflexivity|].
    rewrite (step_fin_sticky s t Hf). exact (IH s Hf).
  Qed.

  Lemma step_running s t :
    fin (step stops limit s t) = None ->
    fin s = None /\ at_limit limit s = false /\
    exists p, t = Piece p /\ gen (step stops limit s t) = gen s ++ p /\ npred (step stops limit s t) = S (npred s).
  Proof. destruct (step_cases s t); cbn; intros Hf; try congruence; eauto 6. Qed.

  Lemma step_gen s t :
    fin (step stops limit s t) <> None /\ gen (step stops limit s t) = gen s \/
    exists p, t = Piece p /\ gen (step stops limit s t) = gen s ++ p.
  Proof. destruct (step_cases s t); cbn; eauto; left; split; congruence. Qed.

  Lemma step_npred s t :
    npred (step stops limit s t) = npred s \/
    at_limit limit s = false /\ npred (step stops limit s t) = S (npred s).
  Proof. destruct (step_cases s t); cbn; auto. Qed.

  Lemma step_finishes s t r :
    fin s = None -> fin (step stops limit s t) = Some r ->
    match r with
    | RLength => at_limit limit s = true
    | RStop => at_limit limit s = false /\
               (t = EOS \/ exists p stop, t = Piece p /\ find_stop (concat (pending s ++ [p])) stops = Some stop)
    end.
  Proof. intros Hf. destruct (step_cases s t); cbn; intros E; try congruence; injection E as <-; eauto 6. Qed.

  Lemma run_finish_point ts : forall s r,
    fin s = None -> fin (fold_left (step stops limit) ts s) = Some r ->
    exists ts1 t ts2, ts = ts1 ++ t :: ts2 /\
      fin (fold_left (step stops limit) ts1 s) = None /\
      fin (step stops limit (fold_left (step stops limit) ts1 s) t) = Some r.
  Proof.
    induction ts as [|t ts IH]; intros s r Hs Hr; cbn in Hr; [congruence|].
    destruct (fin (step stops limit s t)) as [r'|] eqn:E.
    - exists [], t, ts. rewrite fold_fin_sticky in Hr by congruence. cbn. split; [reflexivity|]. split; congruence.
    - destruct (IH _ _ E Hr) as [ts1 [t' [ts2 [-> [H1 H2]]]]].
      exists (t :: ts1), t', ts2. cbn. auto.
  Qed.

  Lemma settle_cases s :
    (fin s <> None \/ at_limit limit s = false) /\ settle limit s = s \/
    fin s = None /\ at_limit limit s = true /\ settle limit s = finish RLength s.
  Proof.
    unfold settle. destruct (fin s); [left; split; [left; discriminate | reflexivity]|].
    destruct (at_limit limit s); auto.
  Qed.

  Lemma output_emit o j : concat (emit o j) = concat o ++ j.
  Proof. destruct j; cbn [emit]; [symmetry; apply app_nil_r | apply concat_snoc]. Qed.

  Lemma emit_valid o j : Forall (fun p => utf8_valid p = true) o -> utf8_valid j = true ->
    Forall (fun p => utf8_valid p = true) (emit o j).
  Proof.
    intros Ho Hj. destruct j; cbn [emit]; [exact Ho|]. apply Forall_app. split; [exact Ho|]. constructor; [exact Hj|constructor].
  Qed.

  Lemma flush_valid s :
    Forall (fun p => utf8_valid p = true) (out s) -> Forall (fun p => utf8_valid p = true) (out (flush s)).
  Proof. intros H. apply emit_valid; [exact H | apply trim_valid_valid]. Qed.

  Lemma step_valid s t :
    Forall (fun p => utf8_valid p = true) (out s) -> Forall (fun p => utf8_valid p = true) (out (step stops limit s t)).
  Proof. intros H. destruct (step_cases s t); try exact H; apply flush_valid; exact H. Qed.

  Lemma fold_valid ts : forall s,
    Forall (fun p => utf8_valid p = true) (out s) ->
    Forall (fun p => utf8_valid p = true) (out (fold_left (step stops limit) ts s)).
  Proof. induction ts as [|t ts IH]; intros s Hs; [exact Hs | apply IH, step_valid, Hs]. Qed.

  Lemma settle_valid s :
    Forall (fun p => utf8_valid p = true) (out s) -> Forall (fun p => utf8_valid p = true) (out (settle limit s)).
  Proof. intros H. destruct (settle_cases s) as [[_ ->]|[_ [_ ->]]]; [exact H | apply flush_valid; exact H]. Qed.

  Lemma pieces_valid ts : Forall (fun p => utf8_valid p = true) (out (settle limit (run stops limit ts))).
  Proof. apply settle_valid, fold_valid, Forall_nil. Qed.

  Lemma StopFree_nil : StopFree stops [].
  Proof.
    intros t Hin [a [b H]]. symmetry in H. apply app_eq_nil in H as [_ H]. apply app_eq_nil in H as [H _].
    exact (stops_nonempty t Hin H).
  Qed.

  Lemma NoStopSuffix_nil : NoStopSuffix stops [].
  Proof. intros t u _ Hu [r H] _. symmetry in H. apply app_eq_nil in H as [_ H]. exact (Hu H). Qed.

  Lemma finish_ok r s :
    Cut s (output s ++ concat (pending s)) ->
    StopFree stops (output s) -> NoStopSuffix stops (output s) ->
    StopFree stops (concat (pending s)) ->
    Forall (fun p => utf8_valid p = true) (out s) ->
    Finished (finish r s).
  Proof.
    intros Hg Ho Hos Hp Hv. unfold Finished, finish, flush, output. cbn [pending out npred fin gen].
    split; [reflexivity|]. rewrite output_emit.
    split; [|split].
    - apply stopfree_app; try assumption. eapply StopFree_prefix; [apply trim_valid_prefix | exact Hp].
    - apply flush_valid. exact Hv.
    - exists (output s), (concat (pending s)). split; [exact Hg | reflexivity].
  Qed.

  Lemma InvRunning_gen_stop_free s : InvRunning s -> StopFree stops (gen s).
  Proof. intros [Hg [Ho [Hos [Hp _]]]]. rewrite Hg. apply stopfree_app; assumption. Qed.

  Lemma finish_running r s : InvRunning s -> Finished (finish r s).
  Proof.
    intros H. pose proof (InvRunning_gen_stop_free s H) as Hsf. destruct H as [Hg [Ho [Hos [Hp Hv]]]].
    apply finish_ok; try assumption. left. split; [exact Hsf | symmetry; exact Hg].
  Qed.

  Lemma Inv_init : Inv init.
  Proof.
    unfold Inv, InvRunning, init, output; cbn.
    repeat split; auto using StopFree_nil, NoStopSuffix_nil.
  Qed.

  Lemma gen_snoc s p : InvRunning s -> gen s ++ p = output s ++ concat (pending s ++ [p]).
  Proof. intros [Hg _]. rewrite Hg, concat_snoc, <- app_assoc. reflexivity. Qed.

  Lemma Inv_step s t : Inv s -> lossless_step s t -> Inv (step stops limit s t).
  Proof.
    intros HI HL. revert HL.
    destruct (step_cases s t) as [r t Hf | t Hf Hl | Hf Hl | p stop Hf Hl Hs | p Hf Hl Hs | p Hf Hl Hs Hc _];
      intros HL; [exact HI | unfold Inv in HI; rewrite Hf in HI ..].
    1, 2: apply finish_running; exact HI.
    all: pose proof (gen_snoc s p HI) as Hg; destruct HI as [_ [Ho [Hos [_ Hv]]]].
    - (* sc_stop: the cut is before the earliest stop of the pending text, the earliest in [gen] too as the output is clean *)
      apply find_stop_some in Hs as [i [Hin [Hi Hmin]]].
      assert (He : EarliestStop stops (concat (pending s ++ [p])) i) by (split; eauto).
      apply finish_ok; try assumption; unfold output; cbn [pending out gen];
        rewrite (truncate_stop_concat _ _ _ Hi).
      + right. exists (length (output s) + i). cbn [gen]. rewrite Hg. split.
        * apply EarliestStop_shift; assumption.
        * symmetry. apply firstn_app_2.
      + apply StopFree_before_earliest; [exact (StopFree_nonempty _ _ Ho) | exact He].
    - (* sc_hold *)
      repeat split; try assumption. exact (find_stop_none _ _ Hs).
    - (* sc_flush: the output stays clean, and nothing is dropped *)
      pose proof (find_stop_none _ _ Hs) as Hsf. apply contains_stop_suffix_false in Hc.
      unfold flush_lossless in HL. cbn [pending] in HL.
      unfold Inv, InvRunning, flush, output. cbn [pending out gen fin concat].
      rewrite (trim_valid_id _ HL), output_emit, app_nil_r.
      split; [exact Hg|]. split; [apply stopfree_app; assumption|]. split; [apply NoStopSuffix_app; assumption|].
      split; [exact (StopFree_prefix _ _ _ (Prefix_nil _) Ho) | apply emit_valid; assumption].
  Qed.

  Lemma Inv_run_from ts : forall s, Inv s -> lossless_run s ts -> Inv (fold_left (step stops limit) ts s).
  Proof.
    induction ts as [|t ts IH]; intros s Hs Hl; cbn; [exact Hs|].
    destruct Hl as [H1 H2]. apply IH; [apply Inv_step; assumption | exact H2].
  Qed.

  Lemma Inv_run ts : lossless_run init ts -> Inv (run stops limit ts).
  Proof. apply Inv_run_from, Inv_init. Qed.

  Lemma Inv_settle s : Inv s -> Inv (settle limit s).
  Proof.
    destruct (settle_cases s) as [[_ ->]|[Hf [_ ->]]]; [auto|].
    unfold Inv at 1. rewrite Hf. apply finish_running.
  Qed.

  Lemma Inv_final ts : lossless_run init ts -> Inv (settle limit (run stops limit ts)).
  Proof. intros Hl. apply Inv_settle, Inv_run, Hl. Qed.

  Lemma Cut_prefix s c : Cut s c -> Prefix c (gen s).
  Proof. intros [[_ ->]|[k [_ ->]]]; [apply Prefix_refl | apply Prefix_firstn]. Qed.

  Lemma Inv_prefix s : Inv s -> Prefix (output s) (gen s).
  Proof.
    unfold Inv. destruct (fin s).
    - intros [_ [_ [_ [F [body [Hc ->]]]]]]. eapply Prefix_trans; [|exact (Cut_prefix _ _ Hc)].
      destruct (trim_valid_prefix body) as [x Hx]. exists x. rewrite <- app_assoc, <- Hx. reflexivity.
    - intros [Hg _]. rewrite Hg. apply Prefix_app_r.
  Qed.

  Lemma Inv_stop_free s : Inv s -> StopFree stops (output s).
  Proof. unfold Inv. destruct (fin s); intros [_ [H _]]; exact H. Qed.

  Lemma Inv_pieces_valid s : Inv s -> Forall (fun p => utf8_valid p = true) (out s).
  Proof.
    unfold Inv. destruct (fin s).
    - intros [_ [_ [H _]]]. exact H.
    - intros [_ [_ [_ [_ H]]]]. exact H.
  Qed.

  Lemma Inv_running_no_stop s : Inv s -> fin s = None -> StopFree stops (gen s).
  Proof. unfold Inv. intros H Hf. rewrite Hf in H. apply InvRunning_gen_stop_free. exact H. Qed.

  Lemma Inv_finished_exact s : Inv s -> fin s <> None ->
    exists F body, Cut s (F ++ body) /\ output s = F ++ trim_valid body.
  Proof.
    unfold Inv. destruct (fin s); [|congruence]. intros [_ [_ [_ H]]] _. exact H.
  Qed.

  (** ... and is the cut itself when the cut is valid UTF-8 up to the last flush and after it *)
  Lemma Inv_finished_exact_valid s : Inv s -> fin s <> None ->
    (forall F body, Cut s (F ++ body) -> output s = F ++ trim_valid body -> utf8_valid body = true) ->
    exists c, Cut s c /\ output s = c.
  Proof.
    intros Hi Hf Hv. destruct (Inv_finished_exact s Hi Hf) as [F [body [Hc Ho]]].
    exists (F ++ body). split; [exact Hc|]. rewrite Ho. f_equal. apply trim_valid_id. eapply Hv; eassumption.
  Qed.

  Lemma gen_script_prefix_from ts : forall s,
    Prefix (gen (fold_left (step stops limit) ts s)) (gen s ++ gen_text ts).
  Proof.
    induction ts as [|t ts IH]; intros s; cbn [fold_left]; [apply Prefix_app_r|].
    destruct (step_gen s t) as [[Hf Hg] | [p [-> Hg]]].
    - rewrite (fold_fin_sticky ts _ Hf), Hg. apply Prefix_app_r.
    - specialize (IH (step stops limit s (Piece p))). rewrite Hg, <- app_assoc in IH. exact IH.
  Qed.

  Lemma gen_script_prefix ts : Prefix (gen (settle limit (run stops limit ts))) (gen_text ts).
  Proof.
    destruct (settle_cases (run stops limit ts)) as [[_ ->]|[_ [_ ->]]]; exact (gen_script_prefix_from ts init).
  Qed.

  Lemma npred_le_from ts : forall s, 0 < limit -> npred s <= limit ->
    npred (fold_left (step stops limit) ts s) <= limit.
  Proof.
    induction ts as [|t ts IH]; intros s Hl Hn; cbn [fold_left]; [exact Hn|]. apply IH; [exact Hl|].
    destruct (step_npred s t) as [->|[Ha ->]]; [exact Hn|].
    unfold at_limit in Ha. apply andb_false_iff in Ha as [Ha|Ha];
      [apply Nat.ltb_ge in Ha | apply Nat.leb_gt in Ha]; lia.
  Qed.

  Lemma limit_respected ts : 0 < limit -> npred (settle limit (run stops limit ts)) <= limit.
  Proof.
    intros Hl. destruct (settle_cases (run stops limit ts)) as [[_ ->]|[_ [_ ->]]];
      apply npred_le_from; cbn; lia.
  Qed.

  Lemma run_running ts : forall s,
    fin (fold_left (step stops limit) ts s) = None ->
    ~ In EOS ts /\ npred (fold_left (step stops limit) ts s) = npred s + length ts.
  Proof.
    induction ts as [|t ts IH] using rev_ind; intros s Hf.
    - split; [intros []|]. cbn. lia.
    - rewrite fold_left_app in *. cbn [fold_left] in *.
      destruct (step_running _ _ Hf) as [Hf' [_ [p [-> [_ ->]]]]]. destruct (IH _ Hf') as [Hno ->].
      split; [|rewrite app_length; cbn; lia].
      intros H. apply in_app_or in H as [H|[H|[]]]; [exact (Hno H) | discriminate].
  Qed.

  Lemma always_ends ts :
    In EOS ts \/ (0 < limit /\ limit <= length ts) -> fin (settle limit (run stops limit ts)) <> None.
  Proof.
    intros H. destruct (settle_cases (run stops limit ts)) as [[[Hf|Ha] ->]|[_ [_ ->]]]; [exact Hf | | discriminate].
    intros Hf. destruct (run_running ts init Hf) as [Hno Hn]. destruct H as [H | [Hl Hle]]; [exact (Hno H)|].
    unfold at_limit in Ha. fold (run stops limit ts) in Hn. rewrite Hn in Ha. cbn [npred init plus] in Ha.
    apply andb_false_iff in Ha as [Ha|Ha]; [apply Nat.ltb_ge in Ha | apply Nat.leb_gt in Ha]; lia.
  Qed.
End Run.

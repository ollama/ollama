(** C05: header and tensor infos are read back; [layout] says where the data section puts each tensor; [decode_write]
    is the decode of a written file. *)
From Coq Require Import List NArith ZArith Bool Arith Lia ZifyBool ZifyNat ZifyN Permutation.
From V Require Import Common.Bytes Gguf.Model Gguf.Arith Gguf.Monad Gguf.RoundTripKV.
Import ListNotations.
Open Scope N_scope.

Definition wf_tensor (t : tensor) : Prop :=
  t_kind t < two32 /\ Forall (fun d => d < two64) (t_shape t) /\ nlen (t_shape t) < two32.

(** what the decoder is expected to report for tensor [t] recorded at offset [o] *)
Definition tinfo_of (p : tensor * N) : tinfo := mkTI (t_name (fst p)) (t_kind (fst p)) (snd p) (rev (t_shape (fst p))).

Definition enc_tinfo_p (p : tensor * N) : list N := enc_tinfo (fst p) (snd p).


Lemma insert_kv_perm e l : Permutation (e :: l) (insert_kv e l).
Proof.
  induction l as [|e' l IH]; cbn [insert_kv]; [apply Permutation_refl|].
  destruct (str_ltb (fst e') (fst e)); [|apply Permutation_refl].
  eapply Permutation_trans; [apply perm_swap|]. apply perm_skip. exact IH.
Qed.

Lemma sort_kv_perm l : Permutation l (sort_kv l).
Proof.
  unfold sort_kv. induction l as [|e l IH]; cbn [fold_right]; [apply Permutation_refl|].
  eapply Permutation_trans; [apply perm_skip; exact IH | apply insert_kv_perm].
Qed.

Lemma kv_get_some_in {V} (l : list (str * V)) k v : kv_get k l = Some v -> In (k, v) l.
Proof.
  induction l as [|[k' v'] l IH]; cbn [kv_get]; [discriminate|].
  destruct (eqb_str k k') eqn:E; intro H.
  - apply eqb_str_spec in E. subst. inversion H. left. reflexivity.
  - right. apply IH, H.
Qed.

Lemma kv_get_in {V} (l : list (str * V)) k v : NoDup (map fst l) -> In (k, v) l -> kv_get k l = Some v.
Proof.
  induction l as [|[k' v'] l IH]; intros Hnd Hin; [destruct Hin|]. cbn [kv_get].
  inversion Hnd as [|? ? Hni Hnd']; subst. destruct Hin as [E|Hin].
  - inversion E; subst. rewrite (proj2 (eqb_str_spec k k) eq_refl). reflexivity.
  - destruct (eqb_str k k') eqn:E; [|exact (IH Hnd' Hin)].
    apply eqb_str_spec in E. subst k'. destruct Hni. exact (in_map fst _ _ Hin).
Qed.

Lemma kv_get_perm {V} (l1 l2 : list (str * V)) k : NoDup (map fst l1) -> Permutation l1 l2 -> kv_get k l1 = kv_get k l2.
Proof.
  intros Hnd Hp.
  assert (Hnd2 : NoDup (map fst l2)) by (eapply Permutation_NoDup; [apply Permutation_map; exact Hp | exact Hnd]).
  destruct (kv_get k l1) as [v|] eqn:E1.
  - symmetry. apply kv_get_in; [exact Hnd2|]. eapply Permutation_in; [exact Hp|]. apply kv_get_some_in, E1.
  - destruct (kv_get k l2) as [v|] eqn:E2; [|reflexivity].
    apply kv_get_some_in, (Permutation_in _ (Permutation_sym Hp)), (kv_get_in _ _ _ Hnd) in E2. congruence.
Qed.

Lemma kv_get_map {V W} (f : V -> W) (l : list (str * V)) k :
  kv_get k (map (fun e => (fst e, f (snd e))) l) = option_map f (kv_get k l).
Proof.
  induction l as [|[k' v] l IH]; [reflexivity|]. cbn [map kv_get fst snd]. destruct (eqb_str k k'); [reflexivity | exact IH].
Qed.

Lemma insert_ts_perm {T} (block : T -> Z) x l : Permutation (x :: l) (insert_ts block x l).
Proof.
  induction l as [|y l IH]; cbn [insert_ts]; [apply Permutation_refl|].
  destruct (cmp_block (block x) (block y) <? 0)%Z; [|apply Permutation_refl].
  eapply Permutation_trans; [apply perm_swap | apply perm_skip, IH].
Qed.

Lemma sort_ts_perm {T} (block : T -> Z) ts : Permutation ts (sort_ts block ts).
Proof.
  unfold sort_ts. eapply Permutation_trans; [|apply Permutation_rev].
  change ts with ([] ++ ts) at 1. generalize (@nil T) as acc.
  induction ts as [|x ts IH]; intro acc; cbn [fold_left]; [rewrite app_nil_r; apply Permutation_refl|].
  eapply Permutation_trans; [|apply IH].
  eapply Permutation_trans; [apply Permutation_sym, Permutation_middle|].
  apply (Permutation_app_tail ts (insert_ts_perm block x acc)).
Qed.

Lemma enc_tinfos_flat ts offs : length offs = length ts -> enc_tinfos ts offs = flat_map enc_tinfo_p (combine ts offs).
Proof.
  revert offs; induction ts as [|t ts IH]; intros [|o offs] H; cbn in H; try lia; [reflexivity|].
  cbn [enc_tinfos combine flat_map]. unfold enc_tinfo_p at 1. cbn [fst snd]. rewrite IH by lia. reflexivity.
Qed.

Lemma offsets_length fixed al s ts : length (offsets fixed al s ts) = length ts.
Proof. revert s; induction ts as [|t ts IH]; intro s; cbn [offsets length]; [reflexivity | now rewrite IH]. Qed.

Lemma offsets_lt fixed al s ts : Forall (fun o => o < two64) (offsets fixed al s ts).
Proof.
  revert s; induction ts as [|t ts IH]; intro s; cbn [offsets]; constructor; [apply wrap64_lt | apply IH].
Qed.

Lemma oks_dims l rest :
  Forall (fun d => d < two64) l ->
  oks (loop (nlen l) (fun sh => d <- rd_u64 false ;; alloc 16 ;;; ret (d :: sh)) []) (flat_map (le 8) l ++ rest) (rev l) rest.
Proof.
  intro Hl. rewrite <- (map_id l) at 3.
  apply (oks_loop_cons (le 8) _ (fun d => d) (fun d => d < two64)); [|intro; rewrite le_length; lia|exact Hl].
  intros sh d r Hd. eapply oks_bind; [apply oks_rd_u64; exact Hd|]. eapply oks_bind; [apply oks_alloc | apply oks_ret].
Qed.

Lemma oks_rd_tensor acc p rest :
  wf_tensor (fst p) -> snd p < two64 -> small (enc_tinfo_p p) ->
  oks (rd_tensor 3 false acc) (enc_tinfo_p p ++ rest) (tinfo_of p :: acc) rest.
Proof.
  destruct p as [t o]. unfold enc_tinfo_p, enc_tinfo, tinfo_of, rd_tensor. cbn [fst snd].
  intros (Hk & Hsh & Hnd) Ho Hs. rewrite <- !app_assoc.
  eapply oks_bind; [apply oks_rd_string3, small_enc_str; exact (small_app_l _ _ Hs)|].
  fold (nlen (t_shape t)).
  eapply oks_bind; [apply oks_rd_u32; exact Hnd|].
  eapply oks_bind; [apply (oks_guard PMake); lia|].
  eapply oks_bind; [apply oks_alloc|].
  eapply oks_bind.
  { replace (nlen (t_shape t)) with (nlen (rev (t_shape t))) by (unfold nlen; now rewrite rev_length).
    apply oks_dims, Forall_rev, Hsh. }
  eapply oks_bind; [apply oks_rd_u32; exact Hk|].
  eapply oks_bind; [apply oks_rd_u64; exact Ho|].
  rewrite rev_involutive. apply oks_ret.
Qed.

Lemma enc_tinfo_nonempty p : (1 <= length (enc_tinfo_p p))%nat.
Proof. unfold enc_tinfo_p, enc_tinfo. rewrite app_length. pose proof (enc_str_nonempty (t_name (fst p))). lia. Qed.

Lemma oks_tensor_section ps rest :
  Forall (fun p => wf_tensor (fst p) /\ snd p < two64) ps -> small (flat_map enc_tinfo_p ps) ->
  oks (loop (nlen ps) (rd_tensor 3 false) []) (flat_map enc_tinfo_p ps ++ rest) (rev (map tinfo_of ps)) rest.
Proof.
  intros Hwf Hs.
  apply (oks_loop_cons enc_tinfo_p _ tinfo_of (fun p => (wf_tensor (fst p) /\ snd p < two64) /\ small (enc_tinfo_p p)));
    [|apply enc_tinfo_nonempty|].
  - intros acc p r [[H1 H2] H3]. apply oks_rd_tensor; assumption.
  - apply small_flat_map_in in Hs. rewrite Forall_forall in *. auto.
Qed.

Definition hdr_tinfos (al : N) (ts : list tensor) : list tinfo := map tinfo_of (combine ts (offsets true al 0 ts)).

Lemma map_hdr_tinfos {A} (f : tinfo -> A) (g : tensor -> A) al ts :
  (forall p, f (tinfo_of p) = g (fst p)) -> map f (hdr_tinfos al ts) = map g ts.
Proof.
  intro H. unfold hdr_tinfos.
  rewrite map_map, (map_ext _ _ H), <- map_map, map_fst_combine by (symmetry; apply offsets_length). reflexivity.
Qed.

Lemma nth_error_hdr_tinfos al ts i ti :
  nth_error (hdr_tinfos al ts) i = Some ti ->
  exists t o, nth_error ts i = Some t /\ nth_error (offsets true al 0 ts) i = Some o /\ ti = tinfo_of (t, o).
Proof.
  unfold hdr_tinfos. rewrite nth_error_map.
  destruct (nth_error (combine ts (offsets true al 0 ts)) i) as [[t o]|] eqn:E; [|discriminate].
  intro H. injection H as <-. apply nth_error_combine in E. exists t, o. tauto.
Qed.

Lemma oks_rd_header ma kv ts rest :
  Forall (fun e => wf_wval (snd e)) kv -> Forall wf_tensor ts ->
  small (write_header true kv ts) ->
  oks (rd_header ma) (write_header true kv ts ++ rest)
      (3, rev (map (dec_kv ma) (sort_kv kv)), hdr_tinfos (walign kv) ts) rest.
Proof.
  intros Hkv Hts Hs. unfold write_header, hdr_tinfos in *.
  rewrite enc_tinfos_flat in * by apply offsets_length.
  set (ps := combine ts (offsets true (walign kv) 0 ts)) in *.
  pose proof (sort_kv_perm kv) as Hp.
  replace (length kv) with (length (sort_kv kv)) in * by (symmetry; apply Permutation_length, Hp).
  replace (length ts) with (length ps) in * by (unfold ps; rewrite combine_length, offsets_length; apply Nat.min_id).
  fold (nlen ps) (nlen (sort_kv kv)) in *.
  (* both sections are shorter than 2^63 bytes, so the two counts are *)
  do 4 apply small_app_r in Hs. pose proof (small_app_l _ _ Hs) as Hskv. apply small_app_r in Hs.
  pose proof (small_flat_map_len _ _ enc_kv_nonempty Hskv) as Hnkv.
  pose proof (small_flat_map_len _ _ enc_tinfo_nonempty Hs) as Hnt.
  unfold rd_header. change magic_gguf with (le 4 1179993927). rewrite <- !app_assoc.
  eapply oks_bind; [apply oks_rd_u32; reflexivity|]. cbn [N.eqb Pos.eqb].
  eapply oks_bind; [apply oks_ret|].
  eapply oks_bind; [apply oks_rd_u32; reflexivity|]. cbn [N.eqb Pos.eqb]. cbv zeta.
  rewrite (app_assoc (le 8 _) (le 8 _)).
  eapply oks_bind; [apply oks_take; rewrite app_length, !le_length; reflexivity|].
  rewrite firstn_app_exact, skipn_app_exact by (rewrite le_length; reflexivity).
  rewrite !unle_le_small by (rewrite pow256_8; pose proof two63_lt_two64; lia).
  eapply oks_bind; [apply oks_kv_section; [eapply Permutation_Forall; eassumption | exact Hskv]|].
  eapply oks_bind; [apply oks_tensor_section; [|exact Hs] | rewrite rev_involutive; apply oks_ret].
  apply Forall_forall. intros [t o] Hin. cbn [fst snd]. split.
  - exact (proj1 (Forall_forall _ _) Hts _ (in_combine_l _ _ _ _ Hin)).
  - exact (proj1 (Forall_forall _ _) (offsets_lt _ _ _ _) _ (in_combine_r _ _ _ _ Hin)).
Qed.

Definition padded (x a : N) : N := x + padN x a.

Lemma padded_ge x a : x <= padded x a.
Proof. unfold padded. lia. Qed.

Lemma padded_shift base y a : 0 < a -> base mod a = 0 -> padded (base + y) a = base + padded y a.
Proof. intros Ha Hb. unfold padded. rewrite padN_shift by assumption. lia. Qed.

Lemma write_data_cons al pos t r :
  0 < al ->
  write_data al pos (t :: r) =
  repeat 0 (N.to_nat (padN pos al)) ++ t_data t ++ write_data al (padded pos al + nlen (t_data t)) r.
Proof.
  intro Ha. cbn [write_data]. rewrite go_pad_N by exact Ha. rewrite N2Z.id. reflexivity.
Qed.

Lemma write_data_end al pos t r :
  0 < al ->
  pos + nlen (write_data al pos (t :: r)) =
  padded pos al + nlen (t_data t) + nlen (write_data al (padded pos al + nlen (t_data t)) r).
Proof.
  intro Ha. rewrite write_data_cons by exact Ha. unfold nlen, padded. rewrite !app_length, repeat_length. lia.
Qed.

Lemma offsets_cons al s t r :
  0 < al -> al < two64 -> padded s al + t_size t < two63 ->
  offsets true al s (t :: r) = padded s al :: offsets true al (padded s al + t_size t) r.
Proof.
  intros Ha Ha64 Hb. pose proof (padded_ge s al). pose proof two63_lt_two64.
  cbn [offsets]. rewrite pad64_N by lia. fold (padded s al). rewrite !wrap64_small by lia. reflexivity.
Qed.

Lemma seek_tensors_cons al pos ti r n :
  0 < al -> tensor_size (ti_kind ti) (ti_shape ti) = n -> padded pos al + n < two63 ->
  seek_tensors (Z.of_N al) (Z.of_N pos) (ti :: r) = seek_tensors (Z.of_N al) (Z.of_N (padded pos al + n)) r.
Proof.
  intros Ha <- Hb. cbn [seek_tensors]. cbv zeta. set (sz := tensor_size _ _) in *.
  assert (Hneg : forall x, (Z.of_N x <? 0)%Z = false) by lia.
  rewrite go_pad_N, <- N2Z.inj_add by exact Ha. fold (padded pos al).
  rewrite wrapZ64_small, Hneg, to_int64_small, Hneg, <- N2Z.inj_add, wrapZ64_small, Hneg by lia. reflexivity.
Qed.

Definition sized (t : tensor) : Prop := nlen (t_data t) = t_size t.

(** [pos]: absolute position of the writer in the file; [s]: the running size [offsets] accumulates (relative to the
    start of the data section); [base]: the aligned absolute position at which the data section starts.  They stay in
    step up to padding - [padded pos al = base + padded s al] - so an offset recorded from [s] is, shifted by [base], where
    the writer puts the data and where the decoder's seek loop passes. *)
Lemma layout ts : forall al pos s base,
  0 < al -> al < two64 -> base mod al = 0 -> padded pos al = base + padded s al ->
  Forall sized ts ->
  pos + nlen (write_data al pos ts) < two63 ->
  seek_tensors (Z.of_N al) (Z.of_N pos) (map tinfo_of (combine ts (offsets true al s ts)))
    = Some (Z.of_N (pos + nlen (write_data al pos ts)))
  /\ forall i t o, nth_error ts i = Some t -> nth_error (offsets true al s ts) i = Some o ->
       pos <= base + o /\ (base + o) mod al = 0 /\
       firstn (length (t_data t)) (skipn (N.to_nat (base + o - pos)) (write_data al pos ts)) = t_data t.
Proof.
  induction ts as [|t r IH]; intros al pos s base Ha Ha64 Hbase Hinv Hsz Hbound.
  - split; [cbn; f_equal; lia | intros [|i] t o H; discriminate].
  - inversion_clear Hsz as [|? ? Hszt Hszr]. unfold sized in Hszt.
    rewrite write_data_end in * by exact Ha. rewrite write_data_cons by exact Ha.
    pose proof (padded_ge pos al) as Hpos.
    assert (Hs : padded s al + nlen (t_data t) < two63) by (clear -Hinv Hbound; lia).
    rewrite offsets_cons by (rewrite <- ?Hszt; assumption). rewrite <- Hszt.
    set (n := nlen (t_data t)) in *. set (pos' := padded pos al + n) in *.
    assert (Hinv' : padded pos' al = base + padded (padded s al + n) al).
    { unfold pos'. rewrite Hinv, <- N.add_assoc. apply padded_shift; assumption. }
    destruct (IH al pos' _ base Ha Ha64 Hbase Hinv' Hszr Hbound) as [IH1 IH2].
    split.
    + cbn [combine map]. rewrite (seek_tensors_cons _ _ _ _ n); [exact IH1 | exact Ha | | clear -Hbound; lia].
      cbn [tinfo_of ti_kind ti_shape fst]. rewrite tensor_size_rev. symmetry. exact Hszt.
    + intros [|i] t' o Ht Ho; cbn [nth_error] in Ht, Ho.
      * injection Ht as <-. injection Ho as <-. rewrite <- Hinv.
        split; [exact Hpos|]. split; [apply padN_aligned; exact Ha|].
        rewrite skipn_app_exact by (rewrite repeat_length; unfold padded; clear; lia).
        apply firstn_app_exact. reflexivity.
      * destruct (IH2 i t' o Ht Ho) as (Hle & Hmod & Hdata).
        split; [clear -Hpos Hle; lia|]. split; [exact Hmod|].
        etransitivity; [|exact Hdata]. rewrite app_assoc. f_equal. apply skipn_app_add.
        rewrite app_length, repeat_length. unfold pos', padded, n, nlen in Hle |- *. clear -Hle. lia.
Qed.

Definition wparams (ts : list tensor) : N := fold_left (fun c t => wrap64 (c + parameters (t_shape t))) ts 0.

Lemma total_params_hdr al ts : total_params (hdr_tinfos al ts) = wparams ts.
Proof.
  unfold hdr_tinfos, total_params, wparams.
  set (ps := combine ts (offsets true al 0 ts)).
  rewrite <- (map_fst_combine ts (offsets true al 0 ts)) by (symmetry; apply offsets_length). fold ps.
  generalize 0. induction ps as [|[t o] ps IH]; intro c; [reflexivity|].
  cbn [map fold_left tinfo_of ti_shape fst]. rewrite parameters_rev. apply IH.
Qed.

Lemma wparams_perm a b : Permutation a b -> wparams a = wparams b.
Proof.
  apply (fold_wrap64_perm (fun c t => c + parameters (t_shape t)));
    [intros; apply N.add_mod_idemp_l; discriminate | intros; lia | reflexivity].
Qed.

(** the decoder patches the parameter count in first *)
Definition expected_kv (ma : Z) (kv : wkvs) (ts : list tensor) : kvs :=
  (k_param_count, VNum 10 (wparams ts)) :: rev (map (dec_kv ma) (sort_kv kv)).

Lemma expected_kv_get ma kv ts k :
  NoDup (map fst kv) ->
  kv_get k (expected_kv ma kv ts) =
  if eqb_str k k_param_count then Some (VNum 10 (wparams ts))
  else option_map (fun v => clip ma (val_of_wval v)) (kv_get k kv).
Proof.
  intro Hnd. unfold expected_kv. cbn [kv_get]. destruct (eqb_str k k_param_count); [reflexivity|].
  change (map (dec_kv ma) (sort_kv kv)) with (map (fun e => (fst e, (fun v => clip ma (val_of_wval v)) (snd e))) (sort_kv kv)).
  rewrite <- kv_get_map.
  symmetry. apply kv_get_perm.
  - rewrite map_map. cbn [fst]. exact Hnd.
  - eapply Permutation_trans; [apply Permutation_map, sort_kv_perm | apply Permutation_rev].
Qed.

Lemma walign_lt kv : Forall (fun e => wf_wval (snd e)) kv -> walign kv < two32.
Proof.
  intro Hwf. unfold walign, kv_uint. destruct (kv_get k_alignment kv) as [w|] eqn:E; [|reflexivity].
  apply kv_get_some_in in E. apply (proj1 (Forall_forall _ _) Hwf) in E.
  destruct w; try reflexivity. exact E.
Qed.

Lemma decoded_align ma kv ts :
  NoDup (map fst kv) -> kv_uint val_u32 (expected_kv ma kv ts) k_alignment 32 = walign kv.
Proof.
  intro Hnd. unfold walign, kv_uint. rewrite expected_kv_get by exact Hnd.
  change (eqb_str k_alignment k_param_count) with false. cbv iota.
  destruct (kv_get k_alignment kv) as [[]|]; try reflexivity; cbn [option_map val_of_wval clip];
    destruct (can_collect _ _); reflexivity.
Qed.

Definition data_start (kv : wkvs) (ts : list tensor) : N := padded (nlen (write_header true kv ts)) (walign kv).

Lemma layout_file kv ts :
  Forall (fun e => wf_wval (snd e)) kv -> Forall sized ts -> 0 < walign kv -> small (write_ordered true kv ts) ->
  seek_tensors (Z.of_N (walign kv)) (Z.of_N (nlen (write_header true kv ts))) (hdr_tinfos (walign kv) ts)
    = Some (Z.of_N (nlen (write_ordered true kv ts)))
  /\ forall i t o, nth_error ts i = Some t -> nth_error (offsets true (walign kv) 0 ts) i = Some o ->
       firstn (length (t_data t)) (skipn (N.to_nat (data_start kv ts + o)) (write_ordered true kv ts)) = t_data t
       /\ (data_start kv ts + o) mod walign kv = 0.
Proof.
  intros Hkv Hsz Hal Hsmall. unfold write_ordered, data_start, small in *. cbv zeta in *.
  set (h := write_header true kv ts) in *. fold (nlen h) in *. set (al := walign kv) in *.
  assert (Hlen : nlen (h ++ write_data al (nlen h) ts) = nlen h + nlen (write_data al (nlen h) ts))
    by (unfold nlen; rewrite app_length; lia).
  rewrite Hlen in *.
  destruct (layout ts al (nlen h) 0 (padded (nlen h) al)) as [Hseek Hb]; try assumption.
  - pose proof (walign_lt kv Hkv). fold al in H. unfold two32, two64 in *. lia.
  - apply padN_aligned, Hal.
  - unfold padded at 3. rewrite (padN_of_aligned 0) by (try apply N.mod_0_l; lia). lia.
  - split; [exact Hseek|]. intros i t o Ht Ho. destruct (Hb i t o Ht Ho) as (Hle & Hmod & Hdata).
    split; [|exact Hmod]. etransitivity; [|exact Hdata]. f_equal. apply skipn_app_add. unfold nlen in Hle |- *. clear -Hle. lia.
Qed.

Theorem decode_write ma0 kv ts :
  NoDup (map fst kv) -> Forall (fun e => wf_wval (snd e)) kv -> Forall wf_tensor ts -> Forall sized ts ->
  0 < walign kv -> small (write_ordered true kv ts) ->
  exists al, decode (write_ordered true kv ts) ma0 =
    DOk (mkD 3 (expected_kv (eff_max ma0) kv ts) (hdr_tinfos (walign kv) ts) (data_start kv ts)
             (Z.of_N (nlen (write_ordered true kv ts)))) al.
Proof.
  intros Hnd Hkv Hts Hsz Hal Hsmall.
  destruct (layout_file kv ts Hkv Hsz Hal Hsmall) as [Hseek _].
  pose proof (walign_lt kv Hkv) as Hal32.
  unfold data_start, write_ordered in *. cbv zeta in *. set (h := write_header true kv ts) in *.
  apply small_app_l in Hsmall as Hh63.
  destruct (oks_rd_header (eff_max ma0) kv ts (write_data (walign kv) (N.of_nat (length h)) ts) Hkv Hts Hh63) as [al Hh].
  fold h in Hh.
  unfold decode, decode_from. fold (eff_max ma0). rewrite Hh.
  rewrite total_params_hdr. fold (expected_kv (eff_max ma0) kv ts).
  rewrite decoded_align, (N.mod_small _ _ Hal32) by exact Hnd.
  destruct (Z.eqb_spec (Z.of_N (walign kv)) 0) as [E|_]; [lia|].
  (* the header was consumed exactly: the decoder stands at [nlen h] *)
  rewrite app_length, Nat.add_sub, Z.add_0_l, <- nat_N_Z. fold (nlen h) in *.
  unfold go_pad_p. destruct (Z.eqb_spec (Z.of_N (walign kv)) 0) as [E|_]; [lia|].
  rewrite go_pad_N, <- N2Z.inj_add by exact Hal. fold (padded (nlen h) (walign kv)).
  rewrite Hseek. eexists. do 3 f_equal.
  (* the data section starts below 2^63 + 2^32: no wrap *)
  pose proof (padN_lt (nlen h) (walign kv) Hal). unfold small, padded, two32, two63 in *.
  rewrite Z.mod_small, N2Z.id, wrap64_small by (unfold two64; lia). reflexivity.
Qed.

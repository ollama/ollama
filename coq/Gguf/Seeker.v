(** buffer_seeker.go: the concrete seeker refines the logical-position model. *)
From Coq Require Import List NArith ZArith Bool Arith Lia ZifyBool ZifyNat ZifyN.
From V Require Import Common.Bytes Gguf.Model Gguf.Arith Gguf.SeekerModel.
Import ListNotations.
Open Scope Z_scope.

(** int64 arithmetic is a ring: compensating for the buffered bytes and then seeking lands where the logical seek lands *)
Lemma wrap_compensate u b off : wrapZ64 (u + wrapZ64 (off - b)) = wrapZ64 ((u - b) + off).
Proof.
  apply wrapZ64_congr. rewrite Z.add_mod by discriminate. rewrite wrapZ64_mod. rewrite <- Z.add_mod by discriminate. f_equal. lia.
Qed.

Theorem buffered_seek_refines data c off w :
  let '(c', r) := c_seek data c off w in
  let '(p', r') := abs_step data (c_abs c) (SSeek off w) in
  r = r' /\ c_abs c' = p' /\ (c_inv data c -> c_inv data c').
Proof.
  unfold c_seek, abs_step, c_abs.
  assert (E : seek_target (zlen data) (cu c) (if (w =? 1)%N then wrapZ64 (off - zlen (cbuf c)) else off) w
              = seek_target (zlen data) (cu c - zlen (cbuf c)) off w).
  { unfold seek_target. destruct w as [|[| |]]; try reflexivity. cbn [N.eqb Pos.eqb]. apply wrap_compensate. }
  rewrite E. destruct (Z.ltb_spec (seek_target (zlen data) (cu c - zlen (cbuf c)) off w) 0).
  - split; [reflexivity | split; [reflexivity | intro Hi; exact Hi]].
  - split; [reflexivity|]. split.
    + cbn [cu cbuf]. unfold zlen in *. cbn [length]. lia.
    + intros _. unfold c_inv, c_abs. cbn [cu cbuf]. unfold zlen in *. cbn [length firstn]. split; [lia | reflexivity].
Qed.

Theorem prefetch_keeps_position data c m : c_inv data c -> c_abs (c_fill data c m) = c_abs c /\ c_inv data (c_fill data c m).
Proof.
  intros [H0 Hb]. unfold c_fill, c_abs, zlen in *. cbn [cu cbuf]. rewrite app_length.
  set (pre := firstn m (skipn (Z.to_nat (cu c)) data)).
  split; [lia|]. unfold c_inv, c_abs, zlen. cbn [cu cbuf]. rewrite app_length. split; [lia|].
  replace (Z.to_nat (cu c + Z.of_nat (length pre) - Z.of_nat (length (cbuf c) + length pre))) with (Z.to_nat (cu c - Z.of_nat (length (cbuf c)))) by lia.
  set (p := Z.to_nat (cu c - Z.of_nat (length (cbuf c)))) in *.
  assert (Ecu : Z.to_nat (cu c) = (length (cbuf c) + p)%nat) by lia.
  rewrite firstn_add. rewrite <- Hb. f_equal.
  unfold pre. rewrite Ecu, skipn_plus. symmetry. apply firstn_len_firstn.
Qed.

Theorem read_buffered_refines data c k :
  c_inv data c -> (k <= length (cbuf c))%nat ->
  let '(c', bytes) := c_read_buffered c k in
  bytes = firstn k (skipn (Z.to_nat (c_abs c)) data) /\ c_abs c' = c_abs c + Z.of_nat k.
Proof.
  intros [H0 Hb] Hk. unfold c_read_buffered, c_abs, zlen in *. cbn [cu cbuf]. split.
  - rewrite Hb at 1. rewrite firstn_firstn. f_equal. lia.
  - rewrite skipn_length. lia.
Qed.

(** fs/ggml/type.go and the size tables of fs/ggml/ggml.go: small facts about the tables. *)
From Coq Require Import List NArith ZArith Bool Arith Lia ZifyBool ZifyNat ZifyN.
From V Require Import Common.Bytes Gguf.Model Gguf.Arith.
Import ListNotations.
Open Scope N_scope.

Lemma file_type_roundtrip : forall t s, In (t, s) file_type_names -> parse_file_type s = Some t /\ file_type_name t = s.
Proof.
  assert (H : forallb (fun p => match parse_file_type (snd p) with Some t => t =? fst p | None => false end && eqb_str (file_type_name (fst p)) (snd p))
                      file_type_names = true) by (vm_compute; reflexivity).
  rewrite forallb_forall in H. intros t s Hin. specialize (H _ Hin). cbn [fst snd] in H.
  apply andb_true_iff in H as [H1 H2]. destruct (parse_file_type s) as [t'|]; [|discriminate].
  apply N.eqb_eq in H1. apply eqb_str_spec in H2. subst. auto.
Qed.

(** 5, 6 and everything from 33 = fileTypeUnknown on *)
Lemma file_type_name_unknown t : ~ In t (map fst file_type_names) -> file_type_name t = s_unknown_ft.
Proof.
  intro Ht. unfold file_type_name. destruct (find (fun p => fst p =? t) file_type_names) as [p|] eqn:E; [|reflexivity].
  apply find_some in E as [Hin Heq]. apply N.eqb_eq in Heq. destruct Ht. rewrite <- Heq. apply in_map, Hin.
Qed.

Lemma file_type_unknown t : 33 <= t -> file_type_name t = s_unknown_ft.
Proof.
  intros Ht. apply file_type_name_unknown. intro Hin.
  assert (Hall : forallb (fun x => x <? 33) (map fst file_type_names) = true) by (vm_compute; reflexivity).
  rewrite forallb_forall in Hall. specialize (Hall _ Hin). lia.
Qed.

Lemma parse_file_type_some s t : parse_file_type s = Some t -> file_type_name t = s /\ t < 33.
Proof.
  unfold parse_file_type. destruct (find (fun p => eqb_str (fst p) s) parse_names) as [p|] eqn:E; [|discriminate].
  intro H. inversion H; subst t. apply find_some in E as [Hin Heq]. apply eqb_str_spec in Heq. subst s.
  assert (Hall : forallb (fun p => eqb_str (file_type_name (snd p)) (fst p) && (snd p <? 33)) parse_names = true) by (vm_compute; reflexivity).
  rewrite forallb_forall in Hall. specialize (Hall _ Hin). apply andb_true_iff in Hall as [H1 H2]. apply eqb_str_spec in H1. split; [exact H1 | lia].
Qed.

Lemma block_size_values k : block_size k = 1 \/ block_size k = 32 \/ block_size k = 256.
Proof.
  unfold block_size. destruct k as [|p]; [auto|].
  do 5 (try destruct p as [p|p|]); auto.
Qed.

Lemma type_size_unknown k : 31 <= k -> type_size k = 0.
Proof.
  intro H. destruct k as [|p]; [lia|].
  do 6 (try (destruct p as [p|p|]; try reflexivity; try lia)).
Qed.

Lemma type_size_known k : k < 31 -> k <> 4 -> k <> 5 -> 0 < type_size k.
Proof.
  intros H H4 H5.
  assert (Hall : forallb (fun k => (k =? 4) || (k =? 5) || (0 <? type_size k)) (map N.of_nat (seq 0 31)) = true) by (vm_compute; reflexivity).
  rewrite forallb_forall in Hall. specialize (Hall k).
  assert (Hin : In k (map N.of_nat (seq 0 31))).
  { apply in_map_iff. exists (N.to_nat k). split; [lia | apply in_seq; lia]. }
  specialize (Hall Hin). lia.
Qed.

(** kinds 4, 5 and everything from 31 on *)
Lemma tensor_size_zero k shape : type_size k = 0 -> tensor_size k shape = 0.
Proof.
  intro H. unfold tensor_size. rewrite H, N.mul_0_r. unfold wrap64. rewrite N.mod_0_l by discriminate.
  apply N.div_0_l. pose proof (block_size_pos k). lia.
Qed.

Lemma unknown_kind_size_zero k shape : 31 <= k -> tensor_size k shape = 0.
Proof. intro H. apply tensor_size_zero, type_size_unknown, H. Qed.

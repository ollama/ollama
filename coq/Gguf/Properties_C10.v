(** Property C10 - untrusted model files: decoding ANY byte string ends with a decoded model or an error; it never
    panics, terminates, and allocates memory in proportion to the input.  Theorems only (proofs in Total.v).

    [decode bytes maxArr] models ggml.Decode(bytes.NewReader(bytes), maxArr) of /repo with
    fixes/C10-decoder-guards.patch applied: every Go operation that can panic (slice expression, make, Truncate,
    integer division) is a model primitive returning [RPanic] when Go would panic, every loop runs on fuel, and
    every allocation request is added to a meter. *)
From Coq Require Import List NArith ZArith Bool.
From V Require Import Common.Bytes Gguf.Model Gguf.Total.
Import ListNotations.
Open Scope N_scope.

(** no panic, for every byte string and every maxArraySize (negative = collect everything, 0 = default 1024);
    and termination: the loops of the decoder run on fuel [length of the remaining input + 1] and never exhaust it
    ([EFuel] is the model's "did not terminate") *)
Theorem C10_decode_total : forall (bytes : list N) (maxArr : Z),
  match decode bytes maxArr with
  | DOk _ _ => True
  | DErr e _ => e <> EFuel
  | DPanic _ _ => False
  end.
Proof. exact decode_total. Qed.
Print Assumptions C10_decode_total.

Corollary C10_decode_ok_or_error : forall bytes maxArr,
  (exists d al, decode bytes maxArr = DOk d al) \/ (exists e al, decode bytes maxArr = DErr e al /\ e <> EFuel).
Proof. exact decode_ok_or_error. Qed.
Print Assumptions C10_decode_ok_or_error.

(** allocation is linear in the input with explicit constants: at most 256 bytes per input byte plus 78368
    (65536 of fixed buffers + 12832 for the one bounded pre-allocation that can precede a failing read), whatever
    lengths and counts the file declares and whatever maxArraySize is - including "collect all arrays" *)
Theorem C10_alloc_linear : forall (bytes : list N) (maxArr : Z),
  d_alloc (decode bytes maxArr) <= 256 * N.of_nat (length bytes) + 78368.
Proof. exact decode_alloc_linear. Qed.
Print Assumptions C10_alloc_linear.

(** the same two statements for a decode that starts at any absolute offset of a larger file (server/create.go ggufLayers
    decodes model after model from one blob) *)
Theorem C10_decode_from_total : forall (base : Z) (bytes : list N) (maxArr : Z),
  match decode_from base bytes maxArr with
  | DOk _ _ => True
  | DErr e _ => e <> EFuel
  | DPanic _ _ => False
  end.
Proof. exact decode_from_total. Qed.
Print Assumptions C10_decode_from_total.

(** progress: a successful decode ends at least 16 bytes after the position it started from - no tensor size can move
    the reader backwards (fixes/C10-tensor-size-rewind.patch) - so the loop of ggufLayers, which decodes again from the end
    position while it is inside the file, terminates.  Files shorter than 2^63 bytes (int64 positions). *)
Theorem C10_decode_progress : forall (base : Z) (bytes : list N) (maxArr : Z) d al,
  (0 <= base)%Z -> (base + Z.of_nat (length bytes) < Z.of_N two63)%Z ->
  decode_from base bytes maxArr = DOk d al -> (base + 16 <= d_end d)%Z.
Proof. exact decode_from_progress. Qed.
Print Assumptions C10_decode_progress.

(** ... and with at least one tensor it is not before the tensor data offset: the position arithmetic is carried out step by step
    in int64 and every step that leaves the int64 range is an error, so a table of tensor sizes whose running sum wraps (each
    size fitting an int64) cannot produce a small end offset *)
Theorem C10_decode_end_after_data : forall (base : Z) (bytes : list N) (maxArr : Z) d al,
  (0 <= base)%Z -> (base + Z.of_nat (length bytes) < Z.of_N two63)%Z ->
  decode_from base bytes maxArr = DOk d al -> d_tensors d <> [] -> (Z.of_N (d_toff d) <= d_end d)%Z.
Proof. exact decode_end_after_data. Qed.
Print Assumptions C10_decode_end_after_data.

(** the typed accessors that create (ggufLayers, detectChatTemplate, createModel) and show (Capabilities) call on a decoded
    file - Architecture, Kind, ChatTemplate, FileType, ParameterCount, with keyValue's checked assertion and its
    [defaultValue[0]] index expression modelled as panicking primitives - never panic on the KV of ANY decoded file.
    (The accessors of the model-load path - GraphSize, GQA, Strings/Uints/Floats - are NOT covered: they can panic and are
    monitored on the implementation only, see notes/C10.md.) *)
Theorem C10_accessors_total : forall base bytes maxArr d al,
  decode_from base bytes maxArr = DOk d al -> accessors_ok (d_kv d) = true.
Proof. exact accessors_total. Qed.
Print Assumptions C10_accessors_total.

(** ... and the hypothesis matters: on a KV that did not come out of the decoder ParameterCount panics *)
Example C10_parameter_count_needs_decode : r_parameter_count [] = APanic PIndex.
Proof. exact parameter_count_needs_decode. Qed.

(** the scalar typed accessor (keyValue with at least one default, as String / Uint / Float / Bool pass) is total on ANY KV: a value
    of another type or a missing key yields the default *)
Theorem C10_key_value_total : forall (T : Type) (proj : val -> option T) m key d ds, is_ok (key_value proj m key (d :: ds)) = true.
Proof. exact @key_value_total. Qed.
Print Assumptions C10_key_value_total.

(** the array accessors of the model-load path (KV.Strings / Uints / Floats) are NOT total on decoded files - the element type and
    the array length come from the file, and arrays above maxArraySize have a size but no values - so this statement is refuted
    (witness: tokenizer.ggml.tokens stored as an int32 array); they are total exactly when the array was collected and its elements
    have the asserted type.  No create/show consumer calls them on /repo (monitored through the API on every consumed key). *)
Definition C10_array_accessors_total_full : Prop := array_accessors_total_full.
Theorem C10_array_accessors_total_refuted : ~ C10_array_accessors_total_full.
Proof. exact array_accessors_total_refuted. Qed.
Print Assumptions C10_array_accessors_total_refuted.
Theorem C10_array_accessors_total_partial : forall (T : Type) (proj : val -> option T) m key,
  collected_typed proj m key -> is_ok (arr_elems proj m key) = true.
Proof. exact @array_accessors_total_partial. Qed.
Print Assumptions C10_array_accessors_total_partial.

(** non-vacuity: the three outcomes exist, and a file declaring a 2^40-element array / a 2^63 string length /
    alignment 0 is an error with a small meter *)
Definition tiny_ok : list N := [71;71;85;70; 3;0;0;0; 0;0;0;0;0;0;0;0; 0;0;0;0;0;0;0;0].
Example C10_ex_ok : exists d al, decode tiny_ok 0 = DOk d al /\ d_end d = 24%Z.
Proof. vm_compute. eauto. Qed.

Definition huge_array : list N :=
  [71;71;85;70; 3;0;0;0; 0;0;0;0;0;0;0;0; 1;0;0;0;0;0;0;0;  1;0;0;0;0;0;0;0; 97;  9;0;0;0; 4;0;0;0; 0;0;0;0;0;1;0;0].
Example C10_ex_huge_array : decode huge_array (-1) = DErr EEof (65536 + 1 + 32 + 16 * 1024).
Proof. vm_compute. reflexivity. Qed.

Definition neg_string : list N := [71;71;85;70; 3;0;0;0; 0;0;0;0;0;0;0;0; 1;0;0;0;0;0;0;0;  255;255;255;255;255;255;255;255].
Example C10_ex_neg_string : decode neg_string 0 = DErr ELen 65536.
Proof. vm_compute. reflexivity. Qed.

(** C10: the decoder model never panics, never runs out of fuel, and allocates linearly in the input. *)
From Coq Require Import List NArith ZArith Bool Arith Lia ZifyBool ZifyNat ZifyN.
From V Require Import Common.Bytes Gguf.Model Gguf.Arith Gguf.Monad.
Import ListNotations.
Open Scope N_scope.

Lemma num_width_pos t w : num_width t = Some w -> 1 <= w.
Proof.
  unfold num_width. destruct t as [|p]; [injection 1 as <-; lia|].
  do 4 (try destruct p as [p|p|]; try discriminate); injection 1 as <-; lia.
Qed.

Lemma G_rd_num be ty w : 1 <= w -> G (-256) 0 (rd_num be ty w).
Proof. intro Hw. unfold rd_num. eapply G_bind; [apply G_rd_int | intro x; apply G_ret; lia | lia]. Qed.

(** strings: 8 length bytes pay 2048; a short string costs its length at most, a long one goes through [copyN] *)
Lemma G_rd_string23 be : G (-512) 0 (rd_string23 be).
Proof.
  unfold rd_string23. eapply G_bind; [apply G_rd_int | intro n; cbv zeta | lia].
  destruct (Z.ltb_spec (to_int64 n) 0); [apply G_fail'; [discriminate | lia]|].
  destruct (Z.ltb_spec (Z.of_N scratch_len) (to_int64 n)); [eapply G_weaken; [apply G_copyN | lia | lia]|].
  unfold scratch_len in *.
  eapply G_bind; [apply (G_guard PSlice); lia | intros _ | lia].
  eapply G_bind; [apply G_take | intro b | lia].
  apply G_alloc_ret; lia.
Qed.

Lemma copyN_length n rest a r al : copyN n rest = ROk a r al -> length a = N.to_nat n.
Proof.
  unfold copyN. destruct (N.ltb_spec (N.of_nat (length rest)) n); [discriminate|].
  intro Hc. inversion Hc; subst. apply firstn_length_le. lia.
Qed.

Lemma G_rd_string1 be : G (-512) 0 (rd_string1 be).
Proof.
  unfold rd_string1. eapply G_bind; [apply G_rd_int | intro n | lia].
  destruct (N.eqb_spec n 0); [apply G_fail'; [discriminate | lia]|].
  destruct (N.leb_spec two63 n); [apply G_fail'; [discriminate | lia]|]. cbn [orb].
  (* [Truncate(len - 1)] is in range because [copyN] returned exactly n > 0 bytes *)
  eapply (G_bind_dep _ _ _ _ _ _ (fun b => length b = N.to_nat n)); [apply G_copyN | exact (copyN_length n) | | lia].
  intros b Hlen. eapply G_bind; [apply (G_guard PTruncate); lia | intros _; apply G_ret; lia | lia].
Qed.

Lemma G_rd_string ver be : G (-512) 0 (rd_string ver be).
Proof. unfold rd_string. destruct (ver =? 1); [apply G_rd_string1 | apply G_rd_string23]. Qed.

Lemma G_discard_string be : G (-2048) 0 (discard_string be).
Proof.
  unfold discard_string. eapply G_bind; [apply G_rd_int | intro n | lia].
  destruct (to_int64 n <=? 0)%Z; [apply G_ret; lia|].
  intro rest. destruct (N.ltb_spec (N.of_nat (length rest)) n).
  - split; [discriminate | unfold K, zlen; lia].
  - unfold K, zlen. rewrite !skipn_length. split; lia.
Qed.

Lemma G_rd_elem ver be coll ety : G (-256) 0 (rd_elem ver be coll ety).
Proof.
  unfold rd_elem. destruct (num_width ety) as [w|] eqn:Ew.
  - apply num_width_pos in Ew. eapply G_bind; [apply G_rd_num, Ew | intro; apply G_ret; lia | lia].
  - destruct (ety =? 8); [|apply G_fail'; [discriminate | lia]].
    destruct ((ver =? 1) || coll); (eapply G_bind; [first [apply G_rd_string | apply G_discard_string] | intro; apply G_ret; lia | lia]).
Qed.

(** arrays: type and count pay 2048 and every element at least 256; a collected element costs 48 (so -208 per turn), the bounded
    pre-allocation 32 + 16 * min n 1024 <= 16416 - the one request that can precede a failing read *)
Definition arr_cf : Z := 16416.

Lemma G_rd_array ver be maxArr : G (-2016) (arr_cf - 2048) (rd_array ver be maxArr).
Proof.
  unfold rd_array, arr_cf.
  eapply G_bind; [apply G_rd_int | intro ety | lia].
  eapply (G_bind (-1024) 0); [destruct (ver =? 1); (eapply G_weaken; [apply G_rd_int | lia | lia]) | intro n | lia].
  destruct (N.leb_spec two63 n); [apply G_fail'; [discriminate | lia]|]. cbv zeta.
  unfold prealloc, elem_cost. destruct (can_collect maxArr (Z.of_N n)).
  - eapply G_bind; [apply (G_guard PMake); lia | intros _ | lia].
    eapply G_bind; [apply G_alloc | intros _ | lia].
    eapply G_bind; [apply (G_loop (-208) 0); [intro acc | lia] | intro vs; apply G_ret; lia | lia].
    eapply G_bind; [apply G_rd_elem | intro e; apply G_alloc_ret; lia | lia].
  - eapply (G_bind 0 0); [apply G_ret; lia | intros _ | lia].
    eapply G_bind; [apply G_alloc | intros _ | lia].
    eapply G_bind; [apply (G_loop (-256) 0); [intro acc | lia] | intro vs; apply G_ret; lia | lia].
    eapply G_bind; [apply G_rd_elem | intro e; apply G_ret; lia | lia].
Qed.

Lemma G_rd_value ver be maxArr t : G (-256) (arr_cf - 2048) (rd_value ver be maxArr t).
Proof.
  unfold rd_value, arr_cf. destruct (num_width t) as [w|] eqn:Ew.
  - apply num_width_pos in Ew. eapply G_weaken; [apply G_rd_num, Ew | lia | lia].
  - destruct (t =? 8); [eapply G_bind; [apply G_rd_string | intro; apply G_ret; lia | lia]|].
    destruct (t =? 9); [eapply G_weaken; [apply G_rd_array | lia | unfold arr_cf; lia] | apply G_fail'; [discriminate | lia]].
Qed.

(** key (>= 512) and type (1024) are read before the value, so a failure inside it has that much less to account for;
    on success -512 (key) - 1024 (type) - 256 (value) + 64 (map entry) = -1728 *)
Definition kv_cf : Z := arr_cf - 2048 - 1536.

Lemma G_rd_kv ver be maxArr acc : G (-1728) kv_cf (rd_kv ver be maxArr acc).
Proof.
  unfold rd_kv, kv_cf, arr_cf, kv_cost.
  eapply G_bind; [apply G_rd_string | intro k | lia].
  eapply G_bind; [apply G_rd_int | intro t | lia].
  eapply G_bind; [apply G_rd_value | intro v | unfold arr_cf; lia].
  apply G_alloc_ret; lia.
Qed.

(** -512 (name) - 1024 (dims) + 128 (struct) - 1024 (kind) - 2048 (offset) = -4480; a dimension pays 2048 and costs 16 *)
Lemma G_rd_tensor ver be acc : G (-4480) 0 (rd_tensor ver be acc).
Proof.
  unfold rd_tensor, tensor_cost.
  eapply G_bind; [apply G_rd_string | intro name | lia].
  eapply G_bind; [apply G_rd_int | intro dims | lia].
  eapply G_bind; [apply (G_guard PMake); lia | intros _ | lia].
  eapply G_bind; [apply G_alloc | intros _ | lia].
  eapply G_bind; [apply (G_loop (-2032) 0); [intro sh | lia] | intro shape | lia].
  - eapply G_bind; [apply G_rd_int | intro d; apply G_alloc_ret; lia | lia].
  - eapply G_bind; [apply G_rd_int | intro kind | lia].
    eapply G_bind; [apply G_rd_int | intro off; apply G_ret; lia | lia].
Qed.

(** magic 1024 + version 1024 + the two counts, 8 bytes at least: 4096 paid before the first loop *)
Lemma G_rd_header maxArr : G (-4096) kv_cf (rd_header maxArr).
Proof.
  (* [lia] gets the value of [kv_cf] without its being unfolded in the goal *)
  unfold rd_header. pose proof (eq_refl : kv_cf = 12832%Z) as Ekv.
  eapply G_bind; [apply G_rd_int | intro magic | lia].
  eapply (G_bind 0 0); [ | intro be | lia].
  { destruct (magic =? 1179993927); [apply G_ret; lia|].
    destruct (magic =? 1195857222); [apply G_ret; lia | apply G_fail'; [discriminate | lia]]. }
  eapply G_bind; [apply G_rd_int | intro ver; cbv zeta | lia].
  eapply (G_bind (-2048) 0); [eapply G_weaken; [apply G_take | destruct (ver =? 1); lia | lia] | intro cnt | lia].
  eapply (G_bind 0 kv_cf); [eapply G_weaken; [apply (G_loop (-1728) kv_cf); [intro; apply G_rd_kv | lia] | lia | lia] | intro kv | lia].
  eapply (G_bind 0 0); [eapply G_weaken; [apply (G_loop (-4480) 0); [intro; apply G_rd_tensor | lia] | lia | lia] | intro ts | lia].
  apply G_ret; lia.
Qed.

Definition alloc_slack : N := 78368.   (* base_alloc + kv_cf *)

(** the checks after the header (alignment, seek loop) allocate nothing and fail with EAlign / ESeek only *)
Lemma decode_from_safe base bytes maxArr :
  match decode_from base bytes maxArr with
  | DPanic _ _ => False
  | DErr e al => e <> EFuel /\ al <= 256 * N.of_nat (length bytes) + alloc_slack
  | DOk _ al => al <= 256 * N.of_nat (length bytes) + alloc_slack
  end.
Proof.
  unfold decode_from. cbv zeta. fold (eff_max maxArr). pose proof (G_rd_header (eff_max maxArr) bytes) as H.
  pose proof (eq_refl : kv_cf = 12832%Z) as Ekv. unfold alloc_slack, base_alloc, K, zlen in *.
  destruct (rd_header _ bytes) as [[[ver kv0] ts] rest al | e al | p al]; [|split; [apply H | lia]|exact H].
  set (a := Z.of_N _). destruct (Z.eqb_spec a 0) as [|Ea]; [split; [discriminate | lia]|].
  unfold go_pad_p. rewrite (proj2 (Z.eqb_neq a 0) Ea).
  destruct (seek_tensors a _ ts); [lia | split; [discriminate | lia]].
Qed.

Theorem decode_from_total base bytes maxArr :
  match decode_from base bytes maxArr with
  | DPanic _ _ => False
  | DErr e _ => e <> EFuel
  | DOk _ _ => True
  end.
Proof. pose proof (decode_from_safe base bytes maxArr) as H. destruct (decode_from base bytes maxArr); [exact I | apply H | exact H]. Qed.

Theorem decode_total bytes maxArr :
  match decode bytes maxArr with
  | DPanic _ _ => False
  | DErr e _ => e <> EFuel
  | DOk _ _ => True
  end.
Proof. apply decode_from_total. Qed.

Theorem decode_from_alloc_linear base bytes maxArr :
  d_alloc (decode_from base bytes maxArr) <= 256 * N.of_nat (length bytes) + alloc_slack.
Proof.
  pose proof (decode_from_safe base bytes maxArr) as H. destruct (decode_from base bytes maxArr); [exact H | apply H | destruct H].
Qed.

Theorem decode_alloc_linear bytes maxArr :
  d_alloc (decode bytes maxArr) <= 256 * N.of_nat (length bytes) + alloc_slack.
Proof. apply decode_from_alloc_linear. Qed.

Corollary decode_ok_or_error bytes maxArr :
  (exists d al, decode bytes maxArr = DOk d al) \/ (exists e al, decode bytes maxArr = DErr e al /\ e <> EFuel).
Proof.
  pose proof (decode_total bytes maxArr) as H.
  destruct (decode bytes maxArr) as [d al | e al | p al]; [left; eauto | right; eauto | destruct H].
Qed.

Lemma decode_from_ok base bytes maxArr d al :
  decode_from base bytes maxArr = DOk d al ->
  exists kv0 rest al0 a pos,
    rd_header (eff_max maxArr) bytes = ROk (d_version d, kv0, d_tensors d) rest al0 /\
    pos = (base + Z.of_nat (length bytes - length rest))%Z /\
    d_kv d = (k_param_count, VNum 10 (total_params (d_tensors d))) :: kv0 /\
    (0 < a < Z.of_N two32)%Z /\
    d_toff d = wrap64 (Z.to_N ((pos + go_pad pos a) mod Z.of_N two64)) /\
    seek_tensors a pos (d_tensors d) = Some (d_end d).
Proof.
  unfold decode_from. cbv zeta. fold (eff_max maxArr).
  destruct (rd_header _ bytes) as [[[ver kv0] ts] rest al0 | |]; [|discriminate|discriminate].
  set (a := Z.of_N _).
  assert (Ha : (0 <= a < Z.of_N two32)%Z) by (split; [apply N2Z.is_nonneg | apply N2Z.inj_lt, N.mod_lt; discriminate]).
  destruct (Z.eqb_spec a 0) as [|Ea]; [discriminate|]. unfold go_pad_p. rewrite (proj2 (Z.eqb_neq a 0) Ea).
  destruct (seek_tensors a _ ts) as [e|] eqn:Es; [|discriminate].
  (* a projection takes the record out; [injection] would also compare the meters, by evaluating them *)
  intro H. apply (f_equal (fun r => match r with DOk x _ => x | _ => d end)) in H. subst d. cbn [d_version d_kv d_tensors d_toff d_end].
  exists kv0, rest, al0, a, (base + Z.of_nat (length bytes - length rest))%Z. repeat split; try reflexivity; [lia | lia | exact Es].
Qed.

Lemma rd_header_consumes ma bytes x rest al : rd_header ma bytes = ROk x rest al -> (length rest + 16 <= length bytes)%nat.
Proof. intro E. pose proof (G_rd_header ma bytes) as H. rewrite E in H. unfold K, zlen in H. lia. Qed.

Lemma seek_tensors_step al pos t r e :
  (0 < al < Z.of_N two32)%Z -> (0 <= pos < Z.of_N two63)%Z -> seek_tensors al pos (t :: r) = Some e ->
  exists p, (pos + go_pad pos al <= p < Z.of_N two63)%Z /\ seek_tensors al p r = Some e.
Proof.
  intros Ha Hp. cbn [seek_tensors]. cbv zeta.
  pose proof (go_pad_range pos al ltac:(lia) ltac:(lia)) as Hpad. pose proof pow2_32_63_64 as Hpw.
  pose proof (to_int64_lt (tensor_size (ti_kind t) (ti_shape t))) as Hsz.
  set (sz := to_int64 _) in *. set (pad := go_pad pos al) in *.
  destruct (Z.ltb_spec (wrapZ64 (pos + pad)) 0) as [|H1]; [discriminate|].
  apply wrapZ64_nonneg in H1 as [E1 H1]; [rewrite E1 | lia].
  destruct (Z.ltb_spec sz 0); [discriminate|].
  destruct (Z.ltb_spec (wrapZ64 (pos + pad + sz)) 0) as [|H2]; [discriminate|].
  apply wrapZ64_nonneg in H2 as [E2 H2]; [rewrite E2 | lia].
  intro Hs. exists (pos + pad + sz)%Z. split; [lia | exact Hs].
Qed.

Lemma seek_tensors_forward al ts : forall pos e,
  (0 < al < Z.of_N two32)%Z -> (0 <= pos < Z.of_N two63)%Z -> seek_tensors al pos ts = Some e -> (pos <= e)%Z.
Proof.
  induction ts as [|t r IH]; intros pos e Ha Hp H.
  - injection H as <-. lia.
  - destruct (seek_tensors_step _ _ _ _ _ Ha Hp H) as (p & Hpp & Hs).
    pose proof (go_pad_range pos al ltac:(lia) ltac:(lia)). specialize (IH p e Ha ltac:(lia) Hs). lia.
Qed.

Theorem decode_from_progress base bytes maxArr d al :
  (0 <= base)%Z -> (base + Z.of_nat (length bytes) < Z.of_N two63)%Z ->
  decode_from base bytes maxArr = DOk d al -> (base + 16 <= d_end d)%Z.
Proof.
  intros Hb Hlen Hd. destruct (decode_from_ok _ _ _ _ _ Hd) as (kv0 & rest & al0 & a & pos & Hh & Hpos & _ & Ha & _ & Hs).
  apply rd_header_consumes in Hh. apply seek_tensors_forward in Hs; [lia | exact Ha | lia].
Qed.

Theorem decode_end_after_data base bytes maxArr d al :
  (0 <= base)%Z -> (base + Z.of_nat (length bytes) < Z.of_N two63)%Z ->
  decode_from base bytes maxArr = DOk d al -> d_tensors d <> [] -> (Z.of_N (d_toff d) <= d_end d)%Z.
Proof.
  intros Hb Hlen Hd Hne. destruct (decode_from_ok _ _ _ _ _ Hd) as (kv0 & rest & al0 & a & pos & Hh & Hpos & _ & Ha & Ht & Hs).
  apply rd_header_consumes in Hh. assert (Hp : (0 <= pos < Z.of_N two63)%Z) by lia.
  destruct (d_tensors d) as [|t r]; [contradiction|].
  destruct (seek_tensors_step _ _ _ _ _ Ha Hp Hs) as (p & Hpp & Hs').
  pose proof (go_pad_range pos a ltac:(lia) ltac:(lia)). pose proof pow2_32_63_64.
  apply seek_tensors_forward in Hs'; [|exact Ha|lia].
  rewrite Ht, Z.mod_small, wrap64_small by lia. lia.
Qed.

Lemma key_value_total {T} (proj : val -> option T) m key d ds : is_ok (key_value proj m key (d :: ds)) = true.
Proof. unfold key_value. destruct (kv_get (key_for m key) m) as [v|]; [destruct (proj v)|]; reflexivity. Qed.

(** ParameterCount passes no default: it is the entry the decoder patches in that keeps it from panicking *)
Lemma accessors_ok_patched x kv : accessors_ok ((k_param_count, VNum 10 x) :: kv) = true.
Proof.
  set (m := _ :: kv). unfold accessors_ok, r_architecture, r_kind, r_chat_template, r_file_type.
  rewrite !key_value_total. pose proof (key_value_total val_u32 m k_file_type 0 []) as H.
  destruct (key_value val_u32 m k_file_type [0]); [reflexivity | discriminate H].
Qed.

Theorem accessors_total base bytes maxArr d al :
  decode_from base bytes maxArr = DOk d al -> accessors_ok (d_kv d) = true.
Proof.
  intro Hd. destruct (decode_from_ok _ _ _ _ _ Hd) as (kv0 & _ & _ & _ & _ & _ & _ & Hkv & _).
  rewrite Hkv. apply accessors_ok_patched.
Qed.

Lemma parameter_count_needs_decode : r_parameter_count [] = APanic PIndex.
Proof. reflexivity. Qed.

Definition array_accessors_total_full : Prop :=
  forall base bytes maxArr d al key, decode_from base bytes maxArr = DOk d al -> is_ok (r_strings (d_kv d) key) = true.

(** witness: one key/value tokenizer.ggml.tokens = int32 array [1] *)
Definition wit_tokens_i32 : list N :=
  [71;71;85;70; 3;0;0;0; 0;0;0;0;0;0;0;0; 1;0;0;0;0;0;0;0; 21;0;0;0;0;0;0;0] ++ k_tokens ++ [9;0;0;0; 5;0;0;0; 1;0;0;0;0;0;0;0; 1;0;0;0].

Lemma array_accessors_total_refuted : ~ array_accessors_total_full.
Proof.
  intro H. specialize (H 0%Z wit_tokens_i32 0%Z). vm_compute in H.
  specialize (H _ _ k_tokens eq_refl). vm_compute in H. discriminate.
Qed.

Definition collected_typed {T} (proj : val -> option T) (m : kvs) (key : str) : Prop :=
  match kv_get (key_for m key) m with
  | Some (VArr n (Some vs)) => Forall (fun v => proj v <> None) vs
  | Some (VArr n None) => n = 0
  | _ => True
  end.

Lemma array_accessors_total_partial {T} (proj : val -> option T) m key : collected_typed proj m key -> is_ok (arr_elems proj m key) = true.
Proof.
  unfold collected_typed, arr_elems. destruct (kv_get (key_for m key) m) as [[| |n [vs|]]|]; try reflexivity.
  - induction 1 as [|v r Hv _ IH]; [reflexivity|]. destruct (proj v); [|contradiction].
    match type of IH with is_ok ?e = true => destruct e end; [reflexivity | discriminate].
  - intros ->. reflexivity.
Qed.

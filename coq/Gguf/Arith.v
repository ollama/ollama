(** List and arithmetic facts for the C05 / C10 proofs: appended lists, the little-endian codec, wrap, padding. *)
From Coq Require Import List NArith ZArith Bool Arith Lia ZifyBool ZifyNat ZifyN Permutation.
From V Require Import Common.Bytes Gguf.Model.
Import ListNotations.
Open Scope N_scope.

Lemma firstn_app_exact {A} (a b : list A) n : n = length a -> firstn n (a ++ b) = a.
Proof. intros ->. rewrite firstn_app, firstn_all, Nat.sub_diag. apply app_nil_r. Qed.

Lemma skipn_app_add {A} (a b : list A) n m : n = (length a + m)%nat -> skipn n (a ++ b) = skipn m b.
Proof. intros ->. rewrite skipn_app, skipn_all2 by lia. cbn [app]. f_equal. lia. Qed.

Lemma skipn_app_exact {A} (a b : list A) n : n = length a -> skipn n (a ++ b) = b.
Proof. intros ->. apply (skipn_app_add a b _ 0). lia. Qed.

Lemma map_fst_combine {A B} (l : list A) (l' : list B) : length l = length l' -> map fst (combine l l') = l.
Proof.
  revert l'; induction l as [|x l IH]; intros [|y l'] H; try discriminate H; [reflexivity|].
  cbn [combine map fst]. rewrite IH by (injection H; auto). reflexivity.
Qed.

Lemma nth_error_combine {A B} (l : list A) (l' : list B) i x y :
  nth_error (combine l l') i = Some (x, y) -> nth_error l i = Some x /\ nth_error l' i = Some y.
Proof.
  revert l l'; induction i as [|i IH]; intros [|a l] [|b l'] H; try discriminate H; cbn [combine nth_error] in *.
  - injection H as -> ->. split; reflexivity.
  - apply IH, H.
Qed.

Lemma flat_map_length_ge {A B} (f : A -> list B) l : (forall x, (1 <= length (f x))%nat) -> (length l <= length (flat_map f l))%nat.
Proof.
  intro Hf. induction l as [|x l IH]; cbn [flat_map length]; [lia|]. rewrite app_length. specialize (Hf x). lia.
Qed.

Lemma firstn_add {A} (b k : nat) (s : list A) : firstn (b + k) s = firstn b s ++ firstn k (skipn b s).
Proof.
  revert s; induction b as [|b IH]; intro s; [reflexivity|]. destruct s as [|x s]; [cbn; now rewrite firstn_nil|].
  cbn [Nat.add firstn skipn app]. rewrite IH. reflexivity.
Qed.

Lemma skipn_plus {A} (p b : nat) (l : list A) : skipn (b + p) l = skipn b (skipn p l).
Proof.
  revert l; induction p as [|p IH]; intro l; [now rewrite Nat.add_0_r|].
  rewrite Nat.add_succ_r. destruct l as [|x l]; [now rewrite !skipn_nil|]. cbn [skipn]. apply IH.
Qed.

Lemma firstn_len_firstn {A} (m : nat) (l : list A) : firstn (length (firstn m l)) l = firstn m l.
Proof.
  rewrite firstn_length. destruct (Nat.le_ge_cases m (length l)) as [H|H].
  - rewrite Nat.min_l by exact H. reflexivity.
  - rewrite Nat.min_r by exact H. rewrite firstn_all, firstn_all2 by exact H. reflexivity.
Qed.

Lemma le_length k n : length (le k n) = k.
Proof. revert n; induction k as [|k IH]; intro n; cbn [le length]; [reflexivity | now rewrite IH]. Qed.

Lemma unle_le k n : unle (le k n) = n mod 256 ^ N.of_nat k.
Proof.
  revert n; induction k as [|k IH]; intro n.
  - cbn [le unle]. change (N.of_nat 0) with 0. rewrite N.pow_0_r, N.mod_1_r. reflexivity.
  - cbn [le unle]. rewrite IH. rewrite Nat2N.inj_succ, N.pow_succ_r'.
    rewrite N.mod_mul_r by (try apply N.pow_nonzero; discriminate). reflexivity.
Qed.

Lemma unle_le_small k n : n < 256 ^ N.of_nat k -> unle (le k n) = n.
Proof. intro H. rewrite unle_le. apply N.mod_small, H. Qed.

Lemma pow256_4 : 256 ^ N.of_nat 4 = two32. Proof. reflexivity. Qed.
Lemma pow256_8 : 256 ^ N.of_nat 8 = two64. Proof. reflexivity. Qed.
Lemma pow256_1 : 256 ^ N.of_nat 1 = 256. Proof. reflexivity. Qed.

Lemma two63_lt_two64 : two63 < two64. Proof. reflexivity. Qed.

Lemma wrap64_small n : n < two64 -> wrap64 n = n.
Proof. intro H. apply N.mod_small, H. Qed.

Lemma wrap64_lt n : wrap64 n < two64.
Proof. apply N.mod_lt. discriminate. Qed.

Lemma to_int64_small n : n < two63 -> to_int64 n = Z.of_N n.
Proof.
  intro H. unfold to_int64. assert (H2 : n < two64) by (pose proof two63_lt_two64; lia).
  rewrite (N.mod_small _ _ H2). destruct (N.ltb_spec n two63); [reflexivity | lia].
Qed.

Lemma to_int64_neg n : two63 <= n -> n < two64 -> (to_int64 n < 0)%Z.
Proof.
  intros H1 H2. unfold to_int64. rewrite (N.mod_small _ _ H2).
  destruct (N.ltb_spec n two63); [lia|]. unfold two64 in *. lia.
Qed.

Lemma wrapZ64_small z : (0 <= z < Z.of_N two63)%Z -> wrapZ64 z = z.
Proof.
  intros [H1 H2]. unfold wrapZ64. assert (H3 : (z < Z.of_N two64)%Z) by (unfold two63, two64 in *; lia).
  rewrite Z.mod_small by lia. destruct (Z.ltb_spec z (Z.of_N two63)); [reflexivity | lia].
Qed.

(** for [lia], which does not look into the constants *)
Lemma pow2_32_63_64 : (Z.of_N two32 <= Z.of_N two63 /\ 2 * Z.of_N two63 = Z.of_N two64)%Z.
Proof. unfold two32, two63, two64. lia. Qed.

Lemma wrapZ64_nonneg z : (0 <= z < Z.of_N two64)%Z -> (0 <= wrapZ64 z)%Z -> wrapZ64 z = z /\ (z < Z.of_N two63)%Z.
Proof.
  intro H. unfold wrapZ64. rewrite Z.mod_small by lia.
  destruct (Z.ltb_spec z (Z.of_N two63)); [split; [reflexivity | assumption] | lia].
Qed.

Lemma to_int64_lt n : (to_int64 n < Z.of_N two63)%Z.
Proof.
  unfold to_int64. pose proof (N.mod_lt n two64 ltac:(discriminate)). pose proof pow2_32_63_64.
  destruct (N.ltb_spec (n mod two64) two63); lia.
Qed.

Definition padN (x a : N) : N := (a - x mod a) mod a.

Lemma padN_lt x a : 0 < a -> padN x a < a.
Proof. intro H. unfold padN. apply N.mod_lt. lia. Qed.

Lemma padN_aligned x a : 0 < a -> (x + padN x a) mod a = 0.
Proof.
  intro H. unfold padN.
  assert (Hm : x mod a < a) by (apply N.mod_lt; lia).
  destruct (N.eq_dec (x mod a) 0) as [E|E].
  - rewrite E, N.sub_0_r, N.mod_same, N.add_0_r by lia. exact E.
  - rewrite (N.mod_small (a - x mod a)) by lia.
    rewrite (N.div_mod x a) at 1 by lia.
    replace (a * (x / a) + x mod a + (a - x mod a)) with ((1 + x / a) * a) by lia.
    apply N.mod_mul. lia.
Qed.

Lemma padN_shift base x a : 0 < a -> base mod a = 0 -> padN (base + x) a = padN x a.
Proof.
  intros H Hb. unfold padN. f_equal. f_equal.
  rewrite N.add_mod by lia. rewrite Hb, N.add_0_l. apply N.mod_mod. lia.
Qed.

Lemma padN_of_aligned x a : 0 < a -> x mod a = 0 -> padN x a = 0.
Proof. intros H E. unfold padN. rewrite E, N.sub_0_r. apply N.mod_same. lia. Qed.

Lemma go_pad_N x a : 0 < a -> go_pad (Z.of_N x) (Z.of_N a) = Z.of_N (padN x a).
Proof.
  intro H. unfold go_pad, padN.
  assert (Hm : x mod a < a) by (apply N.mod_lt; lia).
  rewrite (Z.rem_mod_nonneg (Z.of_N x)) by lia.
  rewrite <- N2Z.inj_mod. rewrite <- N2Z.inj_sub by lia.
  rewrite Z.rem_mod_nonneg by lia.
  rewrite <- N2Z.inj_mod. reflexivity.
Qed.

Lemma go_pad_range pos al : (0 <= pos)%Z -> (0 < al)%Z -> (0 <= go_pad pos al < al)%Z.
Proof.
  intros Hp Ha. unfold go_pad. rewrite (Z.rem_mod_nonneg pos al) by lia.
  pose proof (Z.mod_pos_bound pos al Ha). rewrite Z.rem_mod_nonneg by lia. apply Z.mod_pos_bound. exact Ha.
Qed.

Lemma pad64_N s a : 0 < a -> s < two63 -> a < two64 -> pad64 s a = padN s a.
Proof.
  intros H Hs Ha. unfold pad64. rewrite to_int64_small by exact Hs. rewrite go_pad_N by exact H.
  pose proof (padN_lt s a H) as Hp.
  rewrite Z.mod_small by (unfold two64 in *; lia).
  rewrite N2Z.id. apply wrap64_small. lia.
Qed.

Lemma fold_wrap64 {A} (op : N -> A -> N) :
  (forall c x, op (c mod two64) x mod two64 = op c x mod two64) ->
  forall l c, fold_left (fun c x => wrap64 (op c x)) l (c mod two64) = fold_left op l c mod two64.
Proof.
  intros Hop l. induction l as [|x l IH]; intro c; cbn [fold_left]; [reflexivity|].
  unfold wrap64 at 2. rewrite Hop. apply IH.
Qed.

Lemma fold_left_perm {A B} (g : B -> A -> B) l l' :
  (forall c x y, g (g c x) y = g (g c y) x) -> Permutation l l' -> forall c, fold_left g l c = fold_left g l' c.
Proof.
  intros Hg Hp. induction Hp as [|x l l' _ IH|x y l|l l' l'' _ IH1 _ IH2]; intro c; cbn [fold_left];
    [reflexivity | apply IH | rewrite Hg; reflexivity | rewrite IH1; apply IH2].
Qed.

Lemma fold_wrap64_perm {A} (op : N -> A -> N) l l' c :
  (forall c x, op (c mod two64) x mod two64 = op c x mod two64) -> (forall c x y, op (op c x) y = op (op c y) x) ->
  c < two64 -> Permutation l l' ->
  fold_left (fun c x => wrap64 (op c x)) l c = fold_left (fun c x => wrap64 (op c x)) l' c.
Proof.
  intros Hop Hc Hlt Hp. rewrite <- (N.mod_small c two64 Hlt), !fold_wrap64 by exact Hop.
  f_equal. apply fold_left_perm; assumption.
Qed.

Lemma parameters_rev l : parameters (rev l) = parameters l.
Proof.
  apply (fold_wrap64_perm N.mul); [intros; apply N.mul_mod_idemp_l; discriminate | intros; lia | reflexivity |].
  symmetry. apply Permutation_rev.
Qed.

Lemma tensor_size_rev k l : tensor_size k (rev l) = tensor_size k l.
Proof. unfold tensor_size. rewrite parameters_rev. reflexivity. Qed.

Lemma block_size_pos k : 0 < block_size k.
Proof.
  unfold block_size. destruct k as [|p]; [reflexivity|].
  do 5 (destruct p as [p|p|]; try reflexivity).
Qed.

Lemma tensor_size_lt k l : tensor_size k l < two64.
Proof.
  unfold tensor_size. pose proof (block_size_pos k). pose proof (wrap64_lt (parameters l * type_size k)).
  eapply N.le_lt_trans; [|exact H0]. apply N.div_le_upper_bound; [lia|]. nia.
Qed.

Local Open Scope Z_scope.

Lemma wrapZ64_mod z : wrapZ64 z mod Z.of_N two64 = z mod Z.of_N two64.
Proof.
  unfold wrapZ64. destruct (Z.ltb_spec (z mod Z.of_N two64) (Z.of_N two63)).
  - apply Z.mod_mod. discriminate.
  - rewrite <- (Z.mod_add _ 1) by discriminate. replace (z mod Z.of_N two64 - Z.of_N two64 + 1 * Z.of_N two64) with (z mod Z.of_N two64) by lia.
    apply Z.mod_mod. discriminate.
Qed.

Lemma wrapZ64_congr a b : a mod Z.of_N two64 = b mod Z.of_N two64 -> wrapZ64 a = wrapZ64 b.
Proof. intro H. unfold wrapZ64. rewrite H. reflexivity. Qed.

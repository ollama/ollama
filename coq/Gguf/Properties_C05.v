(** Property C05 - a GGUF file written by WriteGGUF decodes to the same metadata, tensors and tensor bytes.
    Theorems only (proofs in RoundTripKV.v / RoundTrip.v).

    [write_gguf true block kv ts] is the byte string ggml.WriteGGUF writes (with fixes/C05-offsets.patch) for the
    key/value map [kv] (a Go map: distinct keys) and the tensors [ts], [block] being Tensor.block (any function: the
    sort key of the stable sort); [decode bytes maxArr] is ggml.Decode.  All statements hold
      - for every key/value list over the value types ggufWriteKV supports (wf_wval: numbers within uint32),
      - every tensor list (any count, names, kinds, shapes - wf_tensor: kind/dimension count within uint32, dimensions
        within uint64) whose data has Size() bytes ([sized]),
      - every alignment > 0 (general.alignment, default 32), every maxArraySize,
      - files shorter than 2^63 bytes (Go's int64 offsets). *)
From Coq Require Import List NArith ZArith Bool Permutation.
From Coq Require Import Sorting.Sorted.
From V Require Import Common.Bytes Gguf.Model Gguf.Arith Gguf.RoundTripKV Gguf.RoundTrip Gguf.Final Gguf.Order Gguf.Tables Gguf.SeekerModel Gguf.Seeker.
Import ListNotations.
Open Scope N_scope.

(** [wf_input kv ts] (Final.v): keys distinct, values/kinds/dimensions within their Go types, every tensor's data has
    Size() bytes, alignment > 0.  [written_order block ts] = the order the stable sort leaves (Final.v). *)

(** decoding succeeds, and the decoded map is the written map plus the patched-in parameter count - for every
    supported value type, empty strings/arrays included; arrays longer than maxArraySize keep their size only ([clip]) *)
Theorem C05_kv_roundtrip : forall block kv ts maxArr,
  wf_input kv ts -> small (write_gguf true block kv ts) ->
  exists d al, decode (write_gguf true block kv ts) maxArr = DOk d al /\
    forall k, kv_get k (d_kv d) =
      if eqb_str k k_param_count then Some (VNum 10 (wparams ts))
      else option_map (fun v => clip (eff_max maxArr) (val_of_wval v)) (kv_get k kv).
Proof. exact kv_roundtrip. Qed.
Print Assumptions C05_kv_roundtrip.

(** tensor names, kinds and dimension-reversed shapes, in the writer's order (a permutation of the input) *)
Theorem C05_tensor_meta_roundtrip : forall block kv ts maxArr,
  wf_input kv ts -> small (write_gguf true block kv ts) ->
  exists d al, decode (write_gguf true block kv ts) maxArr = DOk d al /\
    Permutation ts (written_order block ts) /\
    map ti_name (d_tensors d) = map t_name (written_order block ts) /\
    map ti_kind (d_tensors d) = map t_kind (written_order block ts) /\
    map ti_shape (d_tensors d) = map (fun t => rev (t_shape t)) (written_order block ts).
Proof. exact tensor_meta_roundtrip. Qed.
Print Assumptions C05_tensor_meta_roundtrip.

(** for every tensor (position i in the writer's order): the bytes found at Tensors().Offset + tensor.Offset are exactly
    the bytes written, and that position is a multiple of the alignment *)
Theorem C05_tensor_bytes_at_offset : forall block kv ts maxArr,
  wf_input kv ts -> small (write_gguf true block kv ts) ->
  exists d al, decode (write_gguf true block kv ts) maxArr = DOk d al /\
    forall i t ti, nth_error (written_order block ts) i = Some t -> nth_error (d_tensors d) i = Some ti ->
      let at_ := d_toff d + ti_offset ti in
      firstn (length (t_data t)) (skipn (N.to_nat at_) (write_gguf true block kv ts)) = t_data t /\
      at_ mod walign kv = 0.
Proof. exact tensor_bytes_at_offset. Qed.
Print Assumptions C05_tensor_bytes_at_offset.

(** the end offset reported by the decoder is the file length *)
Theorem C05_end_offset : forall block kv ts maxArr,
  wf_input kv ts -> small (write_gguf true block kv ts) ->
  exists d al, decode (write_gguf true block kv ts) maxArr = DOk d al /\
    d_end d = Z.of_nat (length (write_gguf true block kv ts)).
Proof. exact end_offset. Qed.
Print Assumptions C05_end_offset.

(** non-vacuity of the hypotheses: the three-tensor witness of the offset defect (F32 tensors of 1, 7 and 1 elements,
    sizes 4, 28, 4 - not multiples of the alignment 8), one block-numbered name, an alignment key and every value type *)
Example C05_hypotheses_satisfiable : wf_input wit_kv wit_ts /\ small (write_gguf true wit_block wit_kv wit_ts).
Proof. exact hypotheses_satisfiable. Qed.

(** the code before fixes/C05-offsets.patch ([fixed = false]: s += t.Size()) does NOT have the property
    ([C05_tensor_bytes_unrepaired_full], Final.v): on the witness [wit_ts] the third tensor is recorded at data offset 32,
    where the second tensor's bytes are *)
Theorem C05_tensor_bytes_unrepaired_refuted : ~ C05_tensor_bytes_unrepaired_full.
Proof. exact tensor_bytes_unrepaired_refuted. Qed.
Print Assumptions C05_tensor_bytes_unrepaired_refuted.

(** * the written order, for any number of tensors *)

(** WriteGGUF's sort (modelled as the insertion sort Go runs on up to 20 elements) leaves a permutation sorted by the block
    comparator - for ANY tensor count and ANY block function - whenever the comparator is a consistent order on the block numbers
    present, i.e. unless negative (no block), zero and positive block numbers all occur ([consistent], Order.v).  A stable sort is
    then determined by the comparator, so the result does not depend on the algorithm. *)
Theorem C05_order_sorted : forall (block : tensor -> Z) (ts : list tensor),
  consistent (map block ts) ->
  Permutation ts (sort_ts block ts) /\ StronglySorted (fun a b => (cmp_block (block a) (block b) <= 0)%Z) (sort_ts block ts).
Proof. exact order_sorted. Qed.
Print Assumptions C05_order_sorted.

(** the full statement - the comparator orders any block numbers - is false of the real comparator: a tensor without block
    number sorts before blk.0, blk.0 before blk.1, and blk.1 before the tensor without block number (so with all three kinds
    present "sorted" is not even well defined and the result depends on the sorting algorithm; the round-trip theorems above hold
    for every order) *)
Definition C05_comparator_transitive_full : Prop := comparator_transitive_full.   (* forall i j k, cmp i j <= 0 -> cmp j k <= 0 -> cmp i k <= 0 *)
Theorem C05_comparator_transitive_refuted : ~ C05_comparator_transitive_full.
Proof. exact comparator_transitive_refuted. Qed.
Print Assumptions C05_comparator_transitive_refuted.
Theorem C05_comparator_transitive_partial : forall bs i j k, consistent bs -> In i bs -> In j bs -> In k bs ->
  (cmp_block i j <= 0 -> cmp_block j k <= 0 -> cmp_block i k <= 0)%Z.
Proof. exact comparator_transitive_partial. Qed.
Print Assumptions C05_comparator_transitive_partial.
(** ... with real names and the Sscanf model of Tensor.block: token_embd.weight < blk.0.w < blk.1.w < token_embd.weight *)
Example C05_real_names_cycle :
  (cmp_block (block_of n_embd) (block_of n_blk0) < 0 /\ cmp_block (block_of n_blk0) (block_of n_blk1) < 0 /\
   cmp_block (block_of n_blk1) (block_of n_embd) < 0)%Z.
Proof. exact real_names_cycle. Qed.

(** Tensor.block (the model of fmt.Sscanf(name, "blk.%d.", &n)): a name "blk." ++ decimal digits ++ "." ++ anything has the block
    number its digits spell, when that fits an int64 *)
Theorem C05_block_canonical : forall d rest,
  d <> [] -> all_digits d -> (dec_value d < Z.of_N two63)%Z -> block_of (s_blk ++ d ++ 46 :: rest) = dec_value d.
Proof. exact block_of_canonical. Qed.
Print Assumptions C05_block_canonical.

(** * fs/ggml/type.go and the size tables *)
Theorem C05_file_type_roundtrip : forall t s, In (t, s) file_type_names -> parse_file_type s = Some t /\ file_type_name t = s.
Proof. exact file_type_roundtrip. Qed.
Print Assumptions C05_file_type_roundtrip.
Theorem C05_file_type_unknown : forall t, 33 <= t -> file_type_name t = s_unknown_ft.
Proof. exact file_type_unknown. Qed.
Print Assumptions C05_file_type_unknown.
Theorem C05_unknown_kind_size_zero : forall k shape, 31 <= k -> tensor_size k shape = 0.
Proof. exact unknown_kind_size_zero. Qed.
Print Assumptions C05_unknown_kind_size_zero.

(** * fs/util/bufioutil/buffer_seeker.go: Seek on the buffered seeker (which compensates SeekCurrent for what bufio has
    prefetched, in wrapping int64 arithmetic) is Seek on the logical position, whatever was prefetched; prefetching does not
    move the logical position *)
Theorem C05_buffered_seek_refines : forall data c off w,
  let '(c', r) := c_seek data c off w in
  let '(p', r') := abs_step data (c_abs c) (SSeek off w) in
  r = r' /\ c_abs c' = p' /\ (c_inv data c -> c_inv data c').
Proof. exact buffered_seek_refines. Qed.
Print Assumptions C05_buffered_seek_refines.
Theorem C05_prefetch_keeps_position : forall data c m,
  c_inv data c -> c_abs (c_fill data c m) = c_abs c /\ c_inv data (c_fill data c m).
Proof. exact prefetch_keeps_position. Qed.
Print Assumptions C05_prefetch_keeps_position.

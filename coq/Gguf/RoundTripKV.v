(** C05: what the typed key/value writers of gguf.go wrote is read back by the decoder (version 3, little endian). *)
From Coq Require Import List NArith ZArith Bool Arith Lia ZifyBool ZifyNat ZifyN.
From V Require Import Common.Bytes Gguf.Model Gguf.Arith Gguf.Monad.
Import ListNotations.
Open Scope N_scope.

Definition nlen {A} (l : list A) : N := N.of_nat (length l).

Lemma oks_copyN l rest : oks (copyN (nlen l)) (l ++ rest) l rest.
Proof.
  unfold nlen. eexists. unfold copyN. rewrite app_length.
  destruct (N.ltb_spec (N.of_nat (length l + length rest)) (N.of_nat (length l))); [lia|].
  rewrite Nat2N.id, firstn_app_exact, skipn_app_exact; reflexivity.
Qed.

Lemma oks_rd_string3 s rest : nlen s < two63 -> oks (rd_string 3 false) (enc_str s ++ rest) s rest.
Proof.
  intro Hs. unfold rd_string. change (3 =? 1) with false. cbv iota. unfold rd_string23, enc_str. fold (nlen s).
  rewrite <- app_assoc.
  eapply oks_bind; [apply oks_rd_u64; pose proof two63_lt_two64; lia|].
  cbv zeta. rewrite to_int64_small by exact Hs.
  destruct (Z.ltb_spec (Z.of_N (nlen s)) 0); [lia|].
  rewrite N2Z.id.
  destruct (Z.ltb_spec (Z.of_N scratch_len) (Z.of_N (nlen s))).
  - apply oks_copyN.
  - eapply oks_bind; [apply (oks_guard PSlice); lia|].
    eapply oks_bind; [apply oks_take; reflexivity|].
    eapply oks_bind; [apply oks_alloc | apply oks_ret].
Qed.

Lemma oks_discard3 s rest : nlen s < two63 -> oks (discard_string false) (enc_str s ++ rest) tt rest.
Proof.
  intro Hs. unfold discard_string, enc_str. fold (nlen s). rewrite <- app_assoc.
  eapply oks_bind; [apply oks_rd_u64; pose proof two63_lt_two64; lia|].
  rewrite to_int64_small by exact Hs.
  destruct (Z.leb_spec (Z.of_N (nlen s)) 0) as [H0|H0].
  - destruct s; [apply oks_ret | unfold nlen in H0; cbn [length] in H0; lia].
  - exists 0. unfold nlen. rewrite app_length.
    destruct (N.ltb_spec (N.of_nat (length s + length rest)) (N.of_nat (length s))); [lia|].
    rewrite Nat2N.id, skipn_app_exact; reflexivity.
Qed.

(** values within their Go types *)

Definition wf_wval (v : wval) : Prop :=
  match v with
  | WU32 n | WF32 n => n < two32
  | WBool _ | WStr _ | WStrs _ => True
  | WI32s l | WU32s l | WF32s l => Forall (fun x => x < two32) l
  end.

Definition small (l : list N) : Prop := nlen l < two63.

Lemma small_app_l a b : small (a ++ b) -> small a.
Proof. unfold small, nlen. rewrite app_length. lia. Qed.
Lemma small_app_r a b : small (a ++ b) -> small b.
Proof. unfold small, nlen. rewrite app_length. lia. Qed.

Lemma small_flat_map_len {A} (f : A -> list N) l : (forall x, (1 <= length (f x))%nat) -> small (flat_map f l) -> nlen l < two63.
Proof. intros Hf Hs. pose proof (flat_map_length_ge f l Hf). unfold small, nlen in *. lia. Qed.

Lemma small_flat_map_in {A} (f : A -> list N) l : small (flat_map f l) -> Forall (fun x => small (f x)) l.
Proof.
  induction l as [|x l IH]; cbn [flat_map]; intro Hs; constructor.
  - exact (small_app_l _ _ Hs).
  - exact (IH (small_app_r _ _ Hs)).
Qed.

Lemma small_enc_str s : small (enc_str s) -> nlen s < two63.
Proof. apply small_app_r. Qed.

Lemma enc_str_nonempty s : (1 <= length (enc_str s))%nat.
Proof. unfold enc_str. rewrite app_length, le_length. lia. Qed.

Lemma fold_left_cons_map {A B} (f : A -> B) l acc :
  fold_left (fun acc x => f x :: acc) l acc = rev (map f l) ++ acc.
Proof.
  revert acc; induction l as [|x l IH]; intro acc; [reflexivity|].
  cbn [fold_left map rev]. rewrite IH, <- app_assoc. reflexivity.
Qed.

Lemma oks_loop_cons {X Y} (enc : X -> list N) (body : list Y -> M (list Y)) (f : X -> Y) (P : X -> Prop) :
  (forall acc x rest, P x -> oks (body acc) (enc x ++ rest) (f x :: acc) rest) ->
  (forall x, (1 <= length (enc x))%nat) ->
  forall xs rest, Forall P xs ->
    oks (loop (nlen xs) body []) (flat_map enc xs ++ rest) (rev (map f xs)) rest.
Proof.
  intros Hb Hl xs rest HP. rewrite <- (app_nil_r (rev _)), <- fold_left_cons_map.
  apply (oks_loop enc body (fun acc x => f x :: acc) P); auto.
Qed.

(** [enc x] is read back by [rd_elem] as [mk x]; an element that is not collected is skipped whatever [rd_elem] returns *)
Lemma oks_rd_array {X} (enc : X -> list N) (mk : X -> val) (P : X -> Prop) ma ety l rest :
  ety < two32 ->
  (forall coll x r, P x -> exists o, oks (rd_elem 3 false coll ety) (enc x ++ r) o r /\ (coll = true -> o = Some (mk x))) ->
  (forall x, (1 <= length (enc x))%nat) ->
  Forall P l -> nlen l < two63 ->
  oks (rd_array 3 false ma) (le 4 ety ++ le 8 (nlen l) ++ flat_map enc l ++ rest)
      (clip ma (VArr (nlen l) (Some (map mk l)))) rest.
Proof.
  intros Hety Hel Hlen Hl Hn. unfold rd_array, clip.
  eapply oks_bind; [apply oks_rd_u32; exact Hety|].
  change (3 =? 1) with false. cbv iota.
  eapply oks_bind; [apply oks_rd_u64; pose proof two63_lt_two64; lia|].
  destruct (N.leb_spec two63 (nlen l)); [lia|]. cbv zeta. set (coll := can_collect ma (Z.of_N (nlen l))).
  eapply oks_bind; [destruct coll; [apply (oks_guard PMake); unfold prealloc; lia | apply oks_ret]|].
  eapply oks_bind; [apply oks_alloc|].
  eapply oks_bind.
  - apply (oks_loop enc _ (fun acc x => if coll then mk x :: acc else acc) P); [|exact Hlen|exact Hl].
    intros acc x r Hx. destruct (Hel coll x r Hx) as (o & Ho & Eo). eapply oks_bind; [exact Ho|].
    destruct coll; [rewrite (Eo eq_refl); eapply oks_bind; [apply oks_alloc | apply oks_ret] | apply oks_ret].
  - destruct coll; [rewrite fold_left_cons_map, app_nil_r, rev_involutive|]; apply oks_ret.
Qed.

Lemma oks_rd_num (k : nat) ty n rest :
  n < 256 ^ N.of_nat k -> (ty = 7 -> n <= 1) ->
  oks (rd_num false ty (N.of_nat k)) (le k n ++ rest) (VNum ty n) rest.
Proof.
  intros Hn Hb. unfold rd_num. eapply oks_bind; [apply oks_rd_int_le, Hn|].
  destruct (N.eqb_spec ty 7) as [E|]; [|apply oks_ret].
  specialize (Hb E). destruct (N.eqb_spec n 0) as [->|]; [apply oks_ret|]. replace n with 1 by lia. apply oks_ret.
Qed.

Lemma oks_rd_array_num ma ety l rest :
  ety = 4 \/ ety = 5 \/ ety = 6 -> Forall (fun x => x < two32) l -> small (flat_map (le 4) l) ->
  oks (rd_array 3 false ma) (le 4 ety ++ le 8 (nlen l) ++ flat_map (le 4) l ++ rest)
      (clip ma (VArr (nlen l) (Some (map (VNum ety) l)))) rest.
Proof.
  intros Hety Hl Hs. assert (Hlen : forall x, (1 <= length (le 4 x))%nat) by (intro; rewrite le_length; lia).
  apply (oks_rd_array (le 4) (VNum ety) (fun x => x < two32));
    [destruct Hety as [->|[->| ->]]; reflexivity | | exact Hlen | exact Hl | exact (small_flat_map_len _ _ Hlen Hs)].
  intros coll x r Hx. exists (Some (VNum ety x)). split; [|reflexivity].
  unfold rd_elem. replace (num_width ety) with (Some 4) by (destruct Hety as [->|[->| ->]]; reflexivity).
  eapply oks_bind; [apply (oks_rd_num 4); [exact Hx | destruct Hety as [->|[->| ->]]; discriminate] | apply oks_ret].
Qed.

Lemma oks_rd_array_str ma l rest :
  small (flat_map enc_str l) ->
  oks (rd_array 3 false ma) (le 4 8 ++ le 8 (nlen l) ++ flat_map enc_str l ++ rest)
      (clip ma (VArr (nlen l) (Some (map VStr l)))) rest.
Proof.
  intro Hs. apply (oks_rd_array enc_str VStr (fun s => nlen s < two63));
    [reflexivity | | apply enc_str_nonempty | | exact (small_flat_map_len _ _ enc_str_nonempty Hs)].
  - intros coll s r Hsr. unfold rd_elem. cbn [num_width N.eqb Pos.eqb orb]. destruct coll; eexists.
    + split; [eapply oks_bind; [apply oks_rd_string3; exact Hsr | apply oks_ret] | reflexivity].
    + split; [eapply oks_bind; [apply oks_discard3; exact Hsr | apply oks_ret] | discriminate].
  - eapply Forall_impl; [|apply small_flat_map_in; exact Hs]. exact small_enc_str.
Qed.

Lemma oks_rd_value_written ma v rest :
  wf_wval v -> small (enc_wval v) ->
  exists t body, enc_wval v = le 4 t ++ body /\ t < two32 /\
    oks (rd_value 3 false ma t) (body ++ rest) (clip ma (val_of_wval v)) rest.
Proof.
  intros Hwf Hs.
  destruct v as [n|n|b|s|l|l|l|l]; cbn [enc_wval val_of_wval wf_wval] in *; unfold enc_arr in *;
    eexists _, _; (split; [reflexivity | split; [reflexivity|]]); rewrite <- ?app_assoc.
  - apply (oks_rd_num 4 4); [exact Hwf | discriminate].
  - apply (oks_rd_num 4 6); [exact Hwf | discriminate].
  - destruct b; [apply (oks_rd_num 1 7 1) | apply (oks_rd_num 1 7 0)]; (reflexivity || (intros _; lia)).
  - unfold rd_value. cbn [num_width N.eqb Pos.eqb].
    eapply oks_bind; [apply oks_rd_string3, small_enc_str; exact (small_app_r _ _ Hs) | apply oks_ret].
  - apply oks_rd_array_num; [auto | exact Hwf | do 3 apply small_app_r in Hs; exact Hs].
  - apply oks_rd_array_num; [auto | exact Hwf | do 3 apply small_app_r in Hs; exact Hs].
  - apply oks_rd_array_num; [auto | exact Hwf | do 3 apply small_app_r in Hs; exact Hs].
  - apply oks_rd_array_str. do 3 apply small_app_r in Hs. exact Hs.
Qed.

Definition dec_kv (ma : Z) (e : str * wval) : str * val := (fst e, clip ma (val_of_wval (snd e))).

Lemma oks_rd_kv ma acc e rest :
  wf_wval (snd e) -> small (enc_kv e) ->
  oks (rd_kv 3 false ma acc) (enc_kv e ++ rest) (dec_kv ma e :: acc) rest.
Proof.
  intros Hwf Hs. destruct e as [k v]. unfold enc_kv, rd_kv, dec_kv in *. cbn [fst snd] in *. rewrite <- app_assoc.
  eapply oks_bind; [apply oks_rd_string3, small_enc_str; exact (small_app_l _ _ Hs)|].
  destruct (oks_rd_value_written ma v rest Hwf (small_app_r _ _ Hs)) as (t & body & -> & Ht & Hv). rewrite <- app_assoc.
  eapply oks_bind; [apply oks_rd_u32, Ht|]. eapply oks_bind; [exact Hv|]. eapply oks_bind; [apply oks_alloc | apply oks_ret].
Qed.

Lemma enc_kv_nonempty e : (1 <= length (enc_kv e))%nat.
Proof. unfold enc_kv. rewrite app_length. pose proof (enc_str_nonempty (fst e)). lia. Qed.

Lemma oks_kv_section ma kv rest :
  Forall (fun e => wf_wval (snd e)) kv -> small (flat_map enc_kv kv) ->
  oks (loop (nlen kv) (rd_kv 3 false ma) []) (flat_map enc_kv kv ++ rest) (rev (map (dec_kv ma) kv)) rest.
Proof.
  intros Hwf Hs.
  apply (oks_loop_cons enc_kv _ (dec_kv ma) (fun e => wf_wval (snd e) /\ small (enc_kv e))); [|apply enc_kv_nonempty|].
  - intros acc e r [H1 H2]. apply oks_rd_kv; assumption.
  - apply small_flat_map_in in Hs. rewrite Forall_forall in *. auto.
Qed.

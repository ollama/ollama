(** C05: the order WriteGGUF leaves the tensors in (slices.SortStableFunc with the block comparator): a permutation,
    sorted whenever the comparator is consistent on the block numbers present - which it is not in general
    (non-block < blk.0 < blk.1 < non-block). *)
From Coq Require Import List NArith ZArith Bool Arith Lia ZifyBool ZifyNat ZifyN Permutation Sorting.Sorted.
From V Require Import Common.Bytes Gguf.Model Gguf.RoundTrip.
Import ListNotations.
Open Scope Z_scope.

Lemma cmp_le_iff i j : cmp_block i j <= 0 <-> ~ (i < 0 /\ 0 < j) /\ ((0 < i /\ j < 0) \/ i <= j).
Proof.
  unfold cmp_block. rewrite !Z.gtb_ltb.
  destruct ((i <? 0) && (0 <? j)) eqn:E1; [lia|]. destruct ((0 <? i) && (j <? 0)) eqn:E2; [lia|].
  destruct (Z.compare_spec i j); lia.
Qed.

Lemma cmp_lt_iff i j : cmp_block i j < 0 <-> ~ (i < 0 /\ 0 < j) /\ ((0 < i /\ j < 0) \/ i < j).
Proof.
  unfold cmp_block. rewrite !Z.gtb_ltb.
  destruct ((i <? 0) && (0 <? j)) eqn:E1; [lia|]. destruct ((0 <? i) && (j <? 0)) eqn:E2; [lia|].
  destruct (Z.compare_spec i j); lia.
Qed.

Lemma cmp_total i j : cmp_block i j <= 0 \/ cmp_block j i <= 0.
Proof. rewrite !cmp_le_iff. lia. Qed.
Lemma cmp_not_lt i j : ~ cmp_block i j < 0 -> cmp_block j i <= 0.
Proof. rewrite cmp_lt_iff, cmp_le_iff. lia. Qed.

(** the comparator is transitive on a set of block numbers that does not contain negative, zero and positive numbers all at once *)
Definition consistent (bs : list Z) : Prop :=
  (forall b, In b bs -> 0 <= b) \/ (forall b, In b bs -> b <> 0) \/ (forall b, In b bs -> b <= 0).

Lemma comparator_transitive_partial bs i j k : consistent bs -> In i bs -> In j bs -> In k bs ->
  cmp_block i j <= 0 -> cmp_block j k <= 0 -> cmp_block i k <= 0.
Proof.
  intros Hc Hi Hj Hk. rewrite !cmp_le_iff.
  destruct Hc as [H|[H|H]]; pose proof (H i Hi); pose proof (H j Hj); pose proof (H k Hk); lia.
Qed.

Lemma cmp_cycle : cmp_block (-1) 0 < 0 /\ cmp_block 0 1 < 0 /\ cmp_block 1 (-1) < 0.
Proof. vm_compute. repeat split. Qed.

Definition comparator_transitive_full : Prop :=
  forall i j k : Z, cmp_block i j <= 0 -> cmp_block j k <= 0 -> cmp_block i k <= 0.
Lemma comparator_transitive_refuted : ~ comparator_transitive_full.
Proof.
  intro H. assert (H0 : cmp_block 1 0 <= 0) by (apply (H 1 (-1) 0); vm_compute; discriminate).
  vm_compute in H0. apply H0. reflexivity.
Qed.

Section Sort.
  Context {T : Type} (block : T -> Z).
  Definition le_t (a b : T) : Prop := cmp_block (block a) (block b) <= 0.

  (** [Desc l]: every element is le_t all earlier ones (the reversed sorted prefix insert_ts works on) *)
  Definition Desc (l : list T) : Prop := StronglySorted (fun a b => le_t b a) l.

  Lemma insert_desc bs x l :
    consistent bs -> Forall (fun y => In (block y) bs) (x :: l) -> Desc l -> Desc (insert_ts block x l).
  Proof.
    intros Hc. induction l as [|y r IH]; intros Hin Hd; cbn [insert_ts]; [repeat constructor|].
    inversion_clear Hd as [|? ? Hdr Hall]. inversion_clear Hin as [|? ? Hx Hyr]. inversion_clear Hyr as [|? ? Hy Hr].
    destruct (Z.ltb_spec (cmp_block (block x) (block y)) 0) as [Hlt|Hge].
    - constructor; [apply IH; [constructor|]; assumption|].
      apply (Permutation_Forall (insert_ts_perm block x r)). constructor; [unfold le_t; lia | exact Hall].
    - (* x goes on top: everything below y is below x through y, which is where transitivity is needed *)
      apply Z.le_ngt, cmp_not_lt in Hge. repeat constructor; try assumption.
      rewrite Forall_forall in *. intros z Hz. apply (comparator_transitive_partial bs _ (block y)); auto. apply Hall, Hz.
  Qed.

  Lemma fold_insert_desc bs ts : forall acc,
    consistent bs -> Forall (fun y => In (block y) bs) (acc ++ ts) -> Desc acc ->
    Desc (fold_left (fun acc x => insert_ts block x acc) ts acc).
  Proof.
    induction ts as [|x ts IH]; intros acc Hc Hin Hd; cbn [fold_left]; [exact Hd|].
    apply (Permutation_Forall (Permutation_sym (Permutation_middle acc ts x))), (Forall_app _ (x :: acc) ts) in Hin as [H1 H2].
    apply IH; [exact Hc | | apply (insert_desc bs); assumption].
    apply Forall_app. split; [exact (Permutation_Forall (insert_ts_perm block x acc) H1) | exact H2].
  Qed.

  Lemma ss_snoc (R : T -> T -> Prop) m a : StronglySorted R m -> Forall (fun b => R b a) m -> StronglySorted R (m ++ [a]).
  Proof.
    induction 1 as [|b m Hs IH Hb]; intro Hall; cbn [app].
    - constructor; constructor.
    - inversion Hall; subst. constructor; [apply IH; assumption|].
      apply Forall_app. split; [exact Hb | constructor; [assumption | constructor]].
  Qed.

  Lemma desc_rev l : Desc l -> StronglySorted le_t (rev l).
  Proof.
    induction 1 as [|a l Hd IH Hall]; cbn [rev]; [constructor|].
    apply ss_snoc; [exact IH|].
    apply Forall_forall. intros b Hb. rewrite Forall_forall in Hall. apply Hall. apply in_rev. exact Hb.
  Qed.

  Theorem sort_ts_sorted ts : consistent (map block ts) -> StronglySorted le_t (sort_ts block ts).
  Proof.
    intro Hc. unfold sort_ts. apply desc_rev. apply (fold_insert_desc (map block ts)); [exact Hc | | constructor].
    apply Forall_forall. intros y Hy. apply in_map, Hy.
  Qed.
End Sort.

Lemma order_sorted (block : tensor -> Z) (ts : list tensor) :
  consistent (map block ts) ->
  Permutation ts (sort_ts block ts) /\ StronglySorted (fun a b => cmp_block (block a) (block b) <= 0) (sort_ts block ts).
Proof. intro H. split; [apply sort_ts_perm | exact (sort_ts_sorted block ts H)]. Qed.

Definition n_embd : str := [116;111;107;101;110;95;101;109;98;100;46;119;101;105;103;104;116]%N.   (* token_embd.weight *)
Definition n_blk0 : str := [98;108;107;46;48;46;119]%N.                                             (* blk.0.w *)
Definition n_blk1 : str := [98;108;107;46;49;46;119]%N.                                             (* blk.1.w *)

Lemma real_names_cycle :
  cmp_block (block_of n_embd) (block_of n_blk0) < 0 /\ cmp_block (block_of n_blk0) (block_of n_blk1) < 0 /\
  cmp_block (block_of n_blk1) (block_of n_embd) < 0.
Proof. vm_compute. repeat split. Qed.

Definition all_digits (d : str) : Prop := Forall (fun b => (48 <= b <= 57)%N) d.

Lemma take_while_digits d rest : all_digits d -> take_while is_numch (d ++ 46%N :: rest) = d.
Proof.
  induction 1 as [|b d Hb _ IH]; cbn [app take_while].
  - reflexivity.
  - unfold is_numch at 1. destruct (N.leb_spec 48 b), (N.leb_spec b 57); try lia. cbn [andb orb]. rewrite IH. reflexivity.
Qed.

Lemma dec_value_nonneg d : forall a, 0 <= a -> 0 <= fold_left (fun a d => 10 * a + Z.of_N (d - 48)) d a.
Proof. induction d as [|b d IH]; intros a Ha; cbn [fold_left]; [exact Ha | apply IH; lia]. Qed.

(** a digit as one of ten literals: [skip_space] and [split_sign] match on byte literals and compute only on those *)
Lemma digit_cases b : (48 <= b <= 57)%N ->
  b = 48%N \/ b = 49%N \/ b = 50%N \/ b = 51%N \/ b = 52%N \/ b = 53%N \/ b = 54%N \/ b = 55%N \/ b = 56%N \/ b = 57%N.
Proof. lia. Qed.

Lemma skip_space_digit fuel b t : (48 <= b <= 57)%N -> skip_space fuel (b :: t) = Some (b :: t).
Proof.
  intro Hb. destruct fuel; [reflexivity|].
  destruct (digit_cases b Hb) as [->|[->|[->|[->|[->|[->|[->|[->|[->| ->]]]]]]]]]; reflexivity.
Qed.

Theorem block_of_canonical d rest :
  d <> [] -> all_digits d -> dec_value d < Z.of_N two63 ->
  block_of (s_blk ++ d ++ 46%N :: rest) = dec_value d.
Proof.
  intros Hne Hd Hlt. unfold block_of.
  change (prefixb s_blk (s_blk ++ d ++ 46%N :: rest)) with (prefixb s_blk ([98; 108; 107; 46]%N ++ d ++ 46%N :: rest)).
  cbn [app prefixb s_blk N.eqb Pos.eqb andb skipn].
  destruct d as [|b d]; [contradiction|]. inversion Hd as [|? ? Hb Hd']; subst.
  cbn [app]. rewrite skip_space_digit by exact Hb.
  assert (Esign : split_sign (b :: d ++ 46%N :: rest) = (false, b :: d ++ 46%N :: rest)).
  { destruct (digit_cases b Hb) as [->|[->|[->|[->|[->|[->|[->|[->|[->| ->]]]]]]]]]; reflexivity. }
  rewrite Esign.
  change (b :: d ++ 46%N :: rest) with ((b :: d) ++ 46%N :: rest).
  rewrite take_while_digits by exact Hd.
  assert (Eu : existsb (N.eqb 95) (b :: d) = false).
  { clear -Hd. induction Hd as [|c l Hc _ IH]; [reflexivity|]. cbn [existsb]. rewrite IH. destruct (N.eqb_spec 95 c); [lia | reflexivity]. }
  rewrite Eu.
  pose proof (dec_value_nonneg (b :: d) 0 ltac:(lia)) as Hnn. fold (dec_value (b :: d)) in Hnn.
  destruct (Z.ltb_spec (dec_value (b :: d)) (- Z.of_N two63)); [unfold two63 in *; lia|].
  destruct (Z.ltb_spec (Z.of_N two63 - 1) (dec_value (b :: d))); [lia|]. cbn [orb].
  rewrite skipn_app, skipn_all, Nat.sub_diag. reflexivity.
Qed.

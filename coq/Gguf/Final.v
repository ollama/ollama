(** C05: the round-trip statements for [write_gguf], their witness, and the refutation for the unrepaired offsets. *)
From Coq Require Import List NArith ZArith Bool Permutation.
From V Require Import Common.Bytes Gguf.Model Gguf.Arith Gguf.RoundTripKV Gguf.RoundTrip.
Import ListNotations.
Open Scope N_scope.

Record wf_input (kv : wkvs) (ts : list tensor) : Prop := {
  wf_keys : NoDup (map fst kv);
  wf_vals : Forall (fun e => wf_wval (snd e)) kv;
  wf_tens : Forall wf_tensor ts;
  wf_size : Forall sized ts;
  wf_align : 0 < walign kv
}.

(** the tensor order WriteGGUF leaves: a permutation of the input *)
Definition written_order (block : tensor -> Z) (ts : list tensor) : list tensor := sort_ts block ts.

Lemma wf_sorted block kv ts : wf_input kv ts -> wf_input kv (written_order block ts).
Proof.
  intros [H1 H2 H3 H4 H5]. pose proof (sort_ts_perm block ts) as Hp. split; auto.
  - eapply Permutation_Forall; eassumption.
  - eapply Permutation_Forall; eassumption.
Qed.

Lemma decode_write_gguf block kv ts ma :
  wf_input kv ts -> small (write_gguf true block kv ts) ->
  exists al, decode (write_gguf true block kv ts) ma =
    DOk (mkD 3 (expected_kv (eff_max ma) kv (written_order block ts)) (hdr_tinfos (walign kv) (written_order block ts))
             (data_start kv (written_order block ts)) (Z.of_N (nlen (write_gguf true block kv ts)))) al.
Proof.
  intros Hwf Hs. destruct (wf_sorted block kv ts Hwf) as [H1 H2 H3 H4 H5]. exact (decode_write ma kv _ H1 H2 H3 H4 H5 Hs).
Qed.

Lemma kv_roundtrip : forall block kv ts maxArr,
  wf_input kv ts -> small (write_gguf true block kv ts) ->
  exists d al, decode (write_gguf true block kv ts) maxArr = DOk d al /\
    forall k, kv_get k (d_kv d) =
      if eqb_str k k_param_count then Some (VNum 10 (wparams ts))
      else option_map (fun v => clip (eff_max maxArr) (val_of_wval v)) (kv_get k kv).
Proof.
  intros block kv ts ma Hwf Hs. destruct (decode_write_gguf block kv ts ma Hwf Hs) as [al Hd].
  eexists; exists al. split; [exact Hd|]. intro k. cbn [d_kv].
  rewrite expected_kv_get by apply Hwf. rewrite (wparams_perm ts (written_order block ts)) by apply sort_ts_perm. reflexivity.
Qed.

Lemma tensor_meta_roundtrip : forall block kv ts maxArr,
  wf_input kv ts -> small (write_gguf true block kv ts) ->
  exists d al, decode (write_gguf true block kv ts) maxArr = DOk d al /\
    Permutation ts (written_order block ts) /\
    map ti_name (d_tensors d) = map t_name (written_order block ts) /\
    map ti_kind (d_tensors d) = map t_kind (written_order block ts) /\
    map ti_shape (d_tensors d) = map (fun t => rev (t_shape t)) (written_order block ts).
Proof.
  intros block kv ts ma Hwf Hs. destruct (decode_write_gguf block kv ts ma Hwf Hs) as [al Hd].
  eexists; exists al. split; [exact Hd|]. split; [apply sort_ts_perm|]. cbn [d_tensors].
  repeat split; apply map_hdr_tinfos; reflexivity.
Qed.

Lemma tensor_bytes_at_offset : forall block kv ts maxArr,
  wf_input kv ts -> small (write_gguf true block kv ts) ->
  exists d al, decode (write_gguf true block kv ts) maxArr = DOk d al /\
    forall i t ti, nth_error (written_order block ts) i = Some t -> nth_error (d_tensors d) i = Some ti ->
      let at_ := d_toff d + ti_offset ti in
      firstn (length (t_data t)) (skipn (N.to_nat at_) (write_gguf true block kv ts)) = t_data t /\
      at_ mod walign kv = 0.
Proof.
  intros block kv ts ma Hwf Hs. destruct (decode_write_gguf block kv ts ma Hwf Hs) as [al Hd].
  eexists; exists al. split; [exact Hd|]. intros i t ti Ht Hti. cbn [d_tensors d_toff] in *.
  apply nth_error_hdr_tinfos in Hti as (t' & o & Ht' & Ho & ->). rewrite Ht in Ht'. injection Ht' as <-.
  destruct (wf_sorted block kv ts Hwf) as [_ H2 _ H4 H5]. exact (proj2 (layout_file kv _ H2 H4 H5 Hs) i t o Ht Ho).
Qed.

Lemma end_offset : forall block kv ts maxArr,
  wf_input kv ts -> small (write_gguf true block kv ts) ->
  exists d al, decode (write_gguf true block kv ts) maxArr = DOk d al /\
    d_end d = Z.of_nat (length (write_gguf true block kv ts)).
Proof.
  intros block kv ts ma Hwf Hs. destruct (decode_write_gguf block kv ts ma Hwf Hs) as [al Hd].
  eexists; exists al. split; [exact Hd | apply nat_N_Z].
Qed.

Definition wit_ts : list tensor :=
  [mkT [97] 0 [1] [1;2;3;4]; mkT [98;108;107;46;48;46;119] 0 [7] (repeat 170 28); mkT [99] 0 [1] [5;6;7;8]].
Definition wit_kv : wkvs :=
  [ (k_alignment, WU32 8); ([122], WStr []); ([97], WU32s []); ([98], WStrs [[]; [120]]); ([99], WBool true);
    ([100], WF32 1065353216); ([101], WI32s [4294967295]); ([102], WF32s [0]) ].
Definition wit_block (t : tensor) : Z := if eqb_str (t_name t) [98;108;107;46;48;46;119] then 0%Z else (-1)%Z.

Lemma hypotheses_satisfiable : wf_input wit_kv wit_ts /\ small (write_gguf true wit_block wit_kv wit_ts).
Proof.
  split; [split|].
  - cbn [map fst wit_kv]. repeat constructor; cbn; intuition discriminate.
  - repeat constructor; cbn; unfold two32; try reflexivity; repeat constructor.
  - repeat constructor; cbn; unfold two32, two64, nlen; cbn; try reflexivity.
  - repeat constructor.
  - reflexivity.
  - reflexivity.
Qed.

(** the code before fixes/C05-offsets.patch *)
Definition C05_tensor_bytes_unrepaired_full : Prop :=
  forall kv ts maxArr, wf_input kv ts -> small (write_ordered false kv ts) ->
  exists d al, decode (write_ordered false kv ts) maxArr = DOk d al /\
    forall i t ti, nth_error ts i = Some t -> nth_error (d_tensors d) i = Some ti ->
      firstn (length (t_data t)) (skipn (N.to_nat (d_toff d + ti_offset ti)) (write_ordered false kv ts)) = t_data t.

Lemma tensor_bytes_unrepaired_refuted : ~ C05_tensor_bytes_unrepaired_full.
Proof.
  intro H. destruct (H [] wit_ts 0%Z) as (d & al & Hd & Hb).
  - split; [constructor | constructor | | | reflexivity].
    + repeat constructor; cbn; unfold two32, two64, nlen; cbn; reflexivity.
    + repeat constructor.
  - reflexivity.
  - vm_compute in Hd. inversion Hd; subst d. clear Hd.
    specialize (Hb 2%nat (mkT [99] 0 [1] [5;6;7;8]) (mkTI [99] 0 32 [1]) eq_refl eq_refl).
    vm_compute in Hb. discriminate.
Qed.

Lemma Forall_dec_true {A} (P : A -> Prop) (f : A -> bool) l : (forall x, f x = true -> P x) -> forallb f l = true -> Forall P l.
Proof. intros H Hf. apply Forall_forall. intros x Hx. apply H. rewrite forallb_forall in Hf. apply Hf, Hx. Qed.

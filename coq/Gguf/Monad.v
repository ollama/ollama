(** The reader monad of Gguf/Model.v.  [oks m r a r']: m succeeds on r with value a and rest r' (C05).  [G cs cf m]: m never
    panics or runs out of fuel, and what it allocates is paid for by the input it consumes, at [K] per byte, up to the
    credit [cs] on success / [cf] on failure (C10). *)
From Coq Require Import List NArith ZArith Bool Arith Lia ZifyBool ZifyNat ZifyN.
From V Require Import Common.Bytes Gguf.Model Gguf.Arith.
Import ListNotations.
Open Scope N_scope.

Definition oks {A} (m : M A) (r : list N) (a : A) (r' : list N) : Prop := exists al, m r = ROk a r' al.

Lemma oks_ret {A} (a : A) r : oks (ret a) r a r.
Proof. exists 0. reflexivity. Qed.

Lemma oks_bind {A B} (m : M A) (f : A -> M B) r a r' b r'' :
  oks m r a r' -> oks (f a) r' b r'' -> oks (bind m f) r b r''.
Proof. intros [al1 H1] [al2 H2]. unfold oks, bind. rewrite H1, H2. eexists; reflexivity. Qed.

(** [go_slice], [go_make] and [go_truncate] are this guard *)
Lemma guard_ok (p : pan) hi x : (0 <= x <= hi)%Z -> (if ((x <? 0) || (hi <? x))%Z then panic p else ret tt) = ret tt.
Proof. intro H. destruct (Z.ltb_spec x 0); [lia|]. destruct (Z.ltb_spec hi x); [lia | reflexivity]. Qed.

Lemma oks_guard p hi x r : (0 <= x <= hi)%Z -> oks (if ((x <? 0) || (hi <? x))%Z then panic p else ret tt) r tt r.
Proof. intro H. rewrite guard_ok by exact H. apply oks_ret. Qed.

Lemma oks_alloc k r : oks (alloc k) r tt r.
Proof. exists k. reflexivity. Qed.

Lemma oks_take k l rest : k = N.of_nat (length l) -> oks (take k) (l ++ rest) l rest.
Proof.
  intros ->. exists 0. unfold take. rewrite app_length.
  destruct (N.ltb_spec (N.of_nat (length l + length rest)) (N.of_nat (length l))); [lia|].
  rewrite Nat2N.id, firstn_app_exact, skipn_app_exact; reflexivity.
Qed.

Lemma oks_rd_int_le (k : nat) n rest :
  n < 256 ^ N.of_nat k -> oks (rd_int false (N.of_nat k)) (le k n ++ rest) n rest.
Proof.
  intro H. unfold rd_int. eapply oks_bind.
  - apply oks_take. now rewrite le_length.
  - cbn. rewrite unle_le_small by exact H. apply oks_ret.
Qed.

Lemma oks_rd_u32 n rest : n < two32 -> oks (rd_u32 false) (le 4 n ++ rest) n rest.
Proof. intro H. apply (oks_rd_int_le 4). exact H. Qed.

Lemma oks_rd_u64 n rest : n < two64 -> oks (rd_u64 false) (le 8 n ++ rest) n rest.
Proof. intro H. apply (oks_rd_int_le 8). exact H. Qed.

Lemma oks_loopM {S X} (enc : X -> list N) (body : S -> M S) (step : S -> X -> S) (P : X -> Prop) :
  (forall s x rest, P x -> oks (body s) (enc x ++ rest) (step s x) rest) ->
  forall xs fuel s rest, Forall P xs -> (length xs <= fuel)%nat ->
    oks (loopM fuel (N.of_nat (length xs)) body s) (flat_map enc xs ++ rest) (fold_left step xs s) rest.
Proof.
  intros Hb xs. induction xs as [|x xs IH]; intros fuel s rest HP Hf.
  - cbn [length flat_map fold_left app]. destruct fuel; cbn [loopM N.of_nat N.eqb]; apply oks_ret.
  - destruct fuel as [|fuel]; [cbn in Hf; lia|].
    cbn [loopM]. destruct (N.eqb_spec (N.of_nat (length (x :: xs))) 0) as [E|_]; [cbn in E; lia|].
    cbn [flat_map fold_left]. rewrite <- app_assoc.
    inversion HP as [|? ? HPx HPxs]; subst.
    eapply oks_bind; [apply Hb; exact HPx|].
    replace (N.pred _) with (N.of_nat (length xs)) by (cbn [length]; lia). apply IH; [exact HPxs | cbn in Hf; lia].
Qed.

Lemma oks_loop {S X} (enc : X -> list N) (body : S -> M S) (step : S -> X -> S) (P : X -> Prop) :
  (forall s x rest, P x -> oks (body s) (enc x ++ rest) (step s x) rest) ->
  (forall x, (1 <= length (enc x))%nat) ->
  forall xs s rest, Forall P xs ->
    oks (loop (N.of_nat (length xs)) body s) (flat_map enc xs ++ rest) (fold_left step xs s) rest.
Proof.
  intros Hb Hl xs s rest HP. unfold loop. eapply oks_loopM; eauto.
  rewrite app_length. pose proof (flat_map_length_ge enc xs Hl). lia.
Qed.

Definition K : Z := 256.
Definition zlen (l : list N) : Z := Z.of_nat (length l).

Definition G {A} (cs cf : Z) (m : M A) : Prop := forall rest,
  match m rest with
  | ROk _ r' al => (length r' <= length rest)%nat /\ (Z.of_N al + K * zlen r' <= K * zlen rest + cs)%Z
  | RErr e al => e <> EFuel /\ (Z.of_N al <= K * zlen rest + cf)%Z
  | RPanic _ _ => False
  end.

Lemma G_weaken {A} cs cf cs' cf' (m : M A) : G cs cf m -> (cs <= cs')%Z -> (cf <= cf')%Z -> G cs' cf' m.
Proof.
  intros H H1 H2 rest. specialize (H rest). destruct (m rest); [|intuition lia|exact H].
  destruct H as [Ha Hb]. split; [exact Ha | lia].
Qed.

Lemma G_ret {A} (a : A) cs cf : (0 <= cs)%Z -> G cs cf (ret a).
Proof. intros H rest. unfold ret. unfold K, zlen. split; lia. Qed.

Lemma G_fail' {A} e cs cf : e <> EFuel -> (0 <= cf)%Z -> G cs cf (@fail A e).
Proof. intros H H2 rest. unfold fail. split; [exact H | unfold K, zlen; lia]. Qed.

Lemma G_fail {A} e cs : e <> EFuel -> G cs 0 (@fail A e).
Proof. intro H. apply G_fail'; [exact H | lia]. Qed.

Lemma G_if {A} (b : bool) cs cf (m1 m2 : M A) : G cs cf m1 -> G cs cf m2 -> G cs cf (if b then m1 else m2).
Proof. destruct b; auto. Qed.

Lemma G_guard p hi x : (0 <= x <= hi)%Z -> G 0 0 (if ((x <? 0) || (hi <? x))%Z then panic p else ret tt).
Proof. intro H. rewrite guard_ok by exact H. apply G_ret; lia. Qed.

Lemma G_alloc k : G (Z.of_N k) 0 (alloc k).
Proof. intro rest. unfold alloc. unfold K, zlen. split; lia. Qed.

Lemma G_alloc_ret {A} k (a : A) cs cf : (Z.of_N k <= cs)%Z -> G cs cf (alloc k ;;; ret a).
Proof. intros H rest. unfold bind, alloc, ret, add_al. unfold K, zlen. split; lia. Qed.

(** the primitives that consume input, with [K] = 256 written out so that [lia] sees it: a read is paid in full; a
    copied byte costs 4 ([copy_cost]), leaving 252 *)
Lemma G_take k : G (-256 * Z.of_N k) 0 (take k).
Proof.
  intro rest. unfold take. destruct (N.ltb_spec (N.of_nat (length rest)) k) as [H|H].
  - split; [destruct rest; discriminate | unfold K, zlen; lia].
  - unfold K, zlen. rewrite !skipn_length. split; lia.
Qed.

Lemma G_copyN n : G (1536 - 252 * Z.of_N n) 1536 (copyN n).
Proof.
  intro rest. unfold copyN, copy_cost. destruct (N.ltb_spec (N.of_nat (length rest)) n) as [H|H].
  - split; [discriminate | unfold K, zlen; lia].
  - unfold K, zlen. rewrite !skipn_length. split; lia.
Qed.

(** goal directed: the credits wanted of the whole, less what [m] uses, are what is wanted of the continuation *)
Lemma G_bind_dep {A B} cs1 cf1 cs cf (m : M A) (f : A -> M B) (Q : A -> Prop) :
  G cs1 cf1 m -> (forall rest a r al, m rest = ROk a r al -> Q a) -> (forall a, Q a -> G (cs - cs1) (cf - cs1) (f a)) ->
  (cf1 <= cf)%Z -> G cs cf (bind m f).
Proof.
  intros Hm HQ Hf Hcf rest. unfold bind. specialize (Hm rest). destruct (m rest) as [a r1 al1 | e al1 | p al1] eqn:E.
  - destruct Hm as [Hl1 Hc1]. specialize (Hf a (HQ _ _ _ _ E) r1). destruct (f a r1) as [b r2 al2 | e al2 | p al2]; cbn [add_al].
    + destruct Hf as [Hl2 Hc2]. split; lia.
    + destruct Hf as [He Hc2]. split; [exact He | lia].
    + exact Hf.
  - destruct Hm as [He Hc]. split; [exact He | lia].
  - exact Hm.
Qed.

Lemma G_bind {A B} cs1 cf1 cs cf (m : M A) (f : A -> M B) :
  G cs1 cf1 m -> (forall a, G (cs - cs1) (cf - cs1) (f a)) -> (cf1 <= cf)%Z -> G cs cf (bind m f).
Proof. intros Hm Hf. apply (G_bind_dep cs1 cf1 cs cf m f (fun _ => True)); auto. Qed.

Lemma G_rd_int be k : G (-256 * Z.of_N k) 0 (rd_int be k).
Proof. unfold rd_int. eapply G_bind; [apply G_take | intro a; apply G_ret; lia | lia]. Qed.

Lemma G_loopM {S} cs cf (body : S -> M S) :
  (forall s, G cs cf (body s)) -> (cs < 0)%Z ->
  forall fuel n s rest, (length rest < fuel)%nat ->
    match loopM fuel n body s rest with
    | ROk _ r' al => (length r' <= length rest)%nat /\ (Z.of_N al + K * zlen r' <= K * zlen rest + cs * Z.of_N n)%Z
    | RErr e al => e <> EFuel /\ (Z.of_N al <= K * zlen rest + cf)%Z
    | RPanic _ _ => False
    end.
Proof.
  intros Hb Hcs fuel. induction fuel as [|fuel IH]; intros n s rest Hf; [lia|].
  cbn [loopM]. destruct (N.eqb_spec n 0) as [En|En].
  - subst n. unfold ret. unfold K, zlen. split; lia.
  - unfold bind. pose proof (Hb s rest) as H. destruct (body s rest) as [s' r1 al1 | e al1 | p al1].
    + destruct H as [Hl Hc].
      (* [cs < 0]: the body consumed input, so the fuel left still exceeds the input left *)
      assert (Hlt : (length r1 < length rest)%nat) by (unfold K, zlen in Hc; lia).
      specialize (IH (N.pred n) s' r1 ltac:(lia)).
      destruct (loopM fuel (N.pred n) body s' r1) as [s2 r2 al2 | e al2 | p al2]; cbn [add_al].
      * destruct IH as [Hl2 Hc2]. split; [lia|].
        replace (Z.of_N n) with (1 + Z.of_N (N.pred n))%Z by lia. lia.
      * destruct IH as [He Hc2]. split; [exact He | lia].
      * exact IH.
    + destruct H as [He Hc]. split; [exact He | lia].
    + exact H.
Qed.

Lemma G_loop {S} cs cf n (body : S -> M S) s :
  (forall s, G cs cf (body s)) -> (cs < 0)%Z -> G (cs * Z.of_N n) cf (loop n body s).
Proof.
  intros Hb Hcs rest. unfold loop.
  exact (G_loopM cs cf body Hb Hcs (Datatypes.S (length rest)) n s rest ltac:(lia)).
Qed.

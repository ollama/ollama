(** C03 — theorems (statements only; proofs are in Pull/*Proofs.v, witnesses in Pull/Witnesses.v).

    Model: Pull/Challenge.v (getValue / parseRegistryChallenge, byte-exact), Pull/Download.v (Prepare / run /
    downloadChunk / downloadBlob / PullModel / makeRequestWithRetry / redirect policy).  [H] is SHA-256 as an arbitrary
    function, [k] the constants of download.go (the theorems hold for every value of them), the registry and the CDN
    are universally quantified response lists ([penv]); [pull H true k] is the code after the C03 fix patches. *)
From Coq Require Import List NArith ZArith Bool Lia.
From V Require Import Common.Bytes Pull.Challenge Pull.ChallengeProofs Pull.Download Pull.StoreProofs Pull.LayoutProofs Pull.RetryProofs Pull.Witnesses.
Import ListNotations.
Open Scope Z_scope.

(** ** no registry response crashes the server: the challenge parser *)
Theorem C03_challenge_total : forall header key, getValue header key <> Panic.
Proof. exact get_value_guarded_total. Qed.
Print Assumptions C03_challenge_total.

Theorem C03_parse_challenge_total : forall auth, parseRegistryChallenge auth <> Panic.
Proof. exact parse_challenge_total. Qed.
Print Assumptions C03_parse_challenge_total.

(** ... and neither does makeRequestWithRetry around it (401 -> challenge -> token -> one replay), whatever the registry
    and the token service answer, for either redirect policy *)
Theorem C03_requests_never_panic : forall closure ac fuel tok (rs : list hresp),
  fst (fst (fst (mrwr true closure ac fuel tok rs))) <> RPanic.
Proof.
  intros closure ac fuel. induction fuel as [|f IH]; intros tok rs; cbn [mrwr]; [cbn; discriminate|].
  destruct (do_request closure 0 rs) as [[r|] rest]; [|cbn; discriminate].
  destruct (h_status r =? 401).
  - destruct (parse_challenge_gen true (h_auth r)) as [c|] eqn:E.
    + destruct (get_token ac c (h_tokreq r)) as [[t|] ct]; [|cbn; discriminate].
      specialize (IH t rest). destruct (mrwr true closure ac f t rest) as [[[o tk] rs'] c']. exact IH.
    + exfalso. exact (parse_challenge_total _ E).
  - destruct (h_status r =? 404); [cbn; discriminate|].
    destruct (400 <=? h_status r); cbn; discriminate.
Qed.
Print Assumptions C03_requests_never_panic.

(** the function as it stood at the pinned commit panics exactly when the first occurrence of [key=] ends the header *)
Theorem C03_getvalue_unrepaired_panics_iff : forall header key,
  getValue_orig header key = Panic <-> ends_at_key header key = true.
Proof. exact get_value_orig_panic_iff. Qed.
Print Assumptions C03_getvalue_unrepaired_panics_iff.

(** witness: [WWW-Authenticate: realm=] *)
Example C03_getvalue_unrepaired_witness : getValue_orig [114; 101; 97; 108; 109; 61]%N [114; 101; 97; 108; 109]%N = Panic.
Proof. vm_compute. reflexivity. Qed.

(** a well-formed challenge is parsed as intended (non-vacuity of the parser model) *)
Example C03_challenge_example :
  getValue [114; 61; 34; 97; 98; 34; 44; 120]%N [114]%N = Ok [97; 98]%N.   (* r="ab",x  with key r  gives ab *)
Proof. vm_compute. reflexivity. Qed.

(** ** success: for every history of attempts against arbitrary registries/CDNs, starting from the empty store, a pull
    that reports success has stored the served manifest, and every layer of it is present with content whose SHA-256 is
    the layer's digest; its size is the manifest's size provided the publication is self-consistent (any content with
    that digest has the recorded size: what the registry recorded, plus collision freedom). *)
Theorem C03_success_verified : forall (H : bytes -> digest) (k : consts) (h : list (N * penv)) name e st' trs,
  pull H true k (run_history H k empty_store h) name e = (st', PSuccess, trs) ->
  exists m, pe_manifest e = Some m /\ lookup N.eqb name (s_man st') = Some m /\
    forall l, In l (all_layers m) ->
      exists c, lookup N.eqb (l_digest l) (s_blobs st') = Some c /\ H c = l_digest l
                /\ ((forall c', H c' = l_digest l -> zlen c' = l_size l) -> zlen c = l_size l).
Proof.
  intros H k h name e st' trs Hp. destruct (history_ok H k h) as [Hok Hns].
  destruct (pull_spec H k _ _ _ _ _ _ Hp Hok Hns) as (_ & _ & _ & Hs).
  destruct (Hs eq_refl) as (m & Hm & Hl & _ & Hlay). exists m. repeat split; auto.
  intros l Hin. destruct (Hlay l Hin) as [c [Hc1 Hc2]]. exists c. repeat split; auto.
Qed.
Print Assumptions C03_success_verified.

(** non-vacuity: a two-layer pull against the fault-free registry succeeds in the model *)
Example C03_success_example :
  pull_result (pull toyH true go_consts empty_store 7 (clean_penv go_consts toy_content toyM)) = PSuccess.
Proof. vm_compute. reflexivity. Qed.

(** ** failure: after any history, every name resolves to a manifest whose layers are all present and intact, and an
    attempt that fails (for whatever reason, cancellation included) leaves every name resolving to what it resolved to
    before and removes no blob. *)
Theorem C03_names_always_sound : forall (H : bytes -> digest) (k : consts) (h : list (N * penv)),
  names_sound H (run_history H k empty_store h) /\ blobs_ok H (run_history H k empty_store h).
Proof.
  intros H k h. destruct (history_ok H k h). split; assumption.
Qed.
Print Assumptions C03_names_always_sound.

Theorem C03_failure_keeps_name_sound : forall (H : bytes -> digest) (k : consts) (h : list (N * penv)) name e st' trs,
  let st := run_history H k empty_store h in
  pull H true k st name e = (st', PFail, trs) ->
  s_man st' = s_man st /\ blobs_grow st st' /\ names_sound H st' /\ blobs_ok H st'.
Proof.
  intros H k h name e st' trs st Hp. destruct (history_ok H k h) as [Hok Hns].
  destruct (pull_spec H k _ _ _ _ _ _ Hp Hok Hns) as (Hok' & Hns' & Hf & _).
  destruct (Hf eq_refl). repeat split; assumption.
Qed.
Print Assumptions C03_failure_keeps_name_sound.

(** a successful attempt changes no other name *)
Theorem C03_success_other_names : forall (H : bytes -> digest) (k : consts) (h : list (N * penv)) name e st' trs,
  let st := run_history H k empty_store h in
  pull H true k st name e = (st', PSuccess, trs) ->
  forall n, n <> name -> lookup N.eqb n (s_man st') = lookup N.eqb n (s_man st).
Proof.
  intros H k h name e st' trs st Hp. destruct (history_ok H k h) as [Hok Hns].
  destruct (pull_spec H k _ _ _ _ _ _ Hp Hok Hns) as (_ & _ & _ & Hs).
  destruct (Hs eq_refl) as (m & _ & _ & Hoth & _). exact Hoth.
Qed.
Print Assumptions C03_success_other_names.

(** the same statement is false of the code at the pinned commit (blob renamed before it is hashed, cache hit trusted):
    a corrupt layer left by a failed attempt is accepted by the next, fault-free one *)
Theorem C03_success_verified_unrepaired_refuted :
  exists (H : bytes -> digest) (h : list (N * penv)) name e st' trs m l c,
    pull H false go_consts (history_fx H false go_consts h) name e = (st', PSuccess, trs) /\
    pe_manifest e = Some m /\ In l (all_layers m) /\ lookup N.eqb (l_digest l) (s_blobs st') = Some c /\ H c <> l_digest l.
Proof.
  destruct unrepaired_accepts_corrupt_layer as (Hr & Hl & Hne).
  exists toyH, witness_history, 7%N, (clean_penv go_consts toy_content toyM),
    (pull_store after_unrepaired), (snd after_unrepaired), toyM, (mkLayer 1%N 3 true), [1; 0; 1]%N.
  split; [rewrite <- Hr; apply pull_eta|]. split; [reflexivity|]. split; [left; reflexivity|]. split; [exact Hl|exact Hne].
Qed.
Print Assumptions C03_success_verified_unrepaired_refuted.

(** ** part layout: Prepare's parts tile [0, Total) with non-empty parts of at most the clamped part size *)
Theorem C03_layout_tiles : forall k total,
  0 < c_min k <= c_max k -> 0 <= total -> tiles (part_size k total) 0 total (layout k total).
Proof. exact layout_tiles. Qed.
Print Assumptions C03_layout_tiles.

Example C03_layout_example : map psize (layout go_consts 250000000) = [100000000; 100000000; 50000000].
Proof. vm_compute. reflexivity. Qed.

(** ** known finding 1: layer sizes.  Full statement (no self-consistency hypothesis) is false: the pull never looks at
    the size a manifest records. *)
Definition C03_size_full : Prop :=
  forall (H : bytes -> digest) (k : consts) name e st' trs,
    pull H true k empty_store name e = (st', PSuccess, trs) ->
    forall m l c, pe_manifest e = Some m -> In l (all_layers m) -> lookup N.eqb (l_digest l) (s_blobs st') = Some c -> zlen c = l_size l.
Theorem C03_size_refuted : ~ C03_size_full.
Proof.
  intros Hf. destruct size_never_checked as (Hr & Hl & Hne). apply Hne.
  refine (Hf toyH go_consts 7%N (clean_penv go_consts toy_content lieM) _ _ _ lieM (mkLayer 1%N 5 true) _ eq_refl (or_introl eq_refl) Hl).
  rewrite <- Hr. apply pull_eta.
Qed.
Print Assumptions C03_size_refuted.
(** C03_size_partial is the last conjunct of C03_success_verified (size under the self-consistency hypothesis). *)

(** ** known finding 2: retry.  Full statement: after any history, some number of fault-free attempts succeeds.  False:
    an oversized Content-Length seen once at HEAD stays in the part record. *)
Definition C03_retry_full : Prop :=
  forall (H : bytes -> digest) (content : digest -> bytes) (h : list (N * penv)) name m,
    (forall l, In l (all_layers m) -> l_valid l = true /\ H (content (l_digest l)) = l_digest l) ->
    exists n, pull_result (pull H true go_consts
                                (iter_n n (fun st => pull_store (pull H true go_consts st name (clean_penv go_consts content m)))
                                          (run_history H go_consts empty_store h))
                                name (clean_penv go_consts content m)) = PSuccess.
Theorem C03_retry_refuted : ~ C03_retry_full.
Proof.
  intros Hf.
  destruct (Hf toyH toy_content [(7%N, oversize_head)] 7%N toyM) as [n Hn].
  - intros l [<-|[<-|[]]]; split; reflexivity.
  - change (pull_result (clean_retry (iter_n n retry_store poisoned)) = PSuccess) in Hn.
    rewrite poisoned_for_ever in Hn. discriminate.
Qed.
Print Assumptions C03_retry_refuted.

(** partial: the retry clause holds when HEAD never reported a wrong Content-Length in the history (then every part
    record on disk stays within its blob).  After any such history of attempts against otherwise arbitrary
    registries/CDNs (any failures, truncations, corrupt bytes, cancellations), at most [number of layers] failing
    fault-free attempts are followed by a successful one; each failing one consumes (and removes) the corrupt resume
    state of one layer.  [content] is what the registry publishes: [published] says every layer of the manifest is valid
    and [content] of its digest has that digest. *)
Theorem C03_retry_possible_partial :
  forall (H : bytes -> digest) (k : consts) (content : digest -> bytes) (h : list (N * penv)) name m,
    0 < c_min k <= c_max k -> c_retries k <> O ->
    Forall (truthful_attempt content) h -> published H content (all_layers m) ->
    exists j, (j <= length (all_layers m))%nat /\
      pull_result (pull H true k (iter_n j (fun s => pull_store (pull H true k s name (clean_penv k content m))) (run_history H k empty_store h))
                        name (clean_penv k content m)) = PSuccess.
Proof. intros H k content h name m Hk Hr Ht Hp. exact (retry_after_history H k content Hk Hr h name m Ht Hp). Qed.
Print Assumptions C03_retry_possible_partial.

(** non-vacuity: a truthful history after which the first fault-free attempt fails and the second succeeds *)
Example C03_retry_example :
  Forall (truthful_attempt toy_content) [(7%N, interrupted_corrupt)] /\ published toyH toy_content (all_layers toyM) /\
  pull_result (clean_retry stale_store) = PFail /\ pull_result (clean_retry (retry_store stale_store)) = PSuccess.
Proof.
  split; [|split; [|exact stale_first_retry_fails_second_succeeds]].
  - constructor; [|constructor]. cbn. split; [intros t [= <-]; reflexivity|]. split; [intros t; discriminate|exact I].
  - intros l [<-|[<-|[]]]; split; reflexivity.
Qed.

(** ... and without any guard once the server has been restarted (PruneLayers at start removes all resume state): after
    any history whatsoever, a restart followed by one fault-free attempt succeeds; the restart keeps every name sound. *)
Theorem C03_retry_after_restart :
  forall (H : bytes -> digest) (k : consts) (content : digest -> bytes) (h : list (N * penv)) name m,
    0 < c_min k <= c_max k -> c_retries k <> O -> published H content (all_layers m) ->
    let st := startup_prune (run_history H k empty_store h) in
    names_sound H st /\ pull_result (pull H true k st name (clean_penv k content m)) = PSuccess.
Proof.
  intros H k content h name m Hk Hr Hp. destruct (history_ok H k h) as [Hok Hns].
  exact (retry_after_restart H k content Hk Hr _ name m Hp Hok Hns).
Qed.
Print Assumptions C03_retry_after_restart.

Example C03_retry_after_restart_example :
  pull_result (clean_retry poisoned) = PFail /\ pull_result (clean_retry (startup_prune poisoned)) = PSuccess.
Proof. split; [exact poisoned_first|vm_compute; reflexivity]. Qed.

(** The retry clause: against a fault-free registry + CDN, attempts eventually succeed, provided the part records on
    disk stay within the published blobs (which is what a truthful Content-Length at HEAD produces). *)
From Coq Require Import List NArith ZArith Bool Lia.
From V Require Import Common.Bytes Pull.Challenge Pull.Download Pull.StoreProofs Pull.LayoutProofs.
Import ListNotations.
Open Scope Z_scope.

Lemma resize_length n d : length (resize n d) = n.
Proof. unfold resize. rewrite app_length, firstn_length, repeat_length. lia. Qed.

Lemma write_at_inside d off b : (off + length b <= length d)%nat ->
  write_at d off b = firstn off d ++ b ++ skipn (off + length b) d.
Proof.
  intros Hle. unfold write_at. replace (off - length d)%nat with 0%nat by lia. cbn [repeat]. rewrite app_nil_r. reflexivity.
Qed.

Lemma write_at_length_inside d off b : (off + length b <= length d)%nat -> length (write_at d off b) = length d.
Proof.
  intros Hle. rewrite write_at_inside by exact Hle. rewrite !app_length, firstn_length, skipn_length. lia.
Qed.

Lemma firstn_plus {A} (l : list A) a n : firstn (a + n) l = firstn a l ++ firstn n (skipn a l).
Proof.
  revert l. induction a as [|a IH]; intros l; cbn; [reflexivity|].
  destruct l as [|x l]; cbn; [rewrite firstn_nil; reflexivity|]. rewrite IH. reflexivity.
Qed.

Lemma write_at_prefix d off b c :
  (off + length b <= length d)%nat -> firstn off d = firstn off c -> b = firstn (length b) (skipn off c) ->
  firstn (off + length b) (write_at d off b) = firstn (off + length b) c.
Proof.
  intros Hle Hpre Hb. rewrite write_at_inside by exact Hle.
  rewrite firstn_plus with (l := c). rewrite <- Hb, <- Hpre.
  assert (Hlen : length (firstn off d) = off) by (rewrite firstn_length; lia).
  rewrite app_assoc. rewrite firstn_app.
  replace (off + length b - length (firstn off d ++ b))%nat with 0%nat by (rewrite app_length; lia).
  cbn [firstn]. rewrite app_nil_r. apply firstn_all2. rewrite app_length. lia.
Qed.

Lemma lookup_set_some d d' c (bl : list (digest * bytes)) c0 :
  lookup N.eqb d' bl = Some c0 -> exists c', lookup N.eqb d' (set_key N.eqb d c bl) = Some c'.
Proof. intros Hl. rewrite lookup_set. destruct (N.eqb d' d); eauto. Qed.

(** a part record that stays within the blob *)
Definition part_sane (c : bytes) (p : part) : Prop :=
  0 <= poff p /\ 0 <= pdone p <= psize p /\ poff p + psize p <= zlen c.

Lemma slice_length c a b : 0 <= a -> a <= b + 1 -> b + 1 <= zlen c -> zlen (slice c (a, b)) = b + 1 - a.
Proof.
  intros Ha Hab Hb. unfold slice, zlen in *. cbn [fst snd]. rewrite firstn_length, skipn_length. lia.
Qed.

Lemma chunk_clean c p d : part_sane c p ->
  chunk p d (CBody (slice c (poff p + pdone p, poff p + psize p - 1)) EClean)
  = (mkPart (poff p) (psize p) (psize p), write_at d (Z.to_nat (poff p + pdone p)) (slice c (poff p + pdone p, poff p + psize p - 1)), COk).
Proof.
  intros [Ho [Hd Hs]]. unfold chunk.
  set (b := slice c (poff p + pdone p, poff p + psize p - 1)).
  assert (Hlen : zlen b = psize p - pdone p) by (unfold b; rewrite slice_length; lia).
  rewrite Hlen. rewrite Z.leb_refl.
  rewrite Z.max_l by lia. replace (pdone p + (psize p - pdone p)) with (psize p) by lia.
  rewrite firstn_all2; [reflexivity|]. unfold zlen in Hlen. lia.
Qed.

Lemma part_sane_adv c p n : part_sane c p -> 0 <= n <= psize p - pdone p ->
  part_sane c (mkPart (poff p) (psize p) (pdone p + n)).
Proof. unfold part_sane. cbn [poff psize pdone]. lia. Qed.

Lemma chunk_sane c p d r : part_sane c p -> part_sane c (fst (fst (chunk p d r))).
Proof.
  (* the record stays as it is, or [pdone] advances by the bytes received, at most up to [psize] *)
  intros Hs. pose proof Hs as (_ & Hd & _). unfold chunk.
  destruct r as [|b e|b|b]; try destruct (Z.leb_spec (psize p - pdone p) (zlen b)); try destruct e; cbn [fst];
    try exact Hs; apply part_sane_adv; try exact Hs; unfold zlen in *; lia.
Qed.

Lemma run_part_sane c rs : forall tries p d, part_sane c p -> part_sane c (fst (fst (fst (run_part tries p d rs)))).
Proof.
  induction rs as [|r rs IH]; intros tries p d Hs; destruct tries as [|t]; cbn [run_part fst]; try exact Hs.
  pose proof (chunk_sane c p d (r (poff p + pdone p, poff p + psize p - 1)) Hs) as Hc.
  destruct (chunk p d (r (poff p + pdone p, poff p + psize p - 1))) as [[p' d'] cr]. cbn [fst] in Hc.
  destruct cr; cbn [fst]; try exact Hc.
  - specialize (IH t p' d' Hc). destruct (run_part t p' d' rs) as [[[p2 d2] o] q]. exact IH.
  - specialize (IH (S t) p' d' Hc). destruct (run_part (S t) p' d' rs) as [[[p2 d2] o] q]. exact IH.
Qed.

Lemma tiles_sane c mx ps : forall from, tiles mx from (zlen c) ps -> 0 <= from -> Forall (part_sane c) ps.
Proof.
  induction ps as [|p ps IH]; intros from Ht Hfrom; [constructor|].
  cbn [tiles] in Ht. destruct Ht as [H1 [H2 [H3 [H4 H5]]]]. constructor.
  - unfold part_sane. pose proof (tiles_sum _ _ _ _ H5). lia.
  - apply (IH (from + psize p)); [exact H5|lia].
Qed.

Section Retry.
  Variable H : bytes -> digest.
  Variable k : consts.
  Variable content : digest -> bytes.
  Hypothesis Hk : 0 < c_min k <= c_max k.

  (** an invariant of histories in which HEAD never reports a wrong Content-Length, whatever else the registry and
      the CDN do *)
  Definition sane (st : store) : Prop :=
    forall d x, lookup N.eqb d (s_dl st) = Some x -> Forall (part_sane (content d)) (d_parts x).

  Lemma run_parts_sane c env ps : forall d, Forall (part_sane c) ps ->
    Forall (part_sane c) (fst (fst (fst (run_parts k ps d env)))).
  Proof.
    induction ps as [|p ps IH]; intros d Hf; cbn [run_parts fst]; [constructor|].
    inversion Hf as [|? ? Hp Hps]; subst.
    destruct (pdone p =? psize p).
    - specialize (IH d Hps). destruct (run_parts k ps d env) as [[[ps2 d2] ok] q]. cbn [fst] in *. constructor; assumption.
    - pose proof (run_part_sane c (env (poff p + psize p - 1)) (c_retries k) p d Hp) as H1.
      destruct (run_part (c_retries k) p d (env (poff p + psize p - 1))) as [[[p1 d1] o] rq]. cbn [fst] in H1.
      specialize (IH d1 Hps). destruct (run_parts k ps d1 env) as [[[ps2 d2] ok] q]. cbn [fst] in *. constructor; assumption.
  Qed.

  Lemma sane_set_dl st d x : sane st -> Forall (part_sane (content d)) (d_parts x) -> sane (set_dl d x st).
  Proof.
    intros Hs Hx d' x'. cbn [set_dl s_dl]. rewrite lookup_set.
    destruct (N.eqb_spec d' d) as [->|_]; [intros [= <-]; exact Hx|apply Hs].
  Qed.
  Lemma sane_drop_dl st d : sane st -> sane (drop_dl d st).
  Proof. intros Hs d' x'. cbn [drop_dl s_dl]. rewrite lookup_remove. destruct (N.eqb d' d); [discriminate|apply Hs]. Qed.
  Lemma sane_put_dl st d x : sane st -> Forall (part_sane (content d)) (d_parts x) -> sane (put_dl d x st).
  Proof.
    intros Hs Hx. unfold put_dl. destruct (d_file x); [apply sane_set_dl; assumption|].
    destruct (d_parts x) eqn:E; [apply sane_drop_dl, Hs|apply sane_set_dl; [exact Hs|rewrite E; exact Hx]].
  Qed.
  Lemma sane_same_dl st st' : s_dl st' = s_dl st -> sane st -> sane st'.
  Proof. intros He Hs. unfold sane. rewrite He. exact Hs. Qed.

  Definition truthful_head (d : digest) (e : benv) : Prop := forall t, be_head e = Some t -> t = zlen (content d).

  Lemma download_from_sane fx st d e old :
    sane st -> truthful_head d e -> Forall (part_sane (content d)) (d_parts old) ->
    sane (fst (fst (download_from H fx k st d e old))).
  Proof.
    intros Hs Ht Hold. unfold download_from.
    destruct (match d_parts old with [] => _ | _ => _ end) as [[[ps total] headed]|] eqn:Hp; [|exact Hs].
    assert (Hps : Forall (part_sane (content d)) ps).
    { destruct (d_parts old); [|injection Hp as <- _ _; exact Hold].
      (* a fresh layout for the length HEAD reported, which is the blob's *)
      destruct (be_head e) as [t|] eqn:Eh; [|discriminate]. injection Hp as <- _ _. rewrite (Ht t Eh).
      eapply tiles_sane; [apply layout_tiles; [exact Hk|unfold zlen; lia]|lia]. }
    destruct (negb (be_direct e)); cbn [fst]; [apply sane_set_dl; assumption|].
    set (f0 := resize _ _). pose proof (run_parts_sane (content d) (be_chunks e) ps f0 Hps) as Hrun.
    destruct (run_parts k ps f0 (be_chunks e)) as [[[ps1 f1] ok] rq]. cbn [fst] in Hrun.
    destruct (negb ok); cbn [fst]; [apply sane_set_dl; assumption|].
    destruct (fx && negb (N.eqb (H f1) d)); cbn [fst]; [|apply (sane_same_dl (drop_dl d st)); [reflexivity|]]; apply sane_drop_dl, Hs.
  Qed.

  Lemma download_blob_sane fx st d e : sane st -> truthful_head d e -> sane (fst (fst (download_blob H fx k st d e))).
  Proof.
    intros Hs Ht. unfold download_blob.
    destruct (lookup N.eqb d (s_blobs st)); [exact Hs|].
    destruct (usable _).
    - apply download_from_sane; [exact Hs|exact Ht|].
      destruct (lookup N.eqb d (s_dl st)) as [x|] eqn:Hx; [exact (Hs d x Hx)|constructor].
    - apply download_from_sane; [apply sane_put_dl; [exact Hs|constructor]|exact Ht|constructor].
  Qed.

  (** past the end of [es]: the failing environment that [download_all] substitutes *)
  Fixpoint truthful (ls : list layer) (es : list benv) : Prop :=
    match ls with
    | [] => True
    | l :: ls' => truthful_head (l_digest l) (match es with e :: _ => e | [] => mkBenv None false (fun _ => []) end) /\ truthful ls' (tl es)
    end.

  Lemma download_all_sane fx ls : forall st es skip, sane st -> truthful ls es ->
    sane (fst (fst (download_all H fx k st ls es skip))).
  Proof.
    induction ls as [|l ls IH]; intros st es skip Hs Ht; cbn [download_all fst]; [exact Hs|].
    destruct Ht as [Ht1 Ht2].
    destruct (negb (l_valid l)); [exact Hs|].
    pose proof (download_blob_sane fx st (l_digest l) _ Hs Ht1) as Hb.
    destruct (download_blob H fx k st (l_digest l) _) as [[st1 r] tr]. cbn [fst] in Hb.
    destruct r; [specialize (IH st1 (tl es) (set_key N.eqb (l_digest l) true skip) Hb Ht2)
                |specialize (IH st1 (tl es) (set_key N.eqb (l_digest l) false skip) Hb Ht2)|exact Hb].
    all: destruct (download_all H fx k st1 ls (tl es) _) as [[st2 sk] trs]; exact IH.
  Qed.

  Lemma verify_all_dl ls : forall st skip, s_dl (fst (verify_all H st ls skip)) = s_dl st.
  Proof.
    induction ls as [|l ls IH]; intros st skip; cbn [verify_all fst]; [reflexivity|].
    destruct (match lookup N.eqb (l_digest l) skip with Some true => true | _ => false end); [apply IH|].
    destruct (lookup N.eqb (l_digest l) (s_blobs st)); [|reflexivity].
    destruct (N.eqb (H b) (l_digest l)); [apply IH|reflexivity].
  Qed.

  Definition truthful_attempt (a : N * penv) : Prop :=
    match pe_manifest (snd a) with Some m => truthful (all_layers m) (pe_blobs (snd a)) | None => True end.

  Lemma pull_sane fx st a : sane st -> truthful_attempt a -> sane (pull_store (pull H fx k st (fst a) (snd a))).
  Proof.
    intros Hs Ht. unfold pull, truthful_attempt, pull_store in *.
    destruct (pe_manifest (snd a)) as [m|]; [|exact Hs].
    pose proof (download_all_sane fx (all_layers m) st (pe_blobs (snd a)) [] Hs Ht) as Ha.
    destruct (download_all H fx k st (all_layers m) (pe_blobs (snd a)) []) as [[st1 sk] trs]. cbn [fst] in Ha.
    destruct sk as [skip|]; [|exact Ha].
    pose proof (verify_all_dl (all_layers m) st1 skip) as Hv.
    destruct (verify_all H st1 (all_layers m) skip) as [st2 ok]. cbn [fst] in Hv.
    destruct (negb ok); cbn [fst]; (eapply sane_same_dl; [|exact Ha]); [exact Hv|].
    rewrite (proj1 (proj2 (prune_spec _ _))). exact Hv.
  Qed.

  Lemma history_sane h : forall st, sane st -> Forall truthful_attempt h -> sane (run_history H k st h).
  Proof.
    induction h as [|a h IH]; intros st Hs Hf; [exact Hs|].
    inversion Hf as [|? ? Ha Hh]; subst. apply (IH (step H k st a)); [|exact Hh]. apply (pull_sane true st a Hs Ha).
  Qed.

  Definition published (ls : list layer) : Prop := forall l, In l ls -> l_valid l = true /\ H (content (l_digest l)) = l_digest l.

  Lemma truthful_head_clean d : truthful_head d (clean_benv k (content d)).
  Proof. intros t [= <-]. reflexivity. Qed.

  Lemma truthful_clean ls : truthful ls (map (fun l => clean_benv k (content (l_digest l))) ls).
  Proof. induction ls as [|l ls IH]; [exact I|]. split; [apply truthful_head_clean|exact IH]. Qed.

  (** [d] has part records that a download would resume from *)
  Definition staleb (st : store) (d : digest) : bool :=
    match lookup N.eqb d (s_dl st) with
    | Some x => match d_parts x with [] => false | _ => true end
    | None => false
    end.
  Definition less_stale (st st' : store) : Prop := forall d, staleb st' d = true -> staleb st d = true.
  (** the measure: layers whose download would resume from records *)
  Definition mu (st : store) (ls : list layer) : nat := length (filter (fun l => staleb st (l_digest l)) ls).

  Lemma less_stale_refl st : less_stale st st.
  Proof. intros d E. exact E. Qed.
  Lemma less_stale_trans a b c : less_stale a b -> less_stale b c -> less_stale a c.
  Proof. intros H1 H2 d Hd. apply H1, H2, Hd. Qed.

  Lemma mu_cons st l ls : mu st (l :: ls) = (Nat.b2n (staleb st (l_digest l)) + mu st ls)%nat.
  Proof. unfold mu. cbn [filter]. destruct (staleb st (l_digest l)); reflexivity. Qed.

  Lemma less_stale_b2n st st' d : less_stale st st' -> (Nat.b2n (staleb st' d) <= Nat.b2n (staleb st d))%nat.
  Proof. intros Hl. destruct (staleb st' d) eqn:E; [rewrite (Hl d E)|]; cbn; lia. Qed.

  Lemma mu_mono st st' ls : less_stale st st' -> (mu st' ls <= mu st ls)%nat.
  Proof.
    intros Hl. induction ls as [|l ls IH]; [reflexivity|].
    rewrite !mu_cons. pose proof (less_stale_b2n st st' (l_digest l) Hl). lia.
  Qed.

  Lemma mu_le_length st ls : (mu st ls <= length ls)%nat.
  Proof.
    induction ls as [|l ls IH]; [reflexivity|].
    rewrite mu_cons. destruct (staleb st (l_digest l)); cbn [Nat.b2n length]; lia.
  Qed.

  Lemma mu_no_dl st ls : s_dl st = [] -> mu st ls = O.
  Proof. intros He. unfold mu, staleb. rewrite He. induction ls as [|l ls IH]; [reflexivity|exact IH]. Qed.

  Hypothesis Hretries : c_retries k <> O.

  Lemma run_part_clean c p d : part_sane c p ->
    run_part (c_retries k) p d (be_chunks (clean_benv k c) (poff p + psize p - 1))
    = (mkPart (poff p) (psize p) (psize p), write_at d (Z.to_nat (poff p + pdone p)) (slice c (poff p + pdone p, poff p + psize p - 1)), POk,
       [(poff p + pdone p, poff p + psize p - 1)]).
  Proof.
    intros Hs. cbn [be_chunks clean_benv]. destruct (c_retries k) as [|t]; [contradiction|]. cbn [repeat run_part]. rewrite (chunk_clean c p d Hs). reflexivity.
  Qed.

  Lemma run_parts_clean_ok c ps : forall d, Forall (part_sane c) ps ->
    exists ps' d' rq, run_parts k ps d (be_chunks (clean_benv k c)) = (ps', d', true, rq).
  Proof.
    induction ps as [|p ps IH]; intros d Hf; cbn [run_parts].
    - eauto.
    - inversion Hf as [|? ? Hp Hps]; subst.
      destruct (pdone p =? psize p).
      + destruct (IH d Hps) as [ps' [d' [rq Hr]]]. rewrite Hr. eauto.
      + rewrite (run_part_clean c p d Hp). edestruct IH as [ps' [d' [rq Hr]]]; [exact Hps|]. rewrite Hr. eauto.
  Qed.

  (** a fresh layout over a file of the right length is filled with exactly the blob *)
  Lemma run_parts_fresh c mx ps : forall from d,
    tiles mx from (zlen c) ps -> 0 <= from -> length d = length c ->
    firstn (Z.to_nat from) d = firstn (Z.to_nat from) c ->
    exists ps' rq, run_parts k ps d (be_chunks (clean_benv k c)) = (ps', c, true, rq).
  Proof.
    induction ps as [|p ps IH]; intros from d Ht Hfrom Hlen Hpre; cbn [run_parts tiles] in *.
    - exists [], []. f_equal. f_equal. f_equal.
      subst from. unfold zlen in Hpre. rewrite Nat2Z.id in Hpre.
      rewrite <- (firstn_all d), <- (firstn_all c), Hlen. exact Hpre.
    - destruct Ht as [Hoff [Hsz [Hdone [Hle Ht]]]].
      assert (Hs : part_sane c p) by (unfold part_sane; lia).
      destruct (Z.eqb_spec (pdone p) (psize p)) as [E|_]; [lia|].
      rewrite (run_part_clean c p d Hs). rewrite Hdone, Z.add_0_r, Hoff.
      set (b := slice c (from, from + psize p - 1)).
      assert (Hbl : length b = Z.to_nat (psize p)).
      { assert (Hzl : zlen b = psize p) by (unfold b; rewrite slice_length; lia). unfold zlen in Hzl. lia. }
      assert (Hin : (Z.to_nat from + length b <= length d)%nat) by (rewrite Hbl, Hlen; unfold zlen in Hle; lia).
      destruct (IH (from + psize p) (write_at d (Z.to_nat from) b)) as [ps' [rq Hr]].
      + exact Ht.
      + lia.
      + rewrite write_at_length_inside by exact Hin. exact Hlen.
      + replace (Z.to_nat (from + psize p)) with (Z.to_nat from + length b)%nat by lia.
        apply write_at_prefix; [exact Hin|exact Hpre|].
        rewrite Hbl. unfold b, slice. cbn [fst snd].
        replace (from + psize p - 1 + 1 - from) with (psize p) by lia. reflexivity.
      + rewrite Hr. eauto.
  Qed.

  (** resumed records all complete, but the file they were filling may hold wrong bytes: then verification fails and
      file and records are removed *)
  Lemma download_from_clean st d old st' r tr :
    download_from H true k st d (clean_benv k (content d)) old = (st', r, tr) ->
    H (content d) = d -> Forall (part_sane (content d)) (d_parts old) ->
    lookup N.eqb d (s_dl st') = None /\ (r = DErr -> d_parts old <> []).
  Proof.
    intros Hd Hc Hold. unfold download_from in Hd. set (ch := be_chunks _) in Hd.
    assert (Hdrop : forall s, lookup N.eqb d (s_dl (drop_dl d s)) = None)
      by (intros s; cbn [drop_dl s_dl]; rewrite lookup_remove, N.eqb_refl; reflexivity).
    destruct (d_parts old) as [|p ps]; cbn [be_head be_direct clean_benv negb] in Hd; set (f0 := resize _ _) in Hd.
    - destruct (run_parts_fresh (content d) _ _ 0 f0 (layout_tiles k (zlen (content d)) Hk ltac:(unfold zlen; lia)))
        as [ps' [rq Hr]]; [lia|unfold f0; rewrite resize_length; unfold zlen; lia|reflexivity|].
      subst ch. rewrite Hr in Hd. cbn [negb andb] in Hd. rewrite Hc, N.eqb_refl in Hd. injection Hd as <- <- <-.
      split; [apply Hdrop|discriminate].
    - destruct (run_parts_clean_ok (content d) (p :: ps) f0 Hold) as [ps' [d' [rq Hr]]].
      subst ch. rewrite Hr in Hd. cbn [negb andb] in Hd.
      destruct (negb (N.eqb (H d') d)); injection Hd as <- <- <-; (split; [apply Hdrop|discriminate]).
  Qed.

  Lemma download_blob_clean st d st' r tr :
    download_blob H true k st d (clean_benv k (content d)) = (st', r, tr) ->
    blobs_ok H st -> H (content d) = d -> sane st ->
    less_stale st st' /\ (r = DErr -> staleb st d = true /\ staleb st' d = false).
  Proof.
    intros Hd Hok Hc Hs.
    destruct (download_blob_spec H k _ _ _ _ _ _ Hd Hok) as (_ & _ & _ & Hoff & _).
    unfold download_blob in Hd. destruct (lookup N.eqb d (s_blobs st)).
    { injection Hd as <- <- <-. split; [apply less_stale_refl|discriminate]. }
    (* the call went through download_from: [d] has no resume state afterwards, and it fails only if it resumed *)
    assert (Hd' : lookup N.eqb d (s_dl st') = None /\ (r = DErr -> staleb st d = true)).
    { set (old := match lookup N.eqb d (s_dl st) with Some x => x | None => mkDl None [] end) in Hd.
      assert (Hold : Forall (part_sane (content d)) (d_parts old) /\ (d_parts old <> [] -> staleb st d = true)).
      { unfold old, staleb. destruct (lookup N.eqb d (s_dl st)) as [x|] eqn:Hx.
        - split; [exact (Hs d x Hx)|]. destruct (d_parts x); congruence.
        - split; [apply Forall_nil|cbn [d_parts]; congruence]. }
      destruct Hold as [Hold Hst]. destruct (usable old).
      - destruct (download_from_clean _ _ _ _ _ _ Hd Hc Hold) as [Hn He]. auto.
      - destruct (download_from_clean _ _ _ _ _ _ Hd Hc (Forall_nil _)) as [Hn He].
        split; [exact Hn|]. intros E. destruct (He E eq_refl). }
    destruct Hd' as [Hn He].
    assert (Hf : staleb st' d = false) by (unfold staleb; rewrite Hn; reflexivity).
    split; [|auto]. intros d' E. destruct (N.eq_dec d' d) as [->|Hne]; [congruence|].
    unfold staleb in *. rewrite <- (Hoff d' Hne). exact E.
  Qed.

  Lemma download_all_clean ls : forall st skip st' sk trs,
    download_all H true k st ls (map (fun l => clean_benv k (content (l_digest l))) ls) skip = (st', sk, trs) ->
    published ls -> blobs_ok H st -> sane st ->
    less_stale st st' /\ (sk = None -> (mu st' ls < mu st ls)%nat).
  Proof.
    induction ls as [|l ls IH]; intros st skip st' sk trs Hd Hpub Hok Hs; cbn [download_all map tl] in Hd.
    { injection Hd as <- <- <-. split; [apply less_stale_refl|discriminate]. }
    destruct (Hpub l (or_introl eq_refl)) as [Hval Hc]. rewrite Hval in Hd. cbn [negb] in Hd.
    assert (Hpub' : published ls) by (intros l' Hin; apply Hpub; right; exact Hin).
    destruct (download_blob H true k st (l_digest l) _) as [[st1 r] tr] eqn:Hb.
    destruct (download_blob_clean _ _ _ _ _ Hb Hok Hc Hs) as [Hls1 Herr].
    destruct (download_blob_spec H k _ _ _ _ _ _ Hb Hok) as (Hok1 & _).
    pose proof (download_blob_sane true st (l_digest l) _ Hs (truthful_head_clean (l_digest l))) as Hs1.
    rewrite Hb in Hs1. cbn [fst] in Hs1.
    pose proof (mu_mono st st1 ls Hls1) as Hmu.
    destruct r.
    3:{ (* this layer's stale records were consumed *)
      injection Hd as <- <- <-. destruct (Herr eq_refl) as [E E1]. split; [exact Hls1|intros _].
      rewrite !mu_cons, E, E1. cbn [Nat.b2n]. lia. }
    all: destruct (download_all H true k st1 ls _ _) as [[st2 sk2] trs2] eqn:Ha; injection Hd as <- <- <-.
    all: destruct (IH _ _ _ _ _ Ha Hpub' Hok1 Hs1) as [Hls2 Hlt].
    all: pose proof (less_stale_trans _ _ _ Hls1 Hls2) as Hls; split; [exact Hls|].
    all: intros E; specialize (Hlt E); rewrite !mu_cons.
    all: pose proof (less_stale_b2n st st2 (l_digest l) Hls); lia.
  Qed.

  Lemma pull_clean st name m st' r trs :
    pull H true k st name (clean_penv k content m) = (st', r, trs) ->
    published (all_layers m) -> blobs_ok H st -> sane st ->
    r = PFail -> blobs_ok H st' /\ sane st' /\ (mu st' (all_layers m) < mu st (all_layers m))%nat.
  Proof.
    intros Hp Hpub Hok Hs. unfold pull, clean_penv in Hp. cbn [pe_manifest pe_blobs] in Hp.
    destruct (download_all H true k st (all_layers m) _ []) as [[st1 sk] trs1] eqn:Ha.
    destruct (download_all_spec H k _ _ _ _ _ _ _ Ha Hok) as (Hok1 & _ & _ & Hl1).
    destruct (download_all_clean _ _ _ _ _ _ Ha Hpub Hok Hs) as [_ Hlt].
    pose proof (download_all_sane true _ st _ [] Hs (truthful_clean (all_layers m))) as Hs1. rewrite Ha in Hs1.
    destruct sk as [skip|].
    - rewrite (verify_all_present H _ st1 skip (Hl1 ltac:(discriminate))) in Hp. injection Hp as <- <- <-. discriminate.
    - injection Hp as <- <- <-. auto.
  Qed.

  Lemma iter_n_succ_r {A} n (f : A -> A) x : iter_n (S n) f x = iter_n n f (f x).
  Proof. induction n as [|n IH]; [reflexivity|]. cbn [iter_n] in *. rewrite IH. reflexivity. Qed.

  (** induction on a bound [n] of the measure: a failing attempt lowers [mu] ([pull_clean]) *)
  Theorem retry_succeeds name m : forall n st,
    published (all_layers m) -> blobs_ok H st -> sane st -> (mu st (all_layers m) <= n)%nat ->
    exists j, (j <= n)%nat /\
      pull_result (pull H true k (iter_n j (fun s => pull_store (pull H true k s name (clean_penv k content m))) st)
                        name (clean_penv k content m)) = PSuccess.
  Proof.
    induction n as [|n IH]; intros st Hpub Hok Hs Hmu.
    all: destruct (pull H true k st name (clean_penv k content m)) as [[st' r] trs] eqn:Hp.
    all: destruct r; [exists O; split; [lia|]; cbn [iter_n]; rewrite Hp; reflexivity|].
    all: destruct (pull_clean _ _ _ _ _ _ Hp Hpub Hok Hs eq_refl) as (Hok' & Hs' & Hlt).
    1: exfalso; lia.
    destruct (IH st' Hpub Hok' Hs' ltac:(lia)) as [j [Hj Hsucc]].
    exists (S j). split; [lia|]. rewrite iter_n_succ_r, Hp. exact Hsucc.
  Qed.

  Theorem retry_after_history h name m :
    Forall truthful_attempt h -> published (all_layers m) ->
    exists j, (j <= length (all_layers m))%nat /\
      pull_result (pull H true k (iter_n j (fun s => pull_store (pull H true k s name (clean_penv k content m))) (run_history H k empty_store h))
                        name (clean_penv k content m)) = PSuccess.
  Proof.
    intros Hf Hpub. apply retry_succeeds; [exact Hpub|apply history_ok| |apply mu_le_length].
    apply history_sane; [intros d x; discriminate|exact Hf].
  Qed.

  Theorem retry_after_restart st name m :
    published (all_layers m) -> blobs_ok H st -> names_sound H st ->
    names_sound H (startup_prune st) /\ pull_result (pull H true k (startup_prune st) name (clean_penv k content m)) = PSuccess.
  Proof.
    intros Hpub Hok Hns. destruct (startup_prune_inv H st Hok Hns) as [Hok' Hns']. split; [exact Hns'|].
    destruct (retry_succeeds name m 0 (startup_prune st) Hpub Hok') as [j [Hj Hsucc]].
    - intros d x. discriminate.
    - rewrite mu_no_dl by reflexivity. lia.
    - replace j with O in Hsucc by lia. exact Hsucc.
  Qed.
End Retry.

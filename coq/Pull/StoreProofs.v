(** Invariants of the store under downloadBlob / PullModel (model: Pull/Download.v), for every environment. *)
From Coq Require Import List NArith ZArith Bool Lia.
From V Require Import Pull.Download.
Import ListNotations.
Open Scope Z_scope.

Section AssocN.
  Context {V : Type}.
  Implicit Types (l : list (N * V)) (k : N).

  Lemma lookup_filter_key (P : N -> bool) l k :
    lookup N.eqb k (filter (fun kv => P (fst kv)) l) = if P k then lookup N.eqb k l else None.
  Proof.
    induction l as [|[k' v] l IH]; cbn [filter lookup fst]; [destruct (P k); reflexivity|].
    destruct (N.eqb_spec k k') as [<-|Hne].
    - destruct (P k); cbn [lookup]; [rewrite N.eqb_refl; reflexivity|exact IH].
    - destruct (P k'); cbn [lookup]; [|exact IH].
      destruct (N.eqb_spec k k'); [contradiction|exact IH].
  Qed.

  Lemma lookup_remove k k' l : lookup N.eqb k (remove_key N.eqb k' l) = if N.eqb k k' then None else lookup N.eqb k l.
  Proof.
    unfold remove_key. rewrite (lookup_filter_key (fun x => negb (N.eqb k' x))), (N.eqb_sym k').
    destruct (N.eqb k k'); reflexivity.
  Qed.

  Lemma lookup_set k k' v l : lookup N.eqb k (set_key N.eqb k' v l) = if N.eqb k k' then Some v else lookup N.eqb k l.
  Proof. unfold set_key. cbn [lookup]. rewrite lookup_remove. destruct (N.eqb k k'); reflexivity. Qed.

  Lemma lookup_In k v l : lookup N.eqb k l = Some v -> In (k, v) l.
  Proof.
    induction l as [|[k' v'] l IH]; cbn; [discriminate|].
    destruct (N.eqb_spec k k') as [<-|_].
    - intros [= ->]. left. reflexivity.
    - intros Hl. right. exact (IH Hl).
  Qed.
End AssocN.

Lemma memb_In d l : memb d l = true <-> In d l.
Proof.
  unfold memb. rewrite existsb_exists. split.
  - intros [x [Hin Hx]]. apply N.eqb_eq in Hx. subst. exact Hin.
  - intros Hin. exists d. split; [exact Hin|apply N.eqb_refl].
Qed.

Section Inv.
  Variable H : bytes -> digest.
  Variable k : consts.

  Definition blobs_ok (st : store) : Prop :=
    forall d c, lookup N.eqb d (s_blobs st) = Some c -> H c = d.
  Definition layer_ok (st : store) (l : layer) : Prop :=
    exists c, lookup N.eqb (l_digest l) (s_blobs st) = Some c /\ H c = l_digest l.
  Definition names_sound (st : store) : Prop :=
    forall n m, lookup N.eqb n (s_man st) = Some m -> forall l, In l (all_layers m) -> layer_ok st l.
  Definition blobs_grow (st st' : store) : Prop :=
    forall d c, lookup N.eqb d (s_blobs st) = Some c -> lookup N.eqb d (s_blobs st') = Some c.

  Lemma blobs_grow_refl st : blobs_grow st st.
  Proof. intros d c Hl. exact Hl. Qed.
  Lemma blobs_grow_trans a b c : blobs_grow a b -> blobs_grow b c -> blobs_grow a c.
  Proof. intros H1 H2 d x Hl. apply H2, H1, Hl. Qed.
  Lemma layer_ok_grow st st' l : blobs_grow st st' -> layer_ok st l -> layer_ok st' l.
  Proof. intros Hg [c [Hl Hc]]. exists c. split; [apply Hg, Hl|exact Hc]. Qed.

  Lemma blobs_ok_empty : blobs_ok empty_store.
  Proof. intros d c. cbn. discriminate. Qed.
  Lemma names_sound_empty : names_sound empty_store.
  Proof. intros n m. cbn. discriminate. Qed.

  Definition dl_off (d : digest) (st st' : store) : Prop :=
    forall d', d' <> d -> lookup N.eqb d' (s_dl st') = lookup N.eqb d' (s_dl st).

  Lemma dl_off_set d x st : dl_off d st (set_dl d x st).
  Proof. intros d' Hne. cbn [set_dl s_dl]. rewrite lookup_set. destruct (N.eqb_spec d' d); [contradiction|reflexivity]. Qed.
  Lemma dl_off_drop d st : dl_off d st (drop_dl d st).
  Proof. intros d' Hne. cbn [drop_dl s_dl]. rewrite lookup_remove. destruct (N.eqb_spec d' d); [contradiction|reflexivity]. Qed.

  (** what a downloadBlob call for [d] with result [r] may do to the store *)
  Definition blob_step (d : digest) (st st' : store) (r : dres) : Prop :=
    blobs_ok st' /\ blobs_grow st st' /\ s_man st' = s_man st /\ dl_off d st st'
    /\ (r <> DErr -> exists c, lookup N.eqb d (s_blobs st') = Some c /\ H c = d).

  Lemma blob_step_err d st st' :
    blobs_ok st -> s_blobs st' = s_blobs st -> s_man st' = s_man st -> dl_off d st st' -> blob_step d st st' DErr.
  Proof.
    intros Hok Eb Em Ed. unfold blob_step, blobs_ok, blobs_grow. rewrite Eb.
    repeat split; auto. intros Hne. exfalso. apply Hne. reflexivity.
  Qed.

  Lemma download_from_spec st d e old st' r tr :
    download_from H true k st d e old = (st', r, tr) ->
    lookup N.eqb d (s_blobs st) = None -> blobs_ok st -> blob_step d st st' r.
  Proof.
    unfold download_from. intros Hd Hl Hok.
    destruct (match d_parts old with [] => _ | _ => _ end) as [[[ps total] headed]|].
    2:{ injection Hd as <- <- <-. apply blob_step_err; auto. intros d' _. reflexivity. }
    destruct (negb (be_direct e)).
    { injection Hd as <- <- <-. apply blob_step_err; auto using dl_off_set. }
    destruct (run_parts k ps _ (be_chunks e)) as [[[ps1 f1] ok] rq].
    destruct (negb ok).
    { injection Hd as <- <- <-. apply blob_step_err; auto using dl_off_set. }
    cbn [andb] in Hd. destruct (N.eqb_spec (H f1) d) as [Hv|_]; cbn [negb] in Hd; injection Hd as <- <- <-.
    2:{ apply blob_step_err; auto using dl_off_drop. }
    repeat split; [| |exact (dl_off_drop d st)|].
    - intros d' c'. cbn [add_blob s_blobs]. rewrite lookup_set. destruct (N.eqb_spec d' d) as [->|_]; [intros [= <-]; exact Hv|apply Hok].
    - intros d' c' Hl'. cbn [add_blob s_blobs]. rewrite lookup_set. destruct (N.eqb_spec d' d) as [->|_]; [congruence|exact Hl'].
    - intros _. exists f1. cbn [add_blob s_blobs]. rewrite lookup_set, N.eqb_refl. split; [reflexivity|exact Hv].
  Qed.

  Lemma put_dl_blobs d x st : s_blobs (put_dl d x st) = s_blobs st.
  Proof. unfold put_dl. destruct (d_file x), (d_parts x); reflexivity. Qed.
  Lemma put_dl_man d x st : s_man (put_dl d x st) = s_man st.
  Proof. unfold put_dl. destruct (d_file x), (d_parts x); reflexivity. Qed.
  Lemma put_dl_off d x st : dl_off d st (put_dl d x st).
  Proof. unfold put_dl. destruct (d_file x), (d_parts x); auto using dl_off_set, dl_off_drop. Qed.

  Lemma download_blob_spec st d e st' r tr :
    download_blob H true k st d e = (st', r, tr) -> blobs_ok st -> blob_step d st st' r.
  Proof.
    unfold download_blob. intros Hd Hok.
    destruct (lookup N.eqb d (s_blobs st)) as [c|] eqn:Hl.
    - injection Hd as <- <- <-. repeat split; auto using blobs_grow_refl.
      intros _. exists c. split; [exact Hl|]. apply Hok. exact Hl.
    - destruct (usable _); [exact (download_from_spec _ _ _ _ _ _ _ Hd Hl Hok)|].
      (* the unusable records are discarded first: this touches [d]'s resume state only *)
      apply download_from_spec in Hd; [|rewrite put_dl_blobs; exact Hl|unfold blobs_ok; rewrite put_dl_blobs; exact Hok].
      unfold blob_step, blobs_grow in *. rewrite put_dl_blobs, put_dl_man in Hd. destruct Hd as (H1 & H2 & H3 & H4 & H5).
      repeat split; auto. intros d' Hne. rewrite H4 by exact Hne. apply put_dl_off, Hne.
  Qed.

  Lemma download_all_spec ls : forall st es skip st' sk trs,
    download_all H true k st ls es skip = (st', sk, trs) ->
    blobs_ok st ->
    blobs_ok st' /\ blobs_grow st st' /\ s_man st' = s_man st
    /\ (sk <> None -> forall l, In l ls -> layer_ok st' l).
  Proof.
    induction ls as [|l ls IH]; intros st es skip st' sk trs Hd Hok; cbn in Hd.
    { injection Hd as <- <- <-. repeat split; auto using blobs_grow_refl. intros _ l []. }
    destruct (negb (l_valid l)).
    { injection Hd as <- <- <-. repeat split; auto using blobs_grow_refl. intros Hne. exfalso. apply Hne. reflexivity. }
    destruct (download_blob H true k st (l_digest l) _) as [[st1 r] tr] eqn:Hb.
    destruct (download_blob_spec _ _ _ _ _ _ Hb Hok) as (Hok1 & Hg1 & Hm1 & _ & Hr1).
    destruct r; [| |injection Hd as <- <- <-; repeat split; auto; intros Hne; exfalso; apply Hne; reflexivity].
    (* a cache hit and a download go on in the same way *)
    all: destruct (download_all H true k st1 ls (tl es) _) as [[st2 sk2] trs2] eqn:Ha; injection Hd as <- <- <-.
    all: destruct (IH _ _ _ _ _ _ Ha Hok1) as (Hok2 & Hg2 & Hm2 & Hl2).
    all: repeat split; [exact Hok2|eapply blobs_grow_trans; eassumption|congruence|].
    all: intros Hne l' [<-|Hin]; [|apply Hl2; assumption].
    all: eapply layer_ok_grow; [exact Hg2|]; apply Hr1; discriminate.
  Qed.

  Lemma verify_all_present ls : forall st skip, (forall l, In l ls -> layer_ok st l) -> verify_all H st ls skip = (st, true).
  Proof.
    induction ls as [|l ls IH]; intros st skip Hl; cbn [verify_all]; [reflexivity|].
    assert (Hls : forall l', In l' ls -> layer_ok st l') by (intros l' Hin; apply Hl; right; exact Hin).
    destruct (match lookup N.eqb (l_digest l) skip with Some true => true | _ => false end); [apply IH, Hls|].
    destruct (Hl l (or_introl eq_refl)) as [c [Hc1 Hc2]]. rewrite Hc1, Hc2, N.eqb_refl. apply IH, Hls.
  Qed.

  Definition referenced (st : store) : list digest := flat_map (fun nm => digests_of (snd nm)) (s_man st).

  Lemma referenced_layer st n m l :
    lookup N.eqb n (s_man st) = Some m -> In l (all_layers m) -> memb (l_digest l) (referenced st) = true.
  Proof.
    intros Hl Hin. apply memb_In, in_flat_map. exists (n, m). split; [apply lookup_In, Hl|].
    cbn. unfold digests_of. apply in_map, Hin.
  Qed.

  Lemma drop_unreferenced st st' :
    s_man st' = s_man st ->
    (forall d c, lookup N.eqb d (s_blobs st') = Some c -> lookup N.eqb d (s_blobs st) = Some c) ->
    (forall d, memb d (referenced st) = true -> lookup N.eqb d (s_blobs st') = lookup N.eqb d (s_blobs st)) ->
    blobs_ok st -> names_sound st -> blobs_ok st' /\ names_sound st'.
  Proof.
    intros Em Hsub Hkeep Hok Hns. split.
    - intros d c Hl. apply Hok, Hsub, Hl.
    - intros n m Hl l Hin. rewrite Em in Hl. destruct (Hns n m Hl l Hin) as [c [Hc1 Hc2]].
      exists c. split; [|exact Hc2]. rewrite (Hkeep _ (referenced_layer st n m l Hl Hin)). exact Hc1.
  Qed.

  (** the body of the [fold_left] in [prune], with the list of referenced digests as a parameter *)
  Definition prune_step (used : list digest) (s : store) (d : digest) : store := if memb d used then s else drop_blob d s.

  Lemma prune_fold used del : forall st,
    let st' := fold_left (prune_step used) del st in
    s_man st' = s_man st /\ s_dl st' = s_dl st /\
    forall d, lookup N.eqb d (s_blobs st') = if memb d del && negb (memb d used) then None else lookup N.eqb d (s_blobs st).
  Proof.
    induction del as [|x del IH]; intros st; cbn [fold_left].
    { repeat split. }
    destruct (IH (prune_step used st x)) as (Hm & Hd & Hl). cbn zeta.
    assert (Hx : s_man (prune_step used st x) = s_man st /\ s_dl (prune_step used st x) = s_dl st)
      by (unfold prune_step; destruct (memb x used); split; reflexivity).
    split; [rewrite Hm; apply Hx|]. split; [rewrite Hd; apply Hx|].
    intros d. rewrite Hl. change (memb d (x :: del)) with (N.eqb d x || memb d del).
    unfold prune_step. destruct (memb x used) eqn:Eu.
    - destruct (N.eqb_spec d x) as [->|_]; [rewrite Eu, !andb_false_r|]; reflexivity.
    - cbn [drop_blob s_blobs]. rewrite lookup_remove. destruct (N.eqb_spec d x) as [->|_]; [|reflexivity].
      rewrite Eu. destruct (memb x del); reflexivity.
  Qed.

  Lemma prune_spec del st :
    s_man (prune del st) = s_man st /\ s_dl (prune del st) = s_dl st /\
    forall d, lookup N.eqb d (s_blobs (prune del st))
              = if memb d del && negb (memb d (referenced st)) then None else lookup N.eqb d (s_blobs st).
  Proof. exact (prune_fold (referenced st) del st). Qed.

  Lemma prune_inv del st : blobs_ok st -> names_sound st -> blobs_ok (prune del st) /\ names_sound (prune del st).
  Proof.
    destruct (prune_spec del st) as (Em & _ & Hl). apply drop_unreferenced; [exact Em| |].
    - intros d c. rewrite Hl. destruct (_ && _); [discriminate|auto].
    - intros d Hu. rewrite Hl, Hu, andb_false_r. reflexivity.
  Qed.

  Lemma startup_prune_inv st : blobs_ok st -> names_sound st -> blobs_ok (startup_prune st) /\ names_sound (startup_prune st).
  Proof.
    assert (Hl : forall d, lookup N.eqb d (s_blobs (startup_prune st))
                           = if memb d (referenced st) then lookup N.eqb d (s_blobs st) else None)
      by (intros d; apply (lookup_filter_key (fun x => memb x (referenced st)))).
    apply drop_unreferenced; [reflexivity| |].
    - intros d c. rewrite Hl. destruct (memb d _); [auto|discriminate].
    - intros d Hu. rewrite Hl, Hu. reflexivity.
  Qed.

  Theorem pull_spec st name e st' r trs :
    pull H true k st name e = (st', r, trs) ->
    blobs_ok st -> names_sound st ->
    blobs_ok st' /\ names_sound st'
    /\ (r = PFail -> s_man st' = s_man st /\ blobs_grow st st')
    /\ (r = PSuccess -> exists m, pe_manifest e = Some m /\ lookup N.eqb name (s_man st') = Some m
                                  /\ (forall n, n <> name -> lookup N.eqb n (s_man st') = lookup N.eqb n (s_man st))
                                  /\ forall l, In l (all_layers m) -> layer_ok st' l).
  Proof.
    unfold pull. intros Hp Hok Hns.
    destruct (pe_manifest e) as [m|].
    2:{ injection Hp as <- <- <-. repeat split; auto using blobs_grow_refl. discriminate. }
    destruct (download_all H true k st (all_layers m) (pe_blobs e) []) as [[st1 sk] trs1] eqn:Ha.
    destruct (download_all_spec _ _ _ _ _ _ _ Ha Hok) as (Hok1 & Hg1 & Hm1 & Hl1).
    assert (Hns1 : names_sound st1).
    { intros n m' Hl l Hin. rewrite Hm1 in Hl. eapply layer_ok_grow; [exact Hg1|]. eapply Hns; eassumption. }
    destruct sk as [skip|].
    2:{ injection Hp as <- <- <-. repeat split; auto. discriminate. }
    specialize (Hl1 ltac:(discriminate)).
    (* the download loop left every layer present and intact, so the verification loop cannot fail *)
    rewrite (verify_all_present _ st1 skip Hl1) in Hp. cbn [negb] in Hp. injection Hp as <- <- <-.
    set (st3 := mkStore (s_blobs st1) (s_dl st1) (set_key N.eqb name m (s_man st1))). set (del := filter _ _).
    assert (Hns3 : names_sound st3).
    { intros n m' Hl l Hin. cbn [st3 s_man] in Hl. rewrite lookup_set in Hl. destruct (N.eqb n name).
      - injection Hl as <-. apply Hl1, Hin.
      - exact (Hns1 n m' Hl l Hin). }
    destruct (prune_inv del st3 Hok1 Hns3) as [Hok' Hns']. destruct (prune_spec del st3) as (Em & _ & _).
    assert (Hname : lookup N.eqb name (s_man (prune del st3)) = Some m)
      by (rewrite Em; cbn [st3 s_man]; rewrite lookup_set, N.eqb_refl; reflexivity).
    repeat split; [exact Hok'|exact Hns'|discriminate|discriminate|].
    intros _. exists m. repeat split; [exact Hname| |exact (Hns' name m Hname)].
    intros n Hne. rewrite Em. cbn [st3 s_man]. rewrite lookup_set, Hm1. destruct (N.eqb_spec n name); [contradiction|reflexivity].
  Qed.

  (** [step] is [step_fx H true k] and [run_history empty_store] is [history_fx H true k] of Download.v *)
  Definition attempt := (N * penv)%type.
  Definition step (st : store) (a : attempt) : store := fst (fst (pull H true k st (fst a) (snd a))).
  Definition run_history (st : store) (h : list attempt) : store := fold_left step h st.

  Lemma history_inv h : forall st, blobs_ok st -> names_sound st ->
    blobs_ok (run_history st h) /\ names_sound (run_history st h).
  Proof.
    induction h as [|a h IH]; intros st Hok Hns; [split; assumption|].
    change (run_history st (a :: h)) with (run_history (step st a) h). unfold step.
    destruct (pull H true k st (fst a) (snd a)) as [[st' r] trs] eqn:Hp.
    destruct (pull_spec _ _ _ _ _ _ Hp Hok Hns) as (Hok' & Hns' & _). exact (IH st' Hok' Hns').
  Qed.

  Lemma history_ok h : blobs_ok (run_history empty_store h) /\ names_sound (run_history empty_store h).
  Proof. exact (history_inv h empty_store blobs_ok_empty names_sound_empty). Qed.
End Inv.

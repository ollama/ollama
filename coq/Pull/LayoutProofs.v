(** The part layout computed by blobDownload.Prepare tiles the blob: contiguous, non-empty parts from 0 to Total,
    none larger than the clamped part size. *)
From Coq Require Import List ZArith Lia.
From V Require Import Pull.Download.
Import ListNotations.
Open Scope Z_scope.

Fixpoint tiles (mx from to : Z) (ps : list part) : Prop :=
  match ps with
  | [] => from = to
  | p :: ps' => poff p = from /\ 0 < psize p <= mx /\ pdone p = 0 /\ from + psize p <= to /\ tiles mx (from + psize p) to ps'
  end.

(** [layout] starts the loop with fuel [total / part_size + 1]; every part but the last lowers the quotient by one *)
Lemma layout_loop_tiles fuel : forall total size offset,
  0 < size -> offset <= total -> (total - offset) / size < Z.of_nat fuel ->
  tiles size offset total (layout_loop fuel total size offset).
Proof.
  induction fuel as [|f IH]; intros total size offset Hs Ho Hf.
  - exfalso. assert (0 <= (total - offset) / size) by (apply Z.div_pos; lia). cbn in Hf. lia.
  - cbn [layout_loop]. destruct (Z.ltb_spec offset total) as [Hlt|Hge]; [|cbn; lia].
    destruct (Z.gtb_spec (offset + size) total) as [Hgt|Hle].
    + cbn [tiles poff psize pdone]. repeat split; try lia.
      replace (offset + (total - offset)) with total by lia.
      destruct f as [|f']; cbn [layout_loop].
      * reflexivity.
      * destruct (Z.ltb_spec total total); [lia|reflexivity].
    + cbn [tiles poff psize pdone]. repeat split; try lia.
      apply IH; try lia.
      replace (total - (offset + size)) with ((total - offset) + (-1) * size) by lia.
      rewrite Z.div_add by lia. lia.
Qed.

Lemma part_size_bounds k total :
  0 < c_min k <= c_max k -> c_min k <= part_size k total <= c_max k.
Proof.
  intros Hk. unfold part_size.
  destruct (Z.ltb_spec (total / c_num k) (c_min k)); [lia|].
  destruct (Z.gtb_spec (total / c_num k) (c_max k)); lia.
Qed.

Theorem layout_tiles k total :
  0 < c_min k <= c_max k -> 0 <= total ->
  tiles (part_size k total) 0 total (layout k total).
Proof.
  intros Hk Ht. pose proof (part_size_bounds k total Hk) as Hb.
  unfold layout. apply layout_loop_tiles; try lia.
  rewrite Nat2Z.inj_add, Z2Nat.id; [rewrite Z.sub_0_r; cbn; lia|].
  apply Z.div_pos; lia.
Qed.

Lemma tiles_mono mx mx' from to ps : mx <= mx' -> tiles mx from to ps -> tiles mx' from to ps.
Proof.
  intros Hle. revert from. induction ps as [|p ps IH]; intros from; cbn; [auto|].
  intros [H1 [H2 [H3 [H4 H5]]]]. repeat split; try lia. apply IH, H5.
Qed.

Lemma tiles_sum mx from to ps : tiles mx from to ps -> sum_sizes ps = to - from.
Proof.
  revert from. induction ps as [|p ps IH]; intros from; cbn [tiles sum_sizes fold_right]; [lia|].
  intros [H1 [H2 [H3 [H4 H5]]]]. fold (sum_sizes ps). rewrite (IH _ H5). lia.
Qed.

(** the number of parts: at most numDownloadParts + 1 unless the maximum part size forces more *)
Lemma tiles_count mx from to ps : 0 < mx -> tiles mx from to ps -> (to - from) <= Z.of_nat (length ps) * mx.
Proof.
  intros Hmx. revert from. induction ps as [|p ps IH]; intros from; cbn [tiles length]; [lia|].
  intros [H1 [H2 [H3 [H4 H5]]]]. specialize (IH _ H5). rewrite Nat2Z.inj_succ. nia.
Qed.

From Coq Require Import List NArith Bool Arith Lia.
From V Require Import Common.Bytes Pull.Challenge.
Import ListNotations.

Lemma scan_end_bounds rest : forall i, i <= scan_end rest i <= i + length rest.
Proof.
  induction rest as [|c rest IH]; intros i; cbn [scan_end length]; [lia|].
  destruct (N.eqb c 34).
  - destruct rest as [|c2 rest']; [lia|].
    destruct (negb (N.eqb c2 44)); [|lia].
    specialize (IH (S i)). cbn [length] in *. lia.
  - specialize (IH (S i)). lia.
Qed.

Lemma slice_ok s a b : a <= b -> b <= length s -> slice s a b = Ok (firstn (b - a) (skipn a s)).
Proof.
  intros H1 H2. unfold slice.
  destruct (Nat.leb_spec a b); [|lia]. destruct (Nat.leb_spec b (length s)); [|lia]. reflexivity.
Qed.

Lemma slice_panic s a b : length s < a -> slice s a b = Panic.
Proof.
  intros H1. unfold slice.
  destruct (Nat.leb_spec a b); cbn [andb]; [|reflexivity].
  destruct (Nat.leb_spec b (length s)); [lia|reflexivity].
Qed.

Lemma index_key_room header key i :
  index_of header (key ++ [61%N]) = Some i -> i + length key + 1 <= length header.
Proof.
  intros Hi. apply index_of_some in Hi as [a [b [-> [-> _]]]].
  rewrite !app_length. cbn [length]. lia.
Qed.

Lemma scan_slice_ok header st :
  st <= length header ->
  exists v, slice header st (scan_end (skipn st header) st) = Ok v.
Proof.
  intros Hst. pose proof (scan_end_bounds (skipn st header) st) as [Hlo Hhi].
  rewrite skipn_length in Hhi.
  eexists. apply slice_ok; lia.
Qed.

(** the start index is two past the key: one past the end exactly when the first [key=] ends the header *)
Theorem get_value_gen_panic_iff g header key :
  get_value_gen g header key = Panic <-> g = false /\ ends_at_key header key = true.
Proof.
  unfold get_value_gen, ends_at_key.
  destruct (index_of header (key ++ [61%N])) as [i|] eqn:Hi; [|split; [discriminate|intros [_ E]; discriminate]].
  pose proof (index_key_room _ _ _ Hi) as Hroom. rewrite Nat.eqb_eq.
  destruct (Nat.ltb_spec (length header) (i + length key + 2)) as [Hlt|Hge].
  - destruct g; cbn [andb]; [split; [discriminate|intros [E _]; discriminate]|].
    rewrite slice_panic by exact Hlt. split; [intros _; split; [reflexivity|lia]|reflexivity].
  - rewrite andb_false_r. destruct (scan_slice_ok header (i + length key + 2) Hge) as [v ->].
    split; [discriminate|intros [_ E]; lia].
Qed.

Lemma get_value_guarded_total header key : getValue header key <> Panic.
Proof. intros E. apply get_value_gen_panic_iff in E as [E _]. discriminate. Qed.

Lemma get_value_orig_panic_iff header key :
  getValue_orig header key = Panic <-> ends_at_key header key = true.
Proof. unfold getValue_orig. rewrite get_value_gen_panic_iff. split; [intros [_ E]; exact E|auto]. Qed.

Lemma get_value_gen_agrees g header key :
  getValue_orig header key <> Panic -> get_value_gen g header key = getValue_orig header key.
Proof.
  intros Hnp. unfold getValue_orig, get_value_gen in *.
  destruct (index_of header (key ++ [61%N])) as [i|] eqn:Hi; [|reflexivity].
  cbn [andb] in *. destruct (Nat.ltb_spec (length header) (i + length key + 2)); [|rewrite andb_false_r; reflexivity].
  exfalso. apply Hnp. apply slice_panic. lia.
Qed.

Lemma get_value_orig_agrees header key :
  getValue_orig header key <> Panic -> getValue_orig header key = getValue header key.
Proof. intros Hnp. symmetry. exact (get_value_gen_agrees true header key Hnp). Qed.

Lemma bind_no_panic {A B} (r : res A) (f : A -> res B) : r <> Panic -> (forall a, f a <> Panic) -> bind r f <> Panic.
Proof. intros Hr Hf. destruct r; [apply Hf|destruct Hr; reflexivity]. Qed.

Lemma parse_challenge_total auth : parseRegistryChallenge auth <> Panic.
Proof.
  unfold parseRegistryChallenge, parse_challenge_gen.
  do 3 (apply bind_no_panic; [apply get_value_guarded_total|intros ?]). discriminate.
Qed.

Lemma scan_end_value v tl : forall i,
  (forall c, In c v -> c <> 34%N) ->
  match tl with [] => True | c :: _ => c = 44%N end ->
  scan_end (v ++ 34%N :: tl) i = i + length v.
Proof.
  induction v as [|c v IH]; intros i Hv Htl; cbn [scan_end app length].
  - rewrite N.eqb_refl. destruct tl as [|c2 tl]; [lia|]. subst c2. cbn. lia.
  - destruct (N.eqb_spec c 34) as [E|NE]; [exfalso; apply (Hv c); [left; reflexivity|exact E]|].
    rewrite IH; [lia| |exact Htl]. intros c' Hc'. apply Hv. right. exact Hc'.
Qed.

Lemma index_of_first pre t rest :
  t <> [] -> ~ Infix t (pre ++ removelast t) -> index_of (pre ++ t ++ rest) t = Some (length pre).
Proof.
  intros Ht Hfirst. destruct (index_of (pre ++ t ++ rest) t) as [i|] eqn:Hi.
  2:{ apply index_of_none in Hi. destruct Hi. exists pre, rest. reflexivity. }
  apply index_of_some in Hi as (a & b & Hab & -> & Hmin). f_equal.
  pose proof (Hmin pre rest eq_refl) as Hle.
  destruct (Nat.eq_dec (length a) (length pre)) as [E|NE]; [exact E|]. destruct Hfirst.
  (* an earlier occurrence ends before the last byte of the one after [pre]: both are prefixes of the header *)
  pose proof (f_equal (@length N) (app_removelast_last 0%N Ht)) as Hlen. rewrite app_length in Hlen. cbn [length] in Hlen.
  destruct (Prefix_cmp (a ++ t) (pre ++ removelast t) (pre ++ t ++ rest)) as [r Hr].
  - exists b. rewrite Hab, app_assoc. reflexivity.
  - exists (last t 0%N :: rest). rewrite (app_removelast_last 0%N Ht) at 1. rewrite <- !app_assoc. reflexivity.
  - rewrite !app_length. lia.
  - exists a, r. rewrite Hr, app_assoc. reflexivity.
Qed.

(** key=QvQ (Q the double quote, no quote inside v) at the end of the header or before a comma yields v *)
Lemma get_value_gen_wellformed g pre key v tl :
  ~ Infix (key ++ [61%N]) (pre ++ removelast (key ++ [61%N])) ->
  (forall c, In c v -> c <> 34%N) ->
  match tl with [] => True | c :: _ => c = 44%N end ->
  get_value_gen g (pre ++ (key ++ [61%N]) ++ 34%N :: v ++ 34%N :: tl) key = Ok v.
Proof.
  intros Hfirst Hv Htl. unfold get_value_gen.
  rewrite index_of_first; [|destruct key; discriminate|exact Hfirst].
  set (l := pre ++ key ++ [61%N; 34%N]).
  replace (pre ++ (key ++ [61%N]) ++ 34%N :: v ++ 34%N :: tl) with (l ++ v ++ 34%N :: tl)
    by (unfold l; rewrite <- !app_assoc; reflexivity).
  replace (length pre + length key + 2) with (length l) by (unfold l; rewrite !app_length; cbn [length]; lia).
  assert (Hskip : skipn (length l) (l ++ v ++ 34%N :: tl) = v ++ 34%N :: tl)
    by (rewrite skipn_app, skipn_all, Nat.sub_diag; reflexivity).
  destruct (Nat.ltb_spec (length (l ++ v ++ 34%N :: tl)) (length l)) as [Hlt|_]; [rewrite app_length in Hlt; lia|].
  rewrite andb_false_r, Hskip, scan_end_value by assumption.
  rewrite slice_ok, Hskip by (rewrite ?app_length; lia).
  replace (length l + length v - length l) with (length v) by lia.
  rewrite firstn_app, firstn_all, Nat.sub_diag. cbn [firstn]. rewrite app_nil_r. reflexivity.
Qed.

Lemma get_value_wellformed pre key v post :
  ~ Infix (key ++ [61%N]) (pre ++ removelast (key ++ [61%N])) ->
  (forall c, In c v -> c <> 34%N) ->
  getValue (pre ++ (key ++ [61%N]) ++ 34%N :: v ++ 34%N :: 44%N :: post) key = Ok v.
Proof. intros Hfirst Hv. exact (get_value_gen_wellformed true pre key v (44%N :: post) Hfirst Hv eq_refl). Qed.

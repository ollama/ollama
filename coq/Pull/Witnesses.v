(** Concrete witnesses (vm_compute): the defects of the code at the pinned commit, and the two clauses that stay
    false on the model of the repaired code (known findings). *)
From Coq Require Import List NArith ZArith Bool Lia.
From V Require Import Common.Bytes Pull.Challenge Pull.Download.
Import ListNotations.
Open Scope Z_scope.

Lemma pull_eta (x : store * pres_pull * list dtrace) : x = (pull_store x, pull_result x, snd x).
Proof. destruct x as [[st r] trs]. reflexivity. Qed.

(** a toy hash: blob 1 is the byte string [1;1;1], blob 2 is [2;2] *)
Definition toyH (b : bytes) : digest :=
  match b with
  | [1; 1; 1]%N => 1%N
  | [2; 2]%N => 2%N
  | _ => 0%N
  end.
Definition toy_content (d : digest) : bytes :=
  if N.eqb d 1%N then [1; 1; 1]%N else if N.eqb d 2%N then [2; 2]%N else [].
Definition toyM : manifest := mkManifest [mkLayer 1%N 3 true; mkLayer 2%N 2 true] None.

Definition const_chunks (l : list (Z * list cresp)) := chunks_of l.

(** attempt 1: layer 1 arrives with a flipped byte, the HEAD request of layer 2 fails; attempt 2: fault-free *)
Definition corrupt_then_fail : penv :=
  mkPenv (Some toyM)
         [mkBenv (Some 3) true (const_chunks [(2, [CBody [1; 0; 1]%N EClean])]);
          mkBenv None true (const_chunks [])].
(** 7: the name pulled, here and below *)
Definition witness_history : list attempt := [(7%N, corrupt_then_fail)].

(** the code at the pinned commit: the second, fault-free attempt reports success with a corrupt layer 1 *)
Definition after_unrepaired := pull toyH false go_consts (history_fx toyH false go_consts witness_history) 7 (clean_penv go_consts toy_content toyM).
Lemma unrepaired_accepts_corrupt_layer :
  pull_result after_unrepaired = PSuccess /\
  lookup N.eqb 1%N (s_blobs (pull_store after_unrepaired)) = Some [1; 0; 1]%N /\
  toyH [1; 0; 1]%N <> 1%N.
Proof. vm_compute. repeat split; discriminate. Qed.

(** same history, repaired code: attempt 1 leaves nothing under the digest name, attempt 2 fetches the layer again *)
Definition after_repaired := pull toyH true go_consts (history_fx toyH true go_consts witness_history) 7 (clean_penv go_consts toy_content toyM).
Lemma repaired_refetches :
  s_blobs (history_fx toyH true go_consts witness_history) = [] /\
  pull_result after_repaired = PSuccess /\
  lookup N.eqb 1%N (s_blobs (pull_store after_repaired)) = Some [1; 1; 1]%N.
Proof. vm_compute. repeat split. Qed.

(** a manifest that names the same digest twice: one attempt is enough for the code at the pinned commit *)
Definition dupM : manifest := mkManifest [mkLayer 1%N 3 true; mkLayer 1%N 3 true] None.
Definition dup_env : penv :=
  mkPenv (Some dupM) [mkBenv (Some 3) true (const_chunks [(2, [CBody [1; 0; 1]%N EClean])]); mkBenv None false (const_chunks [])].
Lemma unrepaired_duplicate_digest :
  pull_result (pull toyH false go_consts empty_store 7 dup_env) = PSuccess /\
  lookup N.eqb 1%N (s_blobs (pull_store (pull toyH false go_consts empty_store 7 dup_env))) = Some [1; 0; 1]%N.
Proof. vm_compute. split; reflexivity. Qed.
Lemma repaired_duplicate_digest : pull_result (pull toyH true go_consts empty_store 7 dup_env) = PFail.
Proof. vm_compute. reflexivity. Qed.

(** known finding: the size recorded in the manifest is never compared with anything *)
Definition lieM : manifest := mkManifest [mkLayer 1%N 5 true] None.
Lemma size_never_checked :
  let r := pull toyH true go_consts empty_store 7 (clean_penv go_consts toy_content lieM) in
  pull_result r = PSuccess /\ lookup N.eqb 1%N (s_blobs (pull_store r)) = Some [1; 1; 1]%N /\ zlen [1; 1; 1]%N <> 5.
Proof. vm_compute. repeat split; discriminate. Qed.

(** known finding: a Content-Length that is too large, seen once at HEAD, is written into the part record; if that
    attempt then fails, every later attempt resumes from the record, asks for bytes that do not exist, and fails after
    maxRetries without touching the record *)
Definition oversize_head : penv :=
  mkPenv (Some toyM) [mkBenv (Some 1000) false (const_chunks [])].
Definition poisoned : store := history_fx toyH true go_consts [(7%N, oversize_head)].
Lemma poisoned_record : lookup N.eqb 1%N (s_dl poisoned) = Some (mkDl (Some (repeat 0%N 1000)) [mkPart 0 1000 0]).
Proof. vm_compute. reflexivity. Qed.
Lemma poisoned_retry_fails_and_changes_nothing :
  let r := pull toyH true go_consts poisoned 7 (clean_penv go_consts toy_content toyM) in
  pull_result r = PFail /\
  option_map d_parts (lookup N.eqb 1%N (s_dl (pull_store r))) = option_map d_parts (lookup N.eqb 1%N (s_dl poisoned)) /\
  s_blobs (pull_store r) = s_blobs poisoned /\ s_man (pull_store r) = s_man poisoned.
Proof. vm_compute. repeat split. Qed.

(** ... and for ever: the state after one failed clean retry is a fixed point of failing clean retries *)
Definition clean_retry (st : store) := pull toyH true go_consts st 7 (clean_penv go_consts toy_content toyM).
Definition retry_store (st : store) : store := pull_store (clean_retry st).
Lemma poisoned_fixed_point :
  retry_store (retry_store poisoned) = retry_store poisoned /\ pull_result (clean_retry (retry_store poisoned)) = PFail.
Proof. vm_compute. split; reflexivity. Qed.
Lemma poisoned_first : pull_result (clean_retry poisoned) = PFail.
Proof. exact (proj1 poisoned_retry_fails_and_changes_nothing). Qed.
Lemma poisoned_iter n : iter_n (S n) retry_store poisoned = retry_store poisoned.
Proof.
  induction n as [|n IH]; [reflexivity|].
  change (iter_n (S (S n)) retry_store poisoned) with (retry_store (iter_n (S n) retry_store poisoned)).
  rewrite IH. exact (proj1 poisoned_fixed_point).
Qed.
Lemma poisoned_for_ever n : pull_result (clean_retry (iter_n n retry_store poisoned)) = PFail.
Proof. destruct n as [|n]; [exact poisoned_first|]. rewrite poisoned_iter. exact (proj2 poisoned_fixed_point). Qed.

(** the retry clause is not vacuous: a truthful history that leaves resume state with a corrupt byte; the first
    fault-free attempt resumes, finds the digest wrong, removes everything and fails; the second one succeeds *)
Definition interrupted_corrupt : penv :=
  mkPenv (Some toyM) [mkBenv (Some 3) true (const_chunks [(2, [CBody [1; 0]%N EUnexp])])].
Definition stale_store : store := history_fx toyH true go_consts [(7%N, interrupted_corrupt)].
Lemma stale_state : lookup N.eqb 1%N (s_dl stale_store) = Some (mkDl (Some [1; 0; 0]%N) [mkPart 0 3 2]).
Proof. vm_compute. reflexivity. Qed.
Lemma stale_first_retry_fails_second_succeeds :
  pull_result (clean_retry stale_store) = PFail /\ pull_result (clean_retry (retry_store stale_store)) = PSuccess.
Proof. vm_compute. split; reflexivity. Qed.

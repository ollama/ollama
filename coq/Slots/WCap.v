(** C07 — capacity: with an allocation of at least slots x context cells, Forward never finds the cache full.
    A counting invariant on top of the structural one: every cell belongs to slot sequences only, and no sequence
    holds more cells than the context. *)
From Coq Require Import List ZArith NArith Bool Arith Lia ZifyBool ZifyNat.
From V Require Import Common.Bytes Slots.StopFns Slots.Model Slots.ProofsKv Slots.ProofsWin Slots.WSlots Slots.WBatch.
Import ListNotations.
Open Scope Z_scope.

Definition cells_lt (n : nat) (kv0 : kvcache) : Prop := forall c s, In c kv0 -> In s (cseqs c) -> (s < n)%nat.
Definition entries_lt (n : nat) (b : list entry) : Prop := forall e, In e b -> (e_seq e < n)%nat.

(** the third clause speaks of idle slots only: a slot in use is bounded through [lo_fit] *)
Definition cap_ok (cfg : config) (sl : list slot) (kv0 : kvcache) (b : list entry) : Prop :=
  cells_lt (length sl) kv0 /\ entries_lt (length sl) b /\
  forall i, (i < length sl)%nat -> s_inuse (nth_slot sl i) = false -> zlen (view kv0 i) <= numCtx cfg.

Lemma cells_lt_map n kv0 f :
  cells_lt n kv0 -> (forall c s, In s (cseqs (f c)) -> In s (cseqs c) \/ (s < n)%nat) -> cells_lt n (map f kv0).
Proof.
  intros H Hf c s Hc Hs. apply in_map_iff in Hc as (c0 & <- & Hc0). destruct (Hf c0 s Hs); [eapply H; eauto|auto].
Qed.
Lemma del_seq_in s0 c s : In s (cseqs (del_seq s0 c)) -> In s (cseqs c).
Proof. unfold del_seq. cbn [cseqs]. intro H. apply filter_In in H. apply H. Qed.

Lemma cells_lt_trunc n kv0 s b : cells_lt n kv0 -> cells_lt n (kv_trunc kv0 s b).
Proof.
  intro H. apply cells_lt_map; auto. intros c x Hx. left. destruct (has s c && (b <=? cpos c)); [eapply del_seq_in; eauto|auto].
Qed.
Lemma cells_lt_range n kv0 s b e : cells_lt n kv0 -> cells_lt n (kv_range kv0 s b e).
Proof.
  intro H. apply cells_lt_map; auto. intros c x Hx. left.
  destruct (has s c); [|auto]. destruct ((b <=? cpos c) && (cpos c <? e)); [eapply del_seq_in; eauto|].
  destruct (e <=? cpos c); auto.
Qed.
Lemma cells_lt_copy n kv0 src dst len : (dst < n)%nat -> cells_lt n kv0 -> cells_lt n (kv_copy_prefix kv0 src dst len).
Proof.
  intros Hd H. apply cells_lt_map; auto. intros c x Hx. cbn beta zeta in Hx.
  destruct (has src (del_seq dst c) && (cpos (del_seq dst c) <? len)).
  - cbn [cseqs] in Hx. apply in_app_or in Hx as [Hx|[<-|[]]]; [left; eapply del_seq_in; eauto|right; auto].
  - left. eapply del_seq_in; eauto.
Qed.
Lemma cells_lt_evict cfg n kv0 b : cells_lt n kv0 -> cells_lt n (kv_evict cfg kv0 b).
Proof.
  intro H. unfold kv_evict. destruct (window cfg); [|auto]. apply cells_lt_map; auto.
  intros c x Hx. left. cbn [cseqs] in Hx. apply filter_In in Hx. apply Hx.
Qed.
Lemma cells_lt_forward n kv0 b : cells_lt n kv0 -> entries_lt n b -> cells_lt n (kv_forward kv0 b).
Proof.
  intros H Hb c s Hc Hs. unfold kv_forward in Hc. apply in_app_or in Hc as [Hc|Hc]; [eapply H; eauto|].
  apply in_map_iff in Hc as (e & <- & He). cbn in Hs. destruct Hs as [<-|[]]. apply Hb. auto.
Qed.

(** the cells referenced by some sequence are at most the sum of what the slot sequences hold *)
Fixpoint sum_views (kv0 : kvcache) (n : nat) : Z :=
  match n with O => 0 | S k => sum_views kv0 k + zlen (view kv0 k) end.

Fixpoint count_has (c : cell) (n : nat) : Z :=
  match n with O => 0 | S k => count_has c k + (if has k c then 1 else 0) end.

Lemma sum_views_cons c kv0 n : sum_views (c :: kv0) n = count_has c n + sum_views kv0 n.
Proof.
  induction n as [|n IH]; [reflexivity|]. cbn [sum_views count_has]. rewrite IH, view_cons, zlen_app.
  destruct (has n c); [change (zlen [(cpos c, ctok c)]) with 1|change (zlen (@nil (Z * tok))) with 0]; lia.
Qed.
Lemma count_has_nonneg c n : 0 <= count_has c n.
Proof. induction n; cbn [count_has]; [lia|]. destruct (has n c); lia. Qed.
Lemma count_has_pos c n s : (s < n)%nat -> In s (cseqs c) -> 1 <= count_has c n.
Proof.
  induction n as [|n IH]; intros Hs Hin; [lia|]. cbn [count_has]. pose proof (count_has_nonneg c n).
  destruct (Nat.eq_dec s n) as [->|Hne].
  - replace (has n c) with true; [lia|]. symmetry. unfold has. apply existsb_exists. exists n. split; [auto|apply Nat.eqb_refl].
  - specialize (IH ltac:(lia) Hin). destruct (has n c); lia.
Qed.

Lemma live_cells_le_sum n kv0 : cells_lt n kv0 -> live_cells kv0 <= sum_views kv0 n.
Proof.
  induction kv0 as [|c kv0 IH]; intro H.
  - unfold live_cells. cbn. clear. induction n; cbn [sum_views]; [lia|]. rewrite view_nil. change (zlen (@nil (Z*tok))) with 0. lia.
  - assert (H' : cells_lt n kv0) by (intros c0 s Hc Hs; eapply H; eauto; right; auto).
    specialize (IH H'). rewrite sum_views_cons. unfold live_cells in *. cbn [filter].
    destruct (cseqs c) as [|s l] eqn:Ec.
    + pose proof (count_has_nonneg c n). lia.
    + rewrite zlen_cons. assert (1 <= count_has c n).
      { apply (count_has_pos c n s); [eapply H; [left; reflexivity|rewrite Ec; left; reflexivity]|rewrite Ec; left; reflexivity]. }
      lia.
Qed.

Lemma sum_views_bound kv0 n m : (forall i, (i < n)%nat -> zlen (view kv0 i) <= m) -> sum_views kv0 n <= Z.of_nat n * m.
Proof.
  induction n as [|n IH]; intro H; cbn [sum_views]; [lia|].
  specialize (IH ltac:(intros; apply H; lia)). specialize (H n ltac:(lia)). lia.
Qed.

Lemma live_cells_forward kv0 b : live_cells (kv_forward kv0 b) = live_cells kv0 + zlen b.
Proof.
  unfold live_cells, kv_forward. rewrite filter_app, zlen_app. f_equal.
  rewrite filter_all; [unfold zlen; rewrite map_length; reflexivity|].
  intros c Hc. apply in_map_iff in Hc as (e & <- & _). reflexivity.
Qed.

Lemma build_seq_cells cfg n seqIdx slotId keep rng : forall i b b',
  (slotId < n)%nat -> cells_lt n (b_kv b) -> entries_lt n (b_batch b) ->
  build_seq cfg seqIdx slotId keep rng i b = BOk b' -> cells_lt n (b_kv b') /\ entries_lt n (b_batch b').
Proof.
  induction rng as [|inp rest IH]; intros i b b' Hs Hc He H; cbn [build_seq] in H.
  - injection H as <-. auto.
  - assert (Hadd : forall b0, cells_lt n (b_kv b0) -> entries_lt n (b_batch b0) ->
                     cells_lt n (b_kv (add_input slotId i inp b0)) /\ entries_lt n (b_batch (add_input slotId i inp b0))).
    { intros b0 Hc0 He0. unfold add_input. cbn [b_kv b_batch]. split; [auto|].
      intros e Hin. apply in_app_or in Hin as [Hin|[<-|[]]]; [auto|cbn; auto]. }
    destruct (batchSize cfg <? zlen (b_batch b) + 1).
    { injection H as <-. destruct (set_resume_same seqIdx b) as (_ & E2 & _ & _ & E5 & _). rewrite E2, E5. auto. }
    destruct (numCtx cfg <? zlen (b_C b) + zlen (b_pending b) + 1).
    + destruct (b_pending b).
      * unfold shift_cache_slot in H. destruct (numCtx cfg <=? keep); [discriminate|].
        destruct (shift_discard cfg (zlen (b_C b)) keep <=? 0).
        -- destruct (Hadd b Hc He). eapply IH; eauto.
        -- destruct (kv_remove_range cfg (b_kv b) slotId keep _) as [kv'|] eqn:ER.
           ++ assert (Hc' : cells_lt n kv').
              { unfold kv_remove_range in ER. destruct (negb (canPartial cfg)); [discriminate|].
                destruct (kv_range_blocked _ _ _); [discriminate|]. destruct (_ && _); [discriminate|]. injection ER as <-.
                apply cells_lt_range. auto. }
              match type of H with build_seq _ _ _ _ _ _ (add_input _ _ _ ?b1) = _ => destruct (Hadd b1 Hc' He) end. eapply IH; eauto.
           ++ eapply IH; [| | |exact H]; cbn [b_kv b_batch]; auto. apply cells_lt_trunc. auto.
      * injection H as <-. auto.
    + destruct (Hadd b Hc He). eapply IH; eauto.
Qed.

Lemma build_one_cap cfg p idx p' :
  mid_ok cfg (p_slots p) (p_kv p) (p_seqs p) (p_batch p) -> unprocessed (p_seqs p) idx ->
  cap_ok cfg (p_slots p) (p_kv p) (p_batch p) -> build_one cfg p idx = POk p' ->
  cap_ok cfg (p_slots p') (p_kv p') (p_batch p').
Proof.
  intros Hm Hun (C1 & C2 & C3).
  destruct (build_one_cases cfg p idx) as [En|q Eq El|q r Eq El Er]; [intro H; injection H as <-; repeat split; auto| |];
    pose proof (mo_live Hm idx q Eq) as Hq; pose proof (lo_slot Hq) as Hslot.
  - intro H. injection H as <-. cbn [p_slots p_kv p_batch]. unfold cap_ok. rewrite release_length. split; [auto|]. split; [auto|].
    intros i Hi Hu. destruct (Nat.eq_dec (q_slot q) i) as [<-|Hne].
    + destruct (lo_view Hq) as (lo & _ & Hv). rewrite Hv.
      pose proof (zlen_wenum_le lo (s_inputs (nth_slot (p_slots p) (q_slot q)))). pose proof (lo_fit Hq).
      pose proof (zlen_nonneg (q_pending q)). lia.
    + rewrite release_other in Hu by auto. auto.
  - destruct (Hun q Eq) as [_ Hinp].
    destruct (build_seq_ok cfg idx (q_slot q) (q_keep q) (q_inputs q) 0 _ (lo_guard Hq) (lo_keep Hq)
                           (loop_start_ok cfg p q Hq Hinp)) as (b' & E & _ & Hf).
    rewrite E in Er. subst r. intro H. injection H as <-. cbn [p_slots p_kv p_batch]. unfold cap_ok. rewrite set_slot_inputs_length.
    destruct (build_seq_cells cfg (length (p_slots p)) idx (q_slot q) (q_keep q) (q_inputs q) 0%nat (loop_start p q) b' Hslot C1 C2 E) as [D1 D2].
    split; [auto|]. split; [auto|].
    intros i Hi Hu. destruct (Nat.eq_dec (q_slot q) i) as [<-|Hne].
    + rewrite set_slot_inputs_same in Hu by auto. cbn [s_inuse] in Hu. rewrite (lo_inuse Hq) in Hu. discriminate.
    + rewrite set_slot_inputs_other in Hu by auto. destruct (Hf i ltac:(auto)) as [F1 _]. rewrite F1. auto.
Qed.

Lemma forward_fits cfg sl kv0 qs b :
  win_ok cfg -> mid_ok cfg sl kv0 qs b -> cap_ok cfg sl kv0 b ->
  live_cells (kv_evict cfg kv0 b) + zlen b <= Z.of_nat (length sl) * numCtx cfg /\
  forall i, (i < length sl)%nat -> zlen (view (fwd cfg kv0 b) i) <= numCtx cfg.
Proof.
  intros Hwin Hm (C1 & C2 & C3).
  set (kv' := fwd cfg kv0 b).
  assert (Hall : forall i, (i < length sl)%nat -> zlen (view kv' i) <= numCtx cfg).
  { intros i Hi. destruct (s_inuse (nth_slot sl i)) eqn:Hu.
    - destruct (mo_used Hm i Hi Hu) as (k & q & Eq & <-). pose proof (mo_live Hm k q Eq) as Hl.
      destruct (forward_view_live cfg _ _ _ q Hwin Hl) as (lo & _ & _ & Hv). fold kv' in Hv. rewrite Hv.
      pose proof (zlen_wenum_le lo (s_inputs (nth_slot sl (q_slot q)) ++ q_pending q)). rewrite zlen_app in *.
      pose proof (lo_fit Hl). lia.
    - destruct (mo_idle Hm i Hi Hu) as [_ I2]. unfold kv'. rewrite (forward_view_idle cfg kv0 b i I2). auto. }
  split; [|exact Hall].
  rewrite <- live_cells_forward. fold (fwd cfg kv0 b). fold kv'. etransitivity; [|apply sum_views_bound; exact Hall].
  apply (live_cells_le_sum (length sl)). apply cells_lt_forward; [apply cells_lt_evict|]; auto.
Qed.

Lemma load_cache_slot_cells cfg clk sl kv0 prompt sl' kv' i rest :
  cells_lt (length sl) kv0 -> load_cache_slot cfg clk sl kv0 prompt = Ok (sl', kv', i, rest) -> cells_lt (length sl) kv'.
Proof.
  intros Hc H. pose proof (load_cache_slot_cases cfg clk sl kv0 prompt) as Hl. rewrite H in Hl.
  destruct Hl as (sl1 & kv1 & n & n3 & EF & _ & -> & _). apply cells_lt_trunc.
  pose proof (find_slot_cases cfg sl kv0 prompt) as Hf. rewrite EF in Hf.
  destruct Hf as (_ & Hi & [(_ & -> & _)|(li & _ & _ & _ & ->)]); [exact Hc|apply cells_lt_copy; auto].
Qed.

Definition capst (cfg : config) (st : state) : Prop := cap_ok cfg (slots st) (kv st) [].

Lemma build_all_cap cfg st :
  inv cfg st -> capst cfg st ->
  exists p, build_all cfg (batch_start st) (batch_order st) = POk p /\
    mid_ok cfg (p_slots p) (p_kv p) (p_seqs p) (p_batch p) /\ cap_ok cfg (p_slots p) (p_kv p) (p_batch p) /\
    length (p_slots p) = length (slots st).
Proof.
  intros Hi Hc.
  destruct (build_all_ind cfg (fun order p => mid_inv cfg order p /\ cap_ok cfg (p_slots p) (p_kv p) (p_batch p) /\
                                              length (p_seqs p) = length (seqs st)))
    with (order := batch_order st) (p := batch_start st) as (p & E & (_ & Hm & _) & Hcp & Hlen).
  - intros idx order p ((Hnd & Hm & Hun) & Hcp & Hlen).
    destruct (build_one_mid cfg idx order p (conj Hnd (conj Hm Hun))) as (p' & E & Hp' & Hl').
    exists p'. split; [exact E|]. split; [exact Hp'|]. split; [|congruence].
    exact (build_one_cap cfg p idx p' Hm (Hun idx (or_introl eq_refl)) Hcp E).
  - split; [apply inv_mid_inv; exact Hi|]. split; [exact Hc|reflexivity].
  - exists p. split; [exact E|]. split; [exact Hm|]. split; [exact Hcp|].
    rewrite (mo_len Hm), Hlen. symmetry. apply (mo_len (proj1 Hi)).
Qed.

Section Cap.
  Variable F : list (Z * tok) -> tok.

  Lemma process_batch_cap cfg st :
    win_ok cfg -> inv cfg st -> capst cfg st ->
    capst cfg (fst (process_batch F cfg st)) /\ length (slots (fst (process_batch F cfg st))) = length (slots st) /\
    ((cacheCells cfg < 0 \/ Z.of_nat (length (slots st)) * numCtx cfg <= cacheCells cfg) -> snd (process_batch F cfg st) <> RCacheFull).
  Proof.
    intros Hwin Hi Hc. destruct (build_all_cap cfg st Hi Hc) as (p & E & Hmp & Hcp & Hls).
    destruct (forward_fits cfg _ _ _ _ Hwin Hmp Hcp) as (Hfit & Hall). rewrite Hls in Hfit.
    destruct (process_batch_cases F cfg st p E) as [r Hr|next Eb|next sl qs ev Hne Hnf EP]; cbn [fst snd].
    - split; [exact Hc|]. split; [reflexivity|]. intros Hcap ->. destruct Hr as [_ Hf]. unfold kv_full in Hf. destruct Hcap; lia.
    - split; [|split; [exact Hls|discriminate]]. unfold capst. cbn [slots kv]. rewrite <- Eb. exact Hcp.
    - rewrite post_all_as_v in EP. pose proof (post_slots_length _ _ _ _ _ _ _ _ _ _ Hmp EP) as L2. cbn [slots].
      split; [|split; [congruence|discriminate]]. destruct Hcp as (C1 & C2 & _).
      unfold capst, cap_ok. cbn [slots kv]. rewrite L2. split; [apply cells_lt_forward; [apply cells_lt_evict|]; auto|]. split; [intros e []|].
      intros i Hi' _. auto.
  Qed.
End Cap.

Lemma submit_cap cfg st prompt np keep stops :
  1 <= numCtx cfg -> win_ok cfg -> inv cfg st -> capst cfg st ->
  capst cfg (fst (submit cfg st prompt np keep stops)) /\ length (slots (fst (submit cfg st prompt np keep stops))) = length (slots st).
Proof.
  intros Hc Hwin [Hm Hin] (C1 & C2 & C3).
  destruct (submit_cases cfg st prompt np keep stops) as [r _|inputs keep' idx sl kv' si rest EN EF EL]; [repeat split; auto|].
  destruct (new_sequence_ok _ _ _ _ _ Hc EN) as (N1 & N2 & N3).
  destruct (load_cache_slot_ok _ _ _ _ _ _ _ _ _ Hwin N1 (inv_slots_ok _ _ _ _ _ Hm) EL) as (L1 & L2 & L3 & L4 & L5 & L6 & L7 & L8 & L9).
  cbn [fst slots]. split; [|exact L1]. unfold capst, cap_ok. cbn [slots kv]. rewrite L1.
  split; [eapply load_cache_slot_cells; eauto|]. split; [intros e []|].
  intros i Hi Hu. destruct (Nat.eq_dec i si) as [->|Hne]; [congruence|].
  rewrite L5 in Hu by auto. rewrite L8 by auto. auto.
Qed.

Lemma init_cap cfg parallel : 0 <= numCtx cfg -> capst cfg (init parallel).
Proof.
  intro Hc. unfold capst, cap_ok, init. cbn [slots kv]. split; [intros c s []|]. split; [intros e []|].
  intros i _ _. rewrite view_nil. change (zlen (@nil (Z * tok))) with 0. lia.
Qed.

Section CapReach.
  Variable F : list (Z * tok) -> tok.
  Lemma run_cap cfg st ops :
    1 <= numCtx cfg -> win_ok cfg -> Forall (op_guard cfg) ops -> inv cfg st -> capst cfg st ->
    capst cfg (run F cfg st ops) /\ length (slots (run F cfg st ops)) = length (slots st).
  Proof.
    intros Hc Hwin. revert st. induction ops as [|o ops IH]; intros st Hg Hi Hcap; cbn [run fold_left]; [auto|].
    inversion Hg; subst.
    assert (Hstep : capst cfg (fst (step_op F cfg st o)) /\ length (slots (fst (step_op F cfg st o))) = length (slots st)).
    { destruct o; cbn [step_op]; [apply submit_cap; auto|]. destruct (process_batch_cap F cfg st Hwin Hi Hcap) as (A & B & _). auto. }
    destruct Hstep as [Hc1 Hl]. rewrite <- Hl. apply IH; auto. apply step_op_inv; auto.
  Qed.

  Lemma step_not_full cfg parallel ops o :
    1 <= numCtx cfg -> win_ok cfg -> Forall (op_guard cfg) ops ->
    (cacheCells cfg < 0 \/ Z.of_nat parallel * numCtx cfg <= cacheCells cfg) ->
    snd (step_op F cfg (run F cfg (init parallel) ops) o) <> RCacheFull.
  Proof.
    intros Hc Hwin Hg Hcap.
    pose proof (reachable_inv F cfg parallel ops Hc Hwin Hg) as Hi.
    destruct (run_cap cfg (init parallel) ops Hc Hwin Hg (init_inv cfg parallel) (init_cap cfg parallel ltac:(lia))) as (Hcs & Hl).
    destruct o as [prompt np keep stops|]; cbn [step_op].
    - destruct (submit_cases cfg (run F cfg (init parallel) ops) prompt np keep stops) as [r Hr|]; cbn [snd]; [|discriminate].
      intros ->. exact Hr.
    - apply (process_batch_cap F cfg _ Hwin Hi Hcs). rewrite Hl. unfold init. cbn [slots]. rewrite repeat_length. exact Hcap.
  Qed.
End CapReach.

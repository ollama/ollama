(** C07 — sliding-window caches: a sequence holds its recorded inputs from some position [lo] on ([wenum lo l]);
    eviction, the window in the mask, CanResume. *)
From Coq Require Import List ZArith NArith Bool Arith Lia ZifyBool ZifyNat.
From V Require Import Slots.Model Slots.ProofsKv.
Import ListNotations.
Open Scope Z_scope.

Definition wenum (lo : Z) (l : list tok) : list (Z * tok) := filter (fun e => lo <=? fst e) (enumerate 0 l).

(** the lowest position the next token at position [n] attends to *)
Definition wlo (cfg : config) (n : Z) : Z := match window cfg with None => 0 | Some w => Z.max 0 (n - w) end.

Lemma wenum_le0 lo l : lo <= 0 -> wenum lo l = enumerate 0 l.
Proof. intro H. unfold wenum. apply filter_all. intros e He. apply enumerate_ge in He. lia. Qed.

Lemma wenum_nil lo : wenum lo [] = []. Proof. reflexivity. Qed.

Lemma wenum_high lo l : zlen l <= lo -> wenum lo l = [].
Proof. intro H. unfold wenum. apply filter_none. intros e He. apply enumerate_ge in He. lia. Qed.

Lemma filter_lt_wenum lo l k : 0 <= k -> filter (fun e => fst e <? k) (wenum lo l) = wenum lo (firstn (Z.to_nat k) l).
Proof. intro Hk. unfold wenum. rewrite filter_comm, filter_lt_enumerate0 by auto. reflexivity. Qed.

Lemma wenum_raise lo lo2 l : filter (fun e => lo2 <=? fst e) (wenum lo l) = wenum (Z.max lo lo2) l.
Proof. unfold wenum. rewrite filter_filter. apply filter_ext. intros [p t]. cbn [fst]. lia. Qed.

Lemma wenum_app lo a b : lo <= zlen a -> wenum lo (a ++ b) = wenum lo a ++ enumerate (zlen a) b.
Proof.
  intro H. unfold wenum. rewrite enumerate_app, filter_app. f_equal. cbn [Z.add].
  apply filter_all. intros e He. apply enumerate_ge in He. lia.
Qed.

Lemma zlen_wenum_le lo l : zlen (wenum lo l) <= zlen l.
Proof. pose proof (filter_len_le (fun e => lo <=? fst e) (enumerate 0 l)) as H. rewrite enumerate_length in H. unfold wenum, zlen. lia. Qed.

Lemma wenum_In lo l q t : In (q, t) (wenum lo l) -> lo <= q /\ 0 <= q < zlen l.
Proof. unfold wenum. intro H. apply filter_In in H as [H1 H2]. apply enumerate_In in H1. cbn [fst] in H2. lia. Qed.

Lemma filter_ge_enumerate s lo l :
  s <= lo -> filter (fun e => lo <=? fst e) (enumerate s l) = enumerate lo (skipn (Z.to_nat (lo - s)) l).
Proof.
  revert s. induction l as [|x l IH]; intros s H; cbn [enumerate filter].
  - rewrite skipn_nil. reflexivity.
  - cbn [fst]. destruct (Z.eq_dec s lo) as [->|Hne].
    + replace (lo <=? lo) with true by lia. rewrite Z.sub_diag. cbn [Z.to_nat skipn enumerate]. f_equal.
      apply filter_all. intros e He. apply enumerate_ge in He. lia.
    + replace (lo <=? s) with false by lia. rewrite (IH (s + 1)) by lia.
      replace (Z.to_nat (lo - s)) with (S (Z.to_nat (lo - (s + 1)))) by lia. reflexivity.
Qed.
Lemma wenum_suffix lo l : 0 <= lo -> wenum lo l = enumerate lo (skipn (Z.to_nat lo) l).
Proof. intro H. unfold wenum. rewrite filter_ge_enumerate by auto. rewrite Z.sub_0_r. reflexivity. Qed.
Lemma sort_vis_wenum lo l : sort_vis (wenum lo l) = wenum lo l.
Proof.
  destruct (Z.le_gt_cases lo 0).
  - rewrite wenum_le0 by auto. apply sort_vis_enumerate.
  - rewrite wenum_suffix by lia. apply sort_vis_enumerate.
Qed.

Lemma count_range_enumerate a b s l :
  zlen (filter (fun e => (a <=? fst e) && (fst e <? b)) (enumerate s l)) = Z.max 0 (Z.min b (s + zlen l) - Z.max a s).
Proof.
  revert s. induction l as [|x l IH]; intro s; cbn [enumerate filter].
  - unfold zlen. cbn [length]. lia.
  - cbn [fst]. rewrite zlen_cons. pose proof (zlen_nonneg l).
    destruct ((a <=? s) && (s <? b)) eqn:E; [rewrite zlen_cons|]; rewrite IH; lia.
Qed.

Lemma count_range_wenum a b lo l :
  zlen (filter (fun e => (a <=? fst e) && (fst e <? b)) (wenum lo l)) = Z.max 0 (Z.min b (zlen l) - Z.max (Z.max a lo) 0).
Proof.
  unfold wenum. rewrite filter_filter.
  rewrite (filter_ext _ (fun e => (Z.max a lo <=? fst e) && (fst e <? b))) by (intros [p t]; cbn [fst]; lia).
  rewrite count_range_enumerate. lia.
Qed.

(** CanResume(seq, pos) = true on a sequence whose entries below [n] are [wenum lo l] (pos <= n) means the whole
    window before [pos] is there *)
Lemma swa_can_resume_lo w kv0 s pos lo l n :
  1 <= w -> 1 <= pos <= n -> n <= zlen l ->
  filter (fun e => fst e <? n) (view kv0 s) = wenum lo l ->
  swa_can_resume w kv0 s pos = true -> lo <= Z.max 0 (pos - w).
Proof.
  intros Hw Hpos Hn Hv H. unfold swa_can_resume in H.
  destruct (view kv0 s) as [|e0 v0] eqn:Ev; [discriminate|]. rewrite <- Ev in *. clear Ev e0 v0.
  destruct (Z.max 0 (pos - w) <? _); [discriminate|].
  apply Z.eqb_eq in H.
  assert (Hf : filter (fun e => (Z.max 0 (pos - w) <=? fst e) && (fst e <? pos)) (view kv0 s)
               = filter (fun e => (Z.max 0 (pos - w) <=? fst e) && (fst e <? pos)) (wenum lo l)).
  { rewrite <- Hv, filter_filter. apply filter_ext. intros [p t]. cbn [fst]. lia. }
  rewrite Hf, count_range_wenum in H. lia.
Qed.

Lemma low_pos_none b s : slot_entries b s = [] -> low_pos b s = None.
Proof.
  induction b as [|e b IH]; [reflexivity|]. unfold slot_entries. cbn [filter low_pos].
  destruct (Nat.eqb s (e_seq e)); cbn [map]; [discriminate|]. exact IH.
Qed.
Lemma low_pos_enumerate b s p l :
  slot_entries b s = enumerate p l -> l <> [] -> low_pos b s = Some p.
Proof.
  revert p l. induction b as [|e b IH]; intros p l H Hl.
  - cbn in H. destruct l; [congruence|discriminate].
  - unfold slot_entries in *. cbn [filter low_pos] in *. destruct (Nat.eqb s (e_seq e)).
    + cbn [map] in H. destruct l as [|x l]; [congruence|]. cbn [enumerate] in H. injection H as Hp Ht Hr.
      destruct l as [|y l].
      * cbn in Hr. rewrite (low_pos_none b s) by exact Hr. rewrite Hp. reflexivity.
      * rewrite (IH (p + 1) (y :: l) Hr) by discriminate. rewrite Hp. f_equal. lia.
    + eapply IH; eauto.
Qed.

(** a sequence loses the cells more than [w] before the lowest position the batch holds for it, and only those *)
Definition kept (b : list entry) (w : Z) (s : nat) (pos : Z) : bool :=
  match low_pos b s with Some p => negb (pos <? p - w) | None => true end.

Lemma view_evict cfg kv0 b s w :
  window cfg = Some w -> view (kv_evict cfg kv0 b) s = filter (fun e => kept b w s (fst e)) (view kv0 s).
Proof.
  intros Hw. unfold kv_evict. rewrite Hw.
  induction kv0 as [|c kv0 IH]; [reflexivity|]. cbn [map]. rewrite !view_cons, filter_app, IH. f_equal.
  unfold has at 1. cbn [cseqs cpos ctok].
  change (fun s0 => match low_pos b s0 with Some p => negb (cpos c <? p - w) | None => true end) with (fun s0 => kept b w s0 (cpos c)).
  assert (G : existsb (Nat.eqb s) (filter (fun s0 => kept b w s0 (cpos c)) (cseqs c)) = has s c && kept b w s (cpos c)).
  { unfold has. induction (cseqs c) as [|x l IHl]; [reflexivity|]. cbn [filter existsb].
    destruct (Nat.eqb s x) eqn:E.
    - apply Nat.eqb_eq in E. subst x. destruct (kept b w s (cpos c)); cbn [existsb orb andb].
      + rewrite Nat.eqb_refl. reflexivity.
      + rewrite IHl. apply andb_false_r.
    - cbn [orb]. destruct (kept b w x (cpos c)); cbn [existsb]; rewrite ?E; auto. }
  rewrite G. destruct (has s c); cbn [andb filter fst]; [|reflexivity]. destruct (kept b w s (cpos c)); reflexivity.
Qed.

Lemma view_evict_other cfg kv0 b s : low_pos b s = None -> view (kv_evict cfg kv0 b) s = view kv0 s.
Proof.
  intro Hl. destruct (window cfg) as [w|] eqn:Hw; [|unfold kv_evict; rewrite Hw; reflexivity].
  rewrite (view_evict cfg kv0 b s w Hw). apply filter_all. intros e _. unfold kept. rewrite Hl. reflexivity.
Qed.

Lemma view_evict_some cfg kv0 b s p w :
  window cfg = Some w -> low_pos b s = Some p ->
  view (kv_evict cfg kv0 b) s = filter (fun e => p - w <=? fst e) (view kv0 s).
Proof.
  intros Hw Hl. rewrite (view_evict cfg kv0 b s w Hw). apply filter_ext. intro e. unfold kept. rewrite Hl. lia.
Qed.

Lemma view_evict_nowin cfg kv0 b s : window cfg = None -> view (kv_evict cfg kv0 b) s = view kv0 s.
Proof. intro H. unfold kv_evict. rewrite H. reflexivity. Qed.

Lemma range0_enumerate_hi lo d s l :
  d <= s ->
  map (range_map 0 d) (filter (fun e => lo <=? fst e) (enumerate s l)) = filter (fun e => lo - d <=? fst e) (enumerate (s - d) l).
Proof.
  revert s. induction l as [|x l IH]; intros s Hs; [reflexivity|]. cbn [enumerate filter fst].
  replace (lo - d <=? s - d) with (lo <=? s) by lia.
  destruct (lo <=? s); cbn [map]; rewrite (IH (s + 1)) by lia; replace (s + 1 - d) with (s - d + 1) by lia; [|reflexivity].
  f_equal. unfold range_map. cbn [fst snd]. replace (d <=? s) with true by lia. f_equal; lia.
Qed.

Lemma range0_wenum lo l d :
  0 <= d <= zlen l ->
  map (range_map 0 d) (filter (fun x => negb ((0 <=? fst x) && (fst x <? d))) (wenum lo l)) = wenum (lo - d) (skipn (Z.to_nat d) l).
Proof.
  intros Hd. unfold wenum. rewrite <- (firstn_skipn (Z.to_nat d) l) at 1.
  set (A := firstn (Z.to_nat d) l). set (D := skipn (Z.to_nat d) l).
  assert (HA : zlen A = d) by (subst A; rewrite zlen_firstn; lia).
  rewrite enumerate_app, !filter_app, map_app, HA. cbn [Z.add].
  rewrite (filter_none _ (filter _ (enumerate 0 A))).
  - cbn [map app]. rewrite (filter_all _ (filter _ (enumerate d D))).
    + rewrite range0_enumerate_hi by lia. rewrite Z.sub_diag. reflexivity.
    + intros e He. apply filter_In in He as [He _]. apply enumerate_ge in He. lia.
  - intros e He. apply filter_In in He as [He _]. apply enumerate_ge in He. lia.
Qed.

(** what the mask shows the entry at the last position of [W] (hence [zlen W - 1 - w]) *)
Definition ref_vis (cfg : config) (W : list tok) : list (Z * tok) :=
  match window cfg with
  | None => enumerate 0 W
  | Some w => wenum (zlen W - 1 - w) W
  end.

Lemma visible_c_wenum cfg kv0 s lo X :
  view kv0 s = wenum lo X -> lo <= wlo cfg (zlen X - 1) ->
  visible_c cfg kv0 s (zlen X - 1) = ref_vis cfg X.
Proof.
  intros Hv Hlo. unfold visible_c, visible, ref_vis, wlo in *. rewrite Hv.
  assert (Hall : filter (fun e => fst e <=? zlen X - 1) (wenum lo X) = wenum lo X).
  { apply filter_all. intros [q t] Hin. apply wenum_In in Hin. cbn [fst]. lia. }
  rewrite Hall. destruct (window cfg) as [w|].
  - rewrite wenum_raise. unfold wenum. apply filter_ext_in. intros [q t] Hin. apply enumerate_In in Hin. cbn [fst]. lia.
  - apply wenum_le0. lia.
Qed.

Lemma sort_vis_ref_vis cfg W : sort_vis (ref_vis cfg W) = ref_vis cfg W.
Proof. unfold ref_vis. destruct (window cfg); [apply sort_vis_wenum|apply sort_vis_enumerate]. Qed.

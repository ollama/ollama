(** C07 — exported theorems (statements only; proofs in W*.v / Proofs*.v).

    Model: Slots/Model.v (runner/ollamarunner/cache.go + the text path of runner.go over the kvcache.Cache
    interface), with fixes/C07-shift-reset.patch and fixes/C07-stop-trim-negative.patch applied.
    [run F cfg (init parallel) ops] is the state after an arbitrary history [ops] of accepted/rejected completion
    requests ([Submit]) and batches ([Step]); [F] is an arbitrary network+sampler (a function of the history the cache
    exposes); [cfg] carries context size, batch size, slot policy, whether the model can shift, whether the cache can
    erase partially / resume, the EOS token and the sliding window (None: plain causal cache; Some w:
    kvcache.NewSWACache w); [parallel] is the number of slots.  All of these are universally quantified.

    Hypotheses of the theorems over histories:
    - [1 <= numCtx cfg] (NewInputCache refuses less);
    - [win_ok cfg]: a window size is >= 1;
    - [Forall (op_guard cfg) ops]: on a sliding-window cache every request has keep = 0 (or the cache refuses
      partial erasure).  This is the guard that excludes the known finding C07-swa-middle-remove-* (a context shift
      that keeps a prefix reaches back into evicted cells); without it the statement is false
      ([C07_model_sees_effective_input_refuted]).  Without a window both conditions are vacuous ([no_window_ok]).
    Cache capacity: [cacheCells cfg] (negative = unbounded); a batch that does not fit ends the history with [RCacheFull]
    (state unchanged), see [C07_no_cache_full_refuted].

    Atomicity (a hypothesis built into the transition system): [Submit] is ONE transition - the first free entry of
    s.seqs is chosen, LoadCacheSlot selects the slot, marks it InUse and trims the cache, and the sequence is inserted,
    with no other request and no batch in between - and [Step] (processBatch) is one transition.  In the code this is
    the s.mu critical section of Server.completion and the lock processBatch holds from start to end
    ("Operations on InputCacheSlot (including finding one through LoadCacheSlot) require a lock ... that serializes
    these operations with each other and processBatch", cache.go).  [C07_no_double_use] is about LoadCacheSlot alone;
    [C07_no_double_use_reachable] and every other theorem over histories hold for interleavings of whole transitions
    only.  The concurrent stage of the check (the real completion handler called from several goroutines against
    the real run loop, props/c07.py conc_stage) is what ties this hypothesis to the code. *)
From Coq Require Import List ZArith Bool Arith Lia.
From V Require Import Slots.Model Slots.ProofsKv Slots.ProofsWin Slots.WSlots Slots.WBatch Slots.WRef Slots.WNoFail Slots.WTerm Slots.WCap Slots.Llama Slots.LlamaProofs Slots.Wrap Slots.WWrap.
Import ListNotations.
Open Scope Z_scope.

Lemma no_window_ok cfg ops : window cfg = None -> win_ok cfg /\ Forall (op_guard cfg) ops.
Proof.
  intro H. split; [intros w Hw; congruence|]. apply Forall_forall. intros o _. destruct o; cbn; [left; exact H|exact I].
Qed.

(** After any history, for every slot, the sequence of that slot holds in the cache exactly the recorded inputs from
    some position [lo] on ([wenum lo inputs] = the pairs (p, inputs[p]) for p >= lo):
    - without a sliding window [lo <= 0]: everything;
    - a slot in use holds nothing else, and [lo <= wlo cfg n] = max 0 (n - w): the whole window before its next
      position n is stored;
    - an idle slot may also keep entries at positions >= n after a stop sequence shortened the record (LoadCacheSlot
      erases from numPast <= n on reuse), and on a window cache any suffix (CanResume decides at reuse). *)
Theorem C07_slot_matches_cache :
  forall (F : list (Z * tok) -> tok) cfg parallel ops,
    1 <= numCtx cfg -> win_ok cfg -> Forall (op_guard cfg) ops ->
    let st := run F cfg (init parallel) ops in
    forall i, (i < length (slots st))%nat ->
      let s := nth_slot (slots st) i in
      exists lo, (window cfg = None -> lo <= 0) /\
        filter (fun e => fst e <? zlen (s_inputs s)) (view (kv st) i) = wenum lo (s_inputs s) /\
        (s_inuse s = true -> view (kv st) i = wenum lo (s_inputs s) /\ lo <= wlo cfg (zlen (s_inputs s))).
Proof.
  intros F cfg parallel ops Hc Hw Hg st i Hi. destruct (reachable_inv F cfg parallel ops Hc Hw Hg) as [Hm _].
  exact (inv_slots_ok _ _ _ _ _ Hm i Hi).
Qed.
Print Assumptions C07_slot_matches_cache.

(** the same without a window, in the plain form: exactly the enumeration of the inputs *)
Corollary C07_slot_matches_cache_nowindow :
  forall (F : list (Z * tok) -> tok) cfg parallel ops,
    1 <= numCtx cfg -> window cfg = None ->
    let st := run F cfg (init parallel) ops in
    forall i, (i < length (slots st))%nat ->
      let s := nth_slot (slots st) i in
      filter (fun e => fst e <? zlen (s_inputs s)) (view (kv st) i) = enumerate 0 (s_inputs s) /\
      (s_inuse s = true -> view (kv st) i = enumerate 0 (s_inputs s)).
Proof.
  intros F cfg parallel ops Hc Hn st i Hi s. destruct (no_window_ok cfg ops Hn) as [Hw Hg].
  destruct (C07_slot_matches_cache F cfg parallel ops Hc Hw Hg i Hi) as (lo & Hlo & H1 & H2).
  fold st s in H1, H2. rewrite (wenum_le0 lo) in * by auto. split; [exact H1|]. intro Hu. apply (H2 Hu).
Qed.
Print Assumptions C07_slot_matches_cache_nowindow.

(** LoadCacheSlot never returns a slot whose InUse flag is set — whatever the slots, cache (window or not) and prompt. *)
Theorem C07_no_double_use :
  forall cfg clk sl kv0 prompt sl' kv' i rest,
    load_cache_slot cfg clk sl kv0 prompt = Ok (sl', kv', i, rest) ->
    (i < length sl)%nat /\ s_inuse (nth_slot sl i) = false.
Proof. exact load_cache_slot_not_inuse. Qed.
Print Assumptions C07_no_double_use.

(** ... and the flag is truthful: after any history, live sequences hold pairwise different slots, each marked in
    use, and a request accepted next gets a slot that no live sequence holds. *)
Theorem C07_no_double_use_reachable :
  forall (F : list (Z * tok) -> tok) cfg parallel ops,
    1 <= numCtx cfg -> win_ok cfg -> Forall (op_guard cfg) ops ->
    let st := run F cfg (init parallel) ops in
    (forall i1 i2 q1 q2, nth i1 (seqs st) None = Some q1 -> nth i2 (seqs st) None = Some q2 -> q_slot q1 = q_slot q2 -> i1 = i2) /\
    (forall i q, nth i (seqs st) None = Some q -> s_inuse (nth_slot (slots st) (q_slot q)) = true) /\
    (forall prompt np keep stops idx,
        snd (submit cfg st prompt np keep stops) = RSubmitted idx ->
        exists q, nth idx (seqs (fst (submit cfg st prompt np keep stops))) None = Some q /\
                  forall j q2, nth j (seqs st) None = Some q2 -> q_slot q2 <> q_slot q).
Proof.
  intros F cfg parallel ops Hc Hw Hg st. pose proof (reachable_inv F cfg parallel ops Hc Hw Hg) as Hinv. fold st in Hinv.
  destruct Hinv as [Hm Hin]. split; [|split].
  - exact (mo_inj Hm).
  - intros i q E. exact (lo_inuse (mo_live Hm i q E)).
  - intros prompt np keep stops idx H.
    destruct (submit_fresh_slot cfg st prompt np keep stops idx (conj Hm Hin) H) as (q & E & Hfresh). eauto.
Qed.
Print Assumptions C07_no_double_use_reachable.

(** The effective input of a request is a function of the request alone: [ref_win F cfg keep W0 j] is the list of
    inputs from which its j-th token is sampled, where W0 = prompt after truncation, keep = normalised keep count
    (both computed by NewSequence from prompt, keep and the context size: [C07_submit_records_request]); feeding a
    token into a full context first discards [shift_discard] inputs after the first [keep].  What the network is shown
    of it is [ref_vis cfg W]: every position with its input, restricted to the last w+1 positions on a window cache.
    After any history, for every token sampled for any request, the history the cache exposed to the batch entry that
    produced the logits is exactly that - nothing foreign, nothing missing, every position right - and the token is
    the network's answer to it. *)
Theorem C07_model_sees_effective_input :
  forall (F : list (Z * tok) -> tok) cfg parallel ops,
    1 <= numCtx cfg -> win_ok cfg -> Forall (op_guard cfg) ops ->
    let st := run F cfg (init parallel) ops in
    forall r W0 keep np stops, In (EvSubmit r W0 keep np stops) (log st) ->
      forall j t vis, nth_error (samples_of r (log st)) j = Some (t, vis) ->
        vis = ref_vis cfg (ref_win F cfg keep W0 j) /\ t = F vis.
Proof.
  intros F cfg parallel ops Hc Hw Hg st. exact (rm_log F cfg (reachable_rinv F cfg Hw parallel ops Hc Hg)).
Qed.
Print Assumptions C07_model_sees_effective_input.

(** The statement without the guard on window caches is false: with window 3, context 6 and keep 2 the fifth token of
    a lone request is computed without position 1, which lies in its window (the kept prefix was evicted before the
    shift moved the recent entries down).  This is the known finding C07-swa-middle-remove-* / C06-swa-middle-remove. *)
Definition C07_model_sees_effective_input_full : Prop :=
  forall (F : list (Z * tok) -> tok) cfg parallel ops,
    1 <= numCtx cfg -> win_ok cfg ->
    let st := run F cfg (init parallel) ops in
    forall r W0 keep np stops, In (EvSubmit r W0 keep np stops) (log st) ->
      forall j t vis, nth_error (samples_of r (log st)) j = Some (t, vis) ->
        vis = ref_vis cfg (ref_win F cfg keep W0 j) /\ t = F vis.
Definition keep_cfg : config := mkCfg 6 8 false true true true (-1) (Some 3) (-1).
Definition keep_ops : list op := Submit [1;2;3] 8 2 [] :: repeat Step 8.
Theorem C07_model_sees_effective_input_refuted : ~ C07_model_sees_effective_input_full.
Proof.
  intro H.
  assert (Hw : win_ok keep_cfg) by (intros w E; injection E as <-; lia).
  assert (Hc : 1 <= numCtx keep_cfg) by (cbn; lia).
  pose proof (H (hash_vis 6) keep_cfg 1%nat keep_ops Hc Hw) as H1. cbn zeta in H1.
  assert (Hin : In (EvSubmit 0 [1;2;3] 2 8 []) (log (run (hash_vis 6) keep_cfg (init 1) keep_ops))) by (vm_compute; left; reflexivity).
  assert (Hn : nth_error (samples_of 0 (log (run (hash_vis 6) keep_cfg (init 1) keep_ops))) 4 = Some (5, [(2,2);(3,1);(4,3)])) by (vm_compute; reflexivity).
  pose proof (H1 0%nat [1;2;3] 2 8 [] Hin 4%nat 5 [(2,2);(3,1);(4,3)] Hn) as H2.
  destruct H2 as [H2 _]. vm_compute in H2. discriminate.
Qed.
Print Assumptions C07_model_sees_effective_input_refuted.
(** [C07_model_sees_effective_input] above is the partial statement: its guard [Forall (op_guard cfg) ops] excludes
    exactly that class ([C07_guard_satisfiable_window] below shows it is satisfiable on a window cache). *)

Theorem C07_submit_records_request :
  forall cfg st prompt np keep stops idx,
    snd (submit cfg st prompt np keep stops) = RSubmitted idx ->
    exists inputs keep', new_sequence cfg prompt keep = Ok (inputs, keep') /\
      log (fst (submit cfg st prompt np keep stops)) = log st ++ [EvSubmit (nreq st) inputs keep' np stops].
Proof. exact submit_logs. Qed.
Print Assumptions C07_submit_records_request.

(** Same as a fresh runner: two requests with the same effective input (same prompt after truncation, same keep), in
    ANY two histories - in particular one of them alone on a fresh server with an empty cache, with any number of
    slots - are given the same tokens, position by position, from the same visible histories. *)
Theorem C07_same_as_fresh :
  forall (F : list (Z * tok) -> tok) cfg, 1 <= numCtx cfg -> win_ok cfg ->
    forall parallel ops parallel' ops' r r' W0 keep np stops np' stops',
      Forall (op_guard cfg) ops -> Forall (op_guard cfg) ops' ->
      let st := run F cfg (init parallel) ops in
      let st' := run F cfg (init parallel') ops' in
      In (EvSubmit r W0 keep np stops) (log st) -> In (EvSubmit r' W0 keep np' stops') (log st') ->
      forall j t vis t' vis',
        nth_error (samples_of r (log st)) j = Some (t, vis) ->
        nth_error (samples_of r' (log st')) j = Some (t', vis') ->
        t = t' /\ vis = vis'.
Proof.
  intros F cfg Hc Hw parallel ops parallel' ops' r r' W0 keep np stops np' stops' Hg Hg' st st' H1 H2 j t vis t' vis' E1 E2.
  destruct (C07_model_sees_effective_input F cfg parallel ops Hc Hw Hg r W0 keep np stops H1 j t vis E1) as [A1 A2].
  destruct (C07_model_sees_effective_input F cfg parallel' ops' Hc Hw Hg' r' W0 keep np' stops' H2 j t' vis' E2) as [B1 B2].
  subst. auto.
Qed.
Print Assumptions C07_same_as_fresh.

(** ... and they end at the same point: if a request has finished in one history (EOS, stop sequence or numPredict)
    after n tokens, the same request (same effective input, numPredict and stop sequences) in any other history -
    e.g. alone on a fresh runner - never gets more than n tokens, and if it has finished there too it got exactly n
    and finished for the same reason.  ([nsamples r l] = number of tokens sampled for request r in log l.) *)
Theorem C07_same_length_as_fresh :
  forall (F : list (Z * tok) -> tok) cfg, 1 <= numCtx cfg -> win_ok cfg ->
    forall parallel ops parallel' ops' r r' W0 keep np stops rs,
      Forall (op_guard cfg) ops -> Forall (op_guard cfg) ops' ->
      let st := run F cfg (init parallel) ops in
      let st' := run F cfg (init parallel') ops' in
      In (EvSubmit r W0 keep np stops) (log st) -> In (EvSubmit r' W0 keep np stops) (log st') ->
      In (EvDone r rs) (log st) ->
      (nsamples r' (log st') <= nsamples r (log st))%nat /\
      (forall rs', In (EvDone r' rs') (log st') -> nsamples r' (log st') = nsamples r (log st) /\ rs' = rs).
Proof.
  intros F cfg Hc Hw parallel ops parallel' ops' r r' W0 keep np stops rs Hg Hg' st st' H1 H2 Hd.
  eapply (same_end F cfg st st'); eauto; apply reachable_rinv; auto.
Qed.
Print Assumptions C07_same_length_as_fresh.

(** non-vacuity: the history that exposes the pinned defect (fork a prefix into the second slot, overflow the fork so
    that the shift fails on shared cells and the inputs are reprocessed), with the harness's network: request 1 is
    accepted, six tokens are sampled for it, and alone on a fresh one-slot server it is given the same six. *)
Definition ex_cfg : config := mkCfg 8 8 true true true true (-1) None (-1).
Definition ex_ops : list op :=
  [Submit [1;2;3;4;5;0] 1 0 []; Step; Step; Submit [1;2;3;4;5;1] 6 0 []] ++ repeat Step 9.
Definition ex_fresh : list op := Submit [1;2;3;4;5;1] 6 0 [] :: repeat Step 9.
Example C07_example_fork_overflow :
  In (EvSubmit 1 [1;2;3;4;5;1] 0 6 []) (log (run (hash_vis 6) ex_cfg (init 2) ex_ops)) /\
  In (EvSubmit 0 [1;2;3;4;5;1] 0 6 []) (log (run (hash_vis 6) ex_cfg (init 1) ex_fresh)) /\
  map fst (samples_of 1 (log (run (hash_vis 6) ex_cfg (init 2) ex_ops))) = [3;1;3;5;4;1] /\
  map fst (samples_of 0 (log (run (hash_vis 6) ex_cfg (init 1) ex_fresh))) = [3;1;3;5;4;1] /\
  In (EvDone 1 DoneLength) (log (run (hash_vis 6) ex_cfg (init 2) ex_ops)) /\
  In (EvDone 0 DoneLength) (log (run (hash_vis 6) ex_cfg (init 1) ex_fresh)) /\
  (* the fork's shift failed: its inputs were emptied and reprocessed *)
  s_inputs (nth_slot (slots (run (hash_vis 6) ex_cfg (init 2) (firstn 8 ex_ops))) 1) = [].
Proof. vm_compute. repeat split; auto; repeat (try (left; reflexivity); right). Qed.

(** non-vacuity of the two slot theorems: with slot 0 in use, the multi-user policy forks its prefix into slot 1; and
    in the middle of the history above (request 0 finished, its slot idle) a second request is accepted. *)
Example C07_example_load :
  exists sl' kv', load_cache_slot ex_cfg 1 [mkSlot [1;2;3] true 1; mkSlot [] false 0]
                                  [mkCell 0 1 [0%nat]; mkCell 1 2 [0%nat]; mkCell 2 3 [0%nat]] [1;2;9]
                  = Ok (sl', kv', 1%nat, [9]) /\ view kv' 1 = [(0,1);(1,2)].
Proof. eexists. eexists. vm_compute. split; reflexivity. Qed.
Example C07_example_submit :
  snd (submit ex_cfg (run (hash_vis 6) ex_cfg (init 2) (firstn 3 ex_ops)) [1;2;3;4;5;1] 6 0 []) = RSubmitted 0.
Proof. vm_compute. reflexivity. Qed.

(** Sliding-window caches: this example pins what the model says about the position LoadCacheSlot asks CanResume
    about: window 5, a 7-token prompt evaluated in batches of 2, two
    tokens generated, the same prompt again.  The slot records 8 inputs, the cache still holds positions 2..7;
    resuming at 7 (= len(prompt)) would be possible, but one input must be left to sample, so the slot is resumed at
    6, whose window needs position 1: the model (as the code) asks about 6, gets "no" and reloads from scratch. *)
Definition swa_cfg : config := mkCfg 11 2 false true true true (-1) (Some 5) (-1).
Definition swa_ops : list op := Submit [2;0;0;1;0;1;0] 2 0 [] :: repeat Step 6.
Example C07_example_swa_resume_position :
  let st := run (hash_vis 3) swa_cfg (init 2) swa_ops in
  map fst (view (kv st) 0) = [2;3;4;5;6;7] /\
  can_resume swa_cfg (kv st) 0 7 = true /\ can_resume swa_cfg (kv st) 0 6 = false /\
  s_inputs (nth_slot (slots (fst (submit swa_cfg st [2;0;0;1;0;1;0] 1 0 []))) 0) = [].
Proof. vm_compute. repeat split; reflexivity. Qed.

(** what the repair changed: on the same cache state the pinned reset Remove(seq, 0, -1) leaves the fork's sequence
    populated (its first cell is shared, so the scan stops at once) while slot.Inputs is emptied; the repaired reset
    Remove(seq, 0, math.MaxInt32) empties it. *)
Example C07_pinned_reset_leaves_cells :
  let st := run (hash_vis 6) ex_cfg (init 2) (firstn 7 ex_ops) in
  kv_remove_range ex_cfg (kv st) 1 0 4 = None /\
  view (kv_reset_pinned (kv st) 1) 1 = [(0,1);(1,2);(2,3);(3,4);(4,5);(5,1);(6,3);(7,1)] /\
  view (kv_trunc (kv st) 1 0) 1 = [].
Proof. vm_compute. repeat split; auto. Qed.

(** the guard is satisfiable on a window cache: the history of the previous example (keep = 0) *)
Example C07_guard_satisfiable_window : win_ok swa_cfg /\ Forall (op_guard swa_cfg) swa_ops.
Proof.
  split; [intros w E; injection E as <-; lia|].
  apply Forall_forall. intros o Ho. destruct o; cbn; [|exact I].
  destruct Ho as [Ho|Ho]; [injection Ho as _ _ <- _; right; left; reflexivity|].
  apply repeat_spec in Ho. discriminate.
Qed.

(** After any history, neither accepting a request nor a batch fails: LoadCacheSlot finds a slot whenever a sequence
    entry is free (no "no available cache slots", no nil dereference in findBestCacheSlot), ShiftCacheSlot's
    "keep exceeds context" is unreachable, and the stop handling never slices with a negative bound (this last part
    is what fixes/C07-stop-trim-negative.patch repairs; a panic in processBatch kills every in-flight request).
    ([RCacheFull] is a separate outcome: see [C07_no_cache_full_refuted].) *)
Theorem C07_no_runner_failure :
  forall (F : list (Z * tok) -> tok) cfg parallel ops o,
    1 <= numCtx cfg -> win_ok cfg -> Forall (op_guard cfg) ops ->
    match snd (step_op F cfg (run F cfg (init parallel) ops) o) with
    | RPanic | RFatal | RLoadErr => False
    | _ => True
    end.
Proof. intros F cfg parallel ops o Hc Hw Hg. apply step_op_no_failure; auto. apply reachable_inv; auto. Qed.
Print Assumptions C07_no_runner_failure.

(** Capacity.  [cacheCells cfg] is what Causal.Init allocated; a batch whose entries do not fit next to the cells still
    referenced by some sequence makes Forward fail with ErrKvCacheFull ([RCacheFull]; processBatch returns the error
    and the run loop panics).  "It never happens" is false for the allocation of a sliding-window cache
    (maxSequences*window + maxBatch): eviction only touches the sequences of the current batch, so every slot can hold
    window + its last batch.  Witness = known finding C07-swa-capacity: 3 slots, context 6, batch 1, window 3,
    10 cells; four requests, and the 16th operation finds the cache full with every slot record still matching it. *)
Definition C07_no_cache_full_full : Prop :=
  forall (F : list (Z * tok) -> tok) cfg parallel ops o,
    1 <= numCtx cfg -> win_ok cfg -> Forall (op_guard cfg) ops ->
    snd (step_op F cfg (run F cfg (init parallel) ops) o) <> RCacheFull.
Definition cap_cfg : config := mkCfg 6 1 true false true true (-1) (Some 3) 10.
Definition cap_ops : list op :=
  [Submit [4] 3 0 []; Step; Step; Step; Step; Submit [4;2] 3 0 []; Step; Step; Submit [4;2;4;2] 6 0 []; Step; Step;
   Submit [4;2;4;2] 3 0 []; Step; Step; Step].
Theorem C07_no_cache_full_refuted : ~ C07_no_cache_full_full.
Proof.
  intro H.
  assert (Hw : win_ok cap_cfg) by (intros w E; injection E as <-; lia).
  assert (Hc : 1 <= numCtx cap_cfg) by (cbn; lia).
  assert (Hg : Forall (op_guard cap_cfg) cap_ops).
  { apply Forall_forall. intros o Ho. destruct o as [p np k st|]; cbn; [|exact I].
    repeat (destruct Ho as [Ho|Ho]; [try discriminate; injection Ho as _ _ <- _; right; left; reflexivity|]). destruct Ho. }
  apply (H (hash_vis 6) cap_cfg 3%nat cap_ops Step Hc Hw Hg). vm_compute. reflexivity.
Qed.
Print Assumptions C07_no_cache_full_refuted.

(** With an allocation of at least slots x context cells (what Causal.Init gives a cache without window, and what the
    window cache lacks) it never happens: every cell belongs to slot sequences only and no sequence holds more
    cells than the context ([WCap.v]). *)
Theorem C07_no_cache_full_partial :
  forall (F : list (Z * tok) -> tok) cfg parallel ops o,
    1 <= numCtx cfg -> win_ok cfg -> Forall (op_guard cfg) ops ->
    (cacheCells cfg < 0 \/ Z.of_nat parallel * numCtx cfg <= cacheCells cfg) ->
    snd (step_op F cfg (run F cfg (init parallel) ops) o) <> RCacheFull.
Proof. exact step_not_full. Qed.
Print Assumptions C07_no_cache_full_partial.

(** the capacity hypothesis holds for the cache of the first example (2 slots x context 8 = 16 cells) *)
Example C07_capacity_satisfiable : Z.of_nat 2 * numCtx (mkCfg 8 8 true true true true (-1) None 16) <= cacheCells (mkCfg 8 8 true true true true (-1) None 16).
Proof. vm_compute. discriminate. Qed.

(** a full context always frees at least one entry, and never more than what is not kept *)
Theorem C07_shift_discard_bounds :
  forall cfg inputLen numKeep,
    0 <= numKeep < numCtx cfg -> numCtx cfg <= inputLen ->
    1 <= shift_discard cfg inputLen numKeep /\ numKeep + shift_discard cfg inputLen numKeep <= inputLen.
Proof. exact shift_discard_bounds. Qed.
Print Assumptions C07_shift_discard_bounds.

(** * runner/llamarunner/cache.go (Slots/Llama.v: its LoadCacheSlot / findBestCacheSlot fork / ShiftCacheSlot over the
    llama.cpp cache calls, as a transition system of load / decode / shift / stop-trim / release)

    The slot = cache statement for every history of the llamarunner input cache: *)
Definition C07_llama_slot_matches_cache_full : Prop :=
  forall cfg parallel ops, 1 <= numCtx cfg -> window cfg = None ->
    let st := lrun cfg (linit parallel) ops in
    forall i, (i < length (l_slots st))%nat ->
      let s := nth_slot (l_slots st) i in
      filter (fun e => fst e <? zlen (s_inputs s)) (view (l_kv st) i) = enumerate 0 (s_inputs s) /\
      (s_inuse s = true -> view (l_kv st) i = enumerate 0 (s_inputs s)).

(** It is false with the multi-user policy: findBestCacheSlot forks with KvCacheSeqCp, which SHARES the cells between
    the two sequences, and ShiftCacheSlot's KvCacheSeqAdd moves every cell that carries the shifted sequence - also for
    the other sequence (llama_kv_cache_unified::seq_add).  Witness: context 8; [1..6] evaluated in slot 0 and
    released; [1,2,3,4,5,9] forks 5 cells into slot 1 and grows to 8 inputs; the shift (keep 0, discard 4) moves the
    shared cell at position 4 to position 0: slot 0 still records [1..6] but its sequence now has two cells at
    position 0 and none at 4.  (ollamarunner's Go cache refuses such a shift and the inputs are reprocessed.)
    Found by reading + this model; llama.cpp cannot be run here (no model file), so it is not confirmed by execution. *)
Definition ll_cfg : config := mkCfg 8 8 true true true true (-1) None (-1).
Definition ll_ops : list lop :=
  [LLoad [1;2;3;4;5;6] true; LDecode 0 [1;2;3;4;5;6]; LRelease 0; LLoad [1;2;3;4;5;9] true; LDecode 1 [9;7;8]; LShift 1 0].
Theorem C07_llama_slot_matches_cache_refuted : ~ C07_llama_slot_matches_cache_full.
Proof.
  intro H. assert (Hc : 1 <= numCtx ll_cfg) by (cbn; lia).
  pose proof (H ll_cfg 2%nat ll_ops Hc eq_refl 0%nat) as H0. cbn zeta in H0.
  assert (Hlen : (0 < length (l_slots (lrun ll_cfg (linit 2) ll_ops)))%nat) by (vm_compute; lia).
  destruct (H0 Hlen) as [H1 _]. vm_compute in H1. discriminate.
Qed.
Print Assumptions C07_llama_slot_matches_cache_refuted.

(** With the single-user policy (the default: no fork, no shared cell) it holds for every history, context size, keep
    count, with or without shift support / partial erasure. *)
Theorem C07_llama_slot_matches_cache_partial :
  forall cfg parallel ops, window cfg = None -> multiUser cfg = false ->
    let st := lrun cfg (linit parallel) ops in
    forall i, (i < length (l_slots st))%nat ->
      let s := nth_slot (l_slots st) i in
      filter (fun e => fst e <? zlen (s_inputs s)) (view (l_kv st) i) = enumerate 0 (s_inputs s) /\
      (s_inuse s = true -> view (l_kv st) i = enumerate 0 (s_inputs s)).
Proof.
  intros cfg parallel ops Hn Hs st i Hi. destruct (lrun_inv cfg (linit parallel) ops Hs (linit_inv parallel)) as [_ H].
  exact (H i Hi).
Qed.
Print Assumptions C07_llama_slot_matches_cache_partial.

(** non-vacuity: a single-user history with a successful shift *)
Example C07_llama_example :
  let cfg := mkCfg 4 8 false true true true (-1) None (-1) in
  let st := lrun cfg (linit 1) [LLoad [1;2] true; LDecode 0 [1;2]; LDecode 0 [3;4]; LShift 0 1; LDecode 0 [5]] in
  map (fun s => (s_inputs s, s_inuse s)) (l_slots st) = [([1;3;4;5], true)] /\ view (l_kv st) 0 = [(0,1);(1,3);(2,4);(3,5)].
Proof. vm_compute. split; reflexivity. Qed.

(** * A wrapper of caches behind the runner (kvcache/wrapper.go; gemma2/gemma3: sliding-window cache for the local layers +
    causal cache for the global layers)

    Model: Slots/Wrap.v.  [w_run F (w_init cfgs parallel) ops] is the state after a history: one (configuration, single-cache
    state) per wrapped cache; [cfgs] gives every wrapped cache its own window (None: causal) and capacity; the joint
    decisions are WrapperCache.CanResume = conjunction of all answers, a partial Remove succeeds only if it succeeds in
    every cache, StartForward fails if any cache is full; the network [F] is a function of the histories ALL caches expose.

    After any history EVERY wrapped cache holds, for every slot, exactly the recorded inputs from some position [lo] on,
    and for a slot in use nothing else and at least the window before its next position - i.e. exactly what evaluating
    the recorded inputs on a fresh runner leaves in that cache within the window the next token attends to.  In
    particular after a slot is reused (LoadCacheSlot after CanResume = true, on the same slot or on a forked one).
    Hypotheses as for [C07_slot_matches_cache], per wrapped cache.  (That all components carry the same slot records and
    sequences is not part of this statement; it is compared on every run, Slots/Wrap.v [chk_from_w].) *)
Theorem C07_wrapper_slot_matches_every_cache :
  forall (F : list (Z * tok) -> tok) cfgs parallel ops,
    Forall (fun cfg => 1 <= numCtx cfg /\ win_ok cfg) cfgs ->
    Forall (fun o => Forall (fun cfg => op_guard cfg o) cfgs) ops ->
    let cs := w_run F (w_init cfgs parallel) ops in
    map fst cs = cfgs /\
    forall cfg st, In (cfg, st) cs ->
      forall i, (i < length (slots st))%nat ->
        let s := nth_slot (slots st) i in
        exists lo, (window cfg = None -> lo <= 0) /\
          filter (fun e => fst e <? zlen (s_inputs s)) (view (kv st) i) = wenum lo (s_inputs s) /\
          (s_inuse s = true -> view (kv st) i = wenum lo (s_inputs s) /\ lo <= wlo cfg (zlen (s_inputs s))).
Proof.
  intros F cfgs parallel ops Hc Hg cs.
  destruct (w_run_ok F ops (w_init cfgs parallel)) as [Hi He].
  - unfold wcfg_ok, w_init. apply Forall_map. cbn [fst]. exact Hc.
  - rewrite Forall_forall in *. intros o Ho. unfold wguard, w_init. apply Forall_map. cbn [fst]. apply Hg. exact Ho.
  - apply w_init_inv.
  - fold cs in Hi, He. rewrite w_init_cfgs in He. split; [exact He|].
    intros cfg st Hin i Hlt. unfold winv in Hi. rewrite Forall_forall in Hi. destruct (Hi _ Hin) as [Hm _]. cbn [fst snd] in Hm.
    exact (inv_slots_ok _ _ _ _ _ Hm i Hlt).
Qed.
Print Assumptions C07_wrapper_slot_matches_every_cache.

(** The conjunction matters: if a wrapped cache is made to resume whenever SOME wrapped cache says yes ([w_submit_any]:
    "any" instead of "all" in WrapperCache.CanResume), the statement is false.  Witness: window 2 + causal, one slot; a
    request [1;2;3] generates 6 tokens (the window cache then holds positions 6..8 only); a second request shares the
    prefix [1;2;3]: the causal cache says it can resume at 3, the slot records [1;2;3] as cached, Remove(3, end) empties
    the window cache: the local layers see none of the reused prefix. *)
Definition C07_wrapper_resume_any_full : Prop :=
  forall (F : list (Z * tok) -> tok) cfgs parallel ops prompt np keep stops,
    Forall (fun cfg => 1 <= numCtx cfg /\ win_ok cfg) cfgs ->
    Forall (fun o => Forall (fun cfg => op_guard cfg o) cfgs) ops ->
    Forall (fun cfg => shift_guard cfg keep) cfgs ->
    let cs := fst (w_submit_any (w_run F (w_init cfgs parallel) ops) prompt np keep stops) in
    forall cfg st, In (cfg, st) cs -> slots_ok cfg (kv st) (slots st).

Definition wrap_cfgs : list config :=
  [mkCfg 16 4 false true true true (-1) (Some 2) (-1); mkCfg 16 4 false true true true (-1) None (-1)].
Definition wrap_ops : list op := Submit [1; 2; 3] 6 0 [] :: repeat Step 8.

Theorem C07_wrapper_resume_any_refuted : ~ C07_wrapper_resume_any_full.
Proof.
  intro H. pose proof (H (hash_vis 6) wrap_cfgs 1%nat wrap_ops [1; 2; 3; 0] 2 0 []) as H1. clear H.
  assert (Hc : Forall (fun cfg => 1 <= numCtx cfg /\ win_ok cfg) wrap_cfgs).
  { repeat constructor; cbn; try lia; intros w Hw; inversion Hw; lia. }
  assert (G0 : forall cfg, shift_guard cfg 0) by (intro; right; left; reflexivity).
  assert (Hg : Forall (fun o => Forall (fun cfg => op_guard cfg o) wrap_cfgs) wrap_ops).
  { apply Forall_forall. intros o Ho. destruct Ho as [<-|Ho]; [|apply repeat_spec in Ho; subst o];
      apply Forall_forall; intros cfg _; cbn [op_guard]; [apply G0|exact I]. }
  assert (Hk : Forall (fun cfg => shift_guard cfg 0) wrap_cfgs) by (apply Forall_forall; intros; apply G0).
  specialize (H1 Hc Hg Hk). cbv zeta in H1.
  assert (Hf : exists cfg st r,
             fst (w_submit_any (w_run (hash_vis 6) (w_init wrap_cfgs 1) wrap_ops) [1; 2; 3; 0] 2 0 []) = (cfg, st) :: r /\
             window cfg = Some 2 /\ length (slots st) = 1%nat /\ s_inuse (nth_slot (slots st) 0) = true /\
             s_inputs (nth_slot (slots st) 0) = [1; 2; 3] /\ view (kv st) 0 = []).
  { vm_compute. do 3 eexists. split; [reflexivity|]. vm_compute. repeat split; reflexivity. }
  destruct Hf as (cfg & st & r & E & Hw & Hl & Hu & Hin & Hv).
  destruct (H1 cfg st ltac:(rewrite E; left; reflexivity) 0%nat ltac:(lia)) as (lo & _ & _ & Huse).
  destruct (Huse Hu) as [Hview Hlo]. rewrite Hv, Hin in Hview. rewrite Hin in Hlo. unfold wlo in Hlo. rewrite Hw in Hlo.
  change (lo <= Z.max 0 (3 - 2)) in Hlo.
  assert (Hmem : In (2, 3) (wenum lo [1; 2; 3])).
  { unfold wenum. apply filter_In. split; [cbn; auto|]. cbn [fst]. apply Z.leb_le. lia. }
  rewrite <- Hview in Hmem. exact Hmem.
Qed.
Print Assumptions C07_wrapper_resume_any_refuted.

(** with the conjunction the same history is fine: the window cache refuses, the whole prompt is evaluated again *)
Example wrapper_resume_all_reprocesses :
  match fst (w_submit (w_run (hash_vis 6) (w_init wrap_cfgs 1) wrap_ops) [1; 2; 3; 0] 2 0 []) with
  | (_, st) :: _ => s_inputs (nth_slot (slots st) 0) = [] /\ view (kv st) 0 = []
  | [] => False
  end.
Proof. vm_compute. split; reflexivity. Qed.

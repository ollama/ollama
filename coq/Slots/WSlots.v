(** C07 — the input cache functions (slot choice, LoadCacheSlot, ShiftCacheSlot) preserve the correspondence
    between a slot's recorded inputs and the cache contents of its sequence. *)
From Coq Require Import List ZArith NArith Bool Arith Lia ZifyBool ZifyNat.
From V Require Import Slots.Model Slots.ProofsKv Slots.ProofsWin.
Import ListNotations.
Open Scope Z_scope.

(** A sequence holds the enumeration of its slot's recorded inputs from some position [lo] on ([wenum lo inputs]).
    Without a sliding window [lo <= 0]: everything.  With a window, a slot in use holds at least the window before
    its next position ([lo <= wlo cfg n]); an idle slot holds some suffix (CanResume decides at reuse).  An idle slot
    may also hold cells at positions >= n (the stop handling of processBatch shortens the record without touching the
    cache; LoadCacheSlot erases from numPast <= n before the slot is used again). *)
Definition view_lt (kv0 : kvcache) (i : nat) (n : Z) : list (Z * tok) := filter (fun e => fst e <? n) (view kv0 i).
Definition slot_ok (cfg : config) (kv0 : kvcache) (i : nat) (s : slot) : Prop :=
  exists lo, (window cfg = None -> lo <= 0) /\
    view_lt kv0 i (zlen (s_inputs s)) = wenum lo (s_inputs s) /\
    (s_inuse s = true -> view kv0 i = wenum lo (s_inputs s) /\ lo <= wlo cfg (zlen (s_inputs s))).
Definition slots_ok (cfg : config) (kv0 : kvcache) (sl : list slot) : Prop :=
  forall i, (i < length sl)%nat -> slot_ok cfg kv0 i (nth_slot sl i).

Definition win_ok (cfg : config) : Prop := forall w, window cfg = Some w -> 1 <= w.

Lemma wlo_none cfg n : window cfg = None -> wlo cfg n = 0.
Proof. intro H. unfold wlo. rewrite H. reflexivity. Qed.
Lemma wlo_nonneg cfg n : 0 <= wlo cfg n.
Proof. unfold wlo. destruct (window cfg); lia. Qed.
Lemma wlo_le cfg n : win_ok cfg -> 0 <= n -> wlo cfg n <= n.
Proof. intros Hw Hn. unfold wlo. destruct (window cfg) as [w|] eqn:E; [specialize (Hw w E)|]; lia. Qed.
Lemma wlo_mono cfg n m : n <= m -> wlo cfg n <= wlo cfg m.
Proof. intro H. unfold wlo. destruct (window cfg); lia. Qed.
Lemma lo_none cfg lo n : window cfg = None -> lo <= wlo cfg n -> lo <= 0.
Proof. intros H Hl. rewrite wlo_none in Hl by auto. exact Hl. Qed.

Lemma exact_view_lt kv0 i lo l : view kv0 i = wenum lo l -> view_lt kv0 i (zlen l) = wenum lo l.
Proof.
  intro H. unfold view_lt. rewrite H, filter_lt_wenum by apply zlen_nonneg.
  rewrite firstn_all2; [reflexivity|]. unfold zlen. lia.
Qed.

(** the two halves of [slot_ok], for recorded inputs [C] *)
Definition holds (cfg : config) (kv0 : kvcache) (i : nat) (C : list tok) : Prop :=
  exists lo, lo <= wlo cfg (zlen C) /\ view kv0 i = wenum lo C.
Definition holds_below (cfg : config) (kv0 : kvcache) (i : nat) (C : list tok) : Prop :=
  exists lo, (window cfg = None -> lo <= 0) /\ view_lt kv0 i (zlen C) = wenum lo C.

Lemma holds_holds_below cfg kv0 i C : holds cfg kv0 i C -> holds_below cfg kv0 i C.
Proof. intros (lo & Hlo & Hv). exists lo. split; [intro Hn; eapply lo_none; eauto|apply exact_view_lt; exact Hv]. Qed.

Lemma exact_slot_ok cfg kv0 i s lo :
  view kv0 i = wenum lo (s_inputs s) -> lo <= wlo cfg (zlen (s_inputs s)) -> slot_ok cfg kv0 i s.
Proof.
  intros H Hl. exists lo. split; [intro Hn; eapply lo_none; eauto|]. split; [apply exact_view_lt; auto|auto].
Qed.

Lemma view_lt_prefix kv0 i lo l k :
  view_lt kv0 i (zlen l) = wenum lo l -> 0 <= k <= zlen l ->
  filter (fun e => fst e <? k) (view kv0 i) = wenum lo (firstn (Z.to_nat k) l).
Proof.
  intros H Hk. rewrite <- filter_lt_wenum by lia. rewrite <- H. unfold view_lt.
  rewrite filter_filter. apply filter_ext. intros [q t]. cbn [fst]. lia.
Qed.

Lemma set_nth_length {A} (l : list A) i x : length (set_nth l i x) = length l.
Proof. revert i. induction l; intros [|i]; cbn; auto. Qed.
Lemma nth_set_nth_same {A} (l : list A) i x d : (i < length l)%nat -> nth i (set_nth l i x) d = x.
Proof. revert i. induction l; intros [|i] H; cbn in *; try lia; auto. apply IHl. lia. Qed.
Lemma nth_set_nth_other {A} (l : list A) i j x d : i <> j -> nth j (set_nth l i x) d = nth j l d.
Proof. revert i j. induction l; intros [|i] [|j] H; cbn; auto; try lia. Qed.
Lemma nth_slot_set_same sl i x : (i < length sl)%nat -> nth_slot (set_nth sl i x) i = x.
Proof. apply nth_set_nth_same. Qed.
Lemma nth_slot_set_other sl i j x : i <> j -> nth_slot (set_nth sl i x) j = nth_slot sl j.
Proof. apply nth_set_nth_other. Qed.

Lemma common_prefix_spec a b :
  let c := common_prefix a b in (c <= length a)%nat /\ (c <= length b)%nat /\ firstn c a = firstn c b.
Proof.
  revert b. induction a as [|x a IH]; intros [|y b]; cbn; try (repeat split; lia).
  destruct (x =? y) eqn:E; cbn; [|repeat split; lia].
  destruct (IH b) as (H1 & H2 & H3). apply Z.eqb_eq in E. subst. repeat split; try lia. f_equal. auto.
Qed.

(** the three scans of cache.go are one loop: among the slots [key] does not skip, the first with the strictly best key *)
Fixpoint scan {K} (key : slot -> option K) (better : K -> K -> bool) (sl : list slot) (i : nat) (best : option (nat * K))
  : option (nat * K) :=
  match sl with
  | [] => best
  | s :: r =>
      scan key better r (S i)
           match key s with
           | None => best
           | Some k => match best with None => Some (i, k) | Some (_, b) => if better b k then Some (i, k) else best end
           end
  end.

Definition idle_prefix (prompt : list tok) (s : slot) : option nat :=
  if s_inuse s then None else Some (common_prefix (s_inputs s) prompt).
Definition idle_last (s : slot) : option nat := if s_inuse s then None else Some (s_last s).

Lemma find_longest_aux_scan sl prompt : forall i best, find_longest_aux sl i prompt best = scan (idle_prefix prompt) Nat.ltb sl i best.
Proof. induction sl as [|s sl IH]; intros i best; cbn [find_longest_aux scan]; [reflexivity|]. rewrite IH. unfold idle_prefix. destruct (s_inuse s); reflexivity. Qed.
Lemma best_longest_aux_scan sl prompt : forall i best,
  best_longest_aux sl i prompt best = scan (fun s => Some (common_prefix (s_inputs s) prompt)) Nat.ltb sl i best.
Proof. induction sl as [|s sl IH]; intros i best; cbn [best_longest_aux scan]; [reflexivity|]. apply IH. Qed.
Lemma best_oldest_aux_scan sl : forall i best, best_oldest_aux sl i best = scan idle_last (fun b k => (k <? b)%nat) sl i best.
Proof. induction sl as [|s sl IH]; intros i best; cbn [best_oldest_aux scan]; [reflexivity|]. rewrite IH. unfold idle_last. destruct (s_inuse s); reflexivity. Qed.

Lemma scan_spec {K} (key : slot -> option K) better sl i0 best i k :
  scan key better sl i0 best = Some (i, k) ->
  best = Some (i, k) \/ ((i0 <= i < i0 + length sl)%nat /\ key (nth (i - i0) sl (mkSlot [] false O)) = Some k).
Proof.
  revert i0 best. induction sl as [|s sl IH]; intros i0 best H; cbn [scan] in H; [auto|].
  apply IH in H. destruct H as [H|(H1 & H2)].
  - assert (Hhere : forall k0, key s = Some k0 -> Some (i0, k0) = Some (i, k) ->
                      (i0 <= i < i0 + length (s :: sl))%nat /\ key (nth (i - i0) (s :: sl) (mkSlot [] false O)) = Some k).
    { intros k0 Ek E. injection E as <- <-. rewrite Nat.sub_diag. cbn. split; [lia|exact Ek]. }
    destruct (key s) as [k0|] eqn:Ek; [|auto]. destruct best as [[bi b]|]; [|right; eauto].
    destruct (better b k0); [right; eauto|auto].
  - right. cbn [length]. replace (i - i0)%nat with (S (i - S i0)) by lia. cbn [nth]. split; [lia|auto].
Qed.

Lemma scan_some {K} (key : slot -> option K) better sl i0 best :
  (best <> None \/ exists j, (j < length sl)%nat /\ key (nth j sl (mkSlot [] false O)) <> None) ->
  scan key better sl i0 best <> None.
Proof.
  revert i0 best. induction sl as [|s sl IH]; intros i0 best H; cbn [scan].
  - destruct H as [H|(j & Hj & _)]; [auto|cbn in Hj; lia].
  - apply IH. destruct H as [H|([|j] & Hj & Hk)]; cbn [nth] in *.
    + left. destruct (key s); [|auto]. destruct best as [[bi b]|]; [|discriminate]. destruct (better b k); [discriminate|auto].
    + left. destruct (key s); [|congruence]. destruct best as [[bi b]|]; [|discriminate]. destruct (better b k); discriminate.
    + right. exists j. cbn in Hj. split; [lia|auto].
Qed.

(** Either policy hands out an idle slot together with a number of leading inputs it shares with the prompt; the
    multi-user policy may first fork that prefix from another slot into it. *)
Definition find_slot (cfg : config) (sl : list slot) (kv0 : kvcache) (prompt : list tok) : res (list slot * kvcache * nat * nat) :=
  if multiUser cfg then find_best sl kv0 prompt
  else match find_longest sl prompt with Ok (i, n) => Ok (sl, kv0, i, n) | Err => Err | Panic => Panic end.

Definition shares (sl : list slot) (prompt : list tok) (i n : nat) : Prop :=
  (i < length sl)%nat /\ (n <= length (s_inputs (nth_slot sl i)))%nat /\ (n <= length prompt)%nat /\
  firstn n (s_inputs (nth_slot sl i)) = firstn n prompt.

Lemma shares_prefix sl prompt i : (i < length sl)%nat -> shares sl prompt i (common_prefix (s_inputs (nth_slot sl i)) prompt).
Proof. intro Hi. destruct (common_prefix_spec (s_inputs (nth_slot sl i)) prompt) as (A & B & C). repeat split; auto. Qed.

Lemma find_longest_idle sl prompt i n :
  find_longest sl prompt = Ok (i, n) -> s_inuse (nth_slot sl i) = false /\ shares sl prompt i n.
Proof.
  unfold find_longest. rewrite find_longest_aux_scan. intro H.
  destruct (scan (idle_prefix prompt) Nat.ltb sl 0 None) as [[i' n']|] eqn:E; [|discriminate]. injection H as -> ->.
  apply scan_spec in E as [E|(H1 & H2)]; [discriminate|]. rewrite Nat.sub_0_r in H2. fold (nth_slot sl i) in H2.
  unfold idle_prefix in H2. destruct (s_inuse (nth_slot sl i)); [discriminate|]. injection H2 as <-.
  split; [reflexivity|apply shares_prefix; lia].
Qed.

Definition all_inuse (sl : list slot) : Prop := forall j, (j < length sl)%nat -> s_inuse (nth_slot sl j) = true.

Lemma scan_idle_none {K} (f : slot -> K) better sl :
  scan (fun s => if s_inuse s then None else Some (f s)) better sl 0 None = None -> all_inuse sl.
Proof.
  intros E j Hj. destruct (s_inuse (nth_slot sl j)) eqn:Hu; [reflexivity|]. exfalso. revert E. apply scan_some.
  right. exists j. split; [exact Hj|]. fold (nth_slot sl j). rewrite Hu. discriminate.
Qed.

Lemma find_slot_cases cfg sl kv0 prompt :
  match find_slot cfg sl kv0 prompt with
  | Ok (sl1, kv1, i, n) =>
      s_inuse (nth_slot sl i) = false /\ (i < length sl)%nat /\
      ((sl1 = sl /\ kv1 = kv0 /\ shares sl prompt i n) \/
       exists li, li <> i /\ shares sl prompt li n /\
         sl1 = set_nth sl i (mkSlot (firstn n (s_inputs (nth_slot sl li))) (s_inuse (nth_slot sl i)) (s_last (nth_slot sl i))) /\
         kv1 = kv_copy_prefix kv0 li i (Z.of_nat n))
  | _ => all_inuse sl
  end.
Proof.
  unfold find_slot. destruct (multiUser cfg).
  - unfold find_best. rewrite best_longest_aux_scan, best_oldest_aux_scan.
    destruct (scan _ Nat.ltb sl 0 None) as [[li longest]|] eqn:EL.
    2:{ intros j Hj. exfalso. revert EL. apply scan_some. right. exists j. split; [exact Hj|discriminate]. }
    apply scan_spec in EL as [EL|(L1 & L2)]; [discriminate|]. rewrite Nat.sub_0_r in L2. fold (nth_slot sl li) in L2. injection L2 as <-.
    pose proof (shares_prefix sl prompt li ltac:(lia)) as Hsh. set (longest := common_prefix (s_inputs (nth_slot sl li)) prompt) in *.
    destruct ((longest =? length (s_inputs (nth_slot sl li)))%nat && negb (s_inuse (nth_slot sl li))) eqn:Efull.
    { apply andb_true_iff in Efull as [_ Hu]. apply negb_true_iff in Hu. split; [exact Hu|]. split; [lia|auto]. }
    destruct (scan idle_last _ sl 0 None) as [[oi olast]|] eqn:EO; [|apply (scan_idle_none _ _ _ EO)].
    apply scan_spec in EO as [EO|(O1 & O2)]; [discriminate|]. rewrite Nat.sub_0_r in O2. fold (nth_slot sl oi) in O2.
    assert (Hu : s_inuse (nth_slot sl oi) = false) by (unfold idle_last in O2; destruct (s_inuse (nth_slot sl oi)); [discriminate|reflexivity]).
    destruct ((0 <? longest)%nat && negb (li =? oi)%nat) eqn:Efork; (split; [exact Hu|]; split; [lia|]).
    + apply andb_true_iff in Efork as [_ Hne]. apply negb_true_iff, Nat.eqb_neq in Hne. right. exists li. auto.
    + left. split; [reflexivity|]. split; [reflexivity|].
      apply andb_false_iff in Efork as [E|E]; [|apply negb_false_iff, Nat.eqb_eq in E; subst oi; exact Hsh].
      replace longest with 0%nat by lia. repeat split; [lia|lia|lia].
  - destruct (find_longest sl prompt) as [[i n]| |] eqn:EF.
    + destruct (find_longest_idle _ _ _ _ EF) as [Hu Hsh]. split; [exact Hu|]. split; [apply Hsh|auto].
    + unfold find_longest in EF. rewrite find_longest_aux_scan in EF. destruct (scan _ _ sl 0 None) as [[i n]|] eqn:E; [discriminate|].
      apply (scan_idle_none _ _ _ E).
    + unfold find_longest in EF. destruct (find_longest_aux sl 0 prompt None) as [[i n]|]; discriminate.
Qed.

Definition found_ok (cfg : config) (sl : list slot) (kv0 : kvcache) (prompt : list tok) (sl1 : list slot) (kv1 : kvcache) (i n : nat) : Prop :=
  length sl1 = length sl /\ (i < length sl)%nat /\ s_inuse (nth_slot sl i) = false /\ s_inuse (nth_slot sl1 i) = false /\
  (forall j, j <> i -> nth_slot sl1 j = nth_slot sl j) /\ shares sl1 prompt i n /\
  (forall j, j <> i -> view kv1 j = view kv0 j) /\
  slot_ok cfg kv1 i (nth_slot sl1 i).

Lemma find_slot_ok cfg sl kv0 prompt sl1 kv1 i n :
  slots_ok cfg kv0 sl -> find_slot cfg sl kv0 prompt = Ok (sl1, kv1, i, n) -> found_ok cfg sl kv0 prompt sl1 kv1 i n.
Proof.
  intros Hok EF. pose proof (find_slot_cases cfg sl kv0 prompt) as H. rewrite EF in H.
  destruct H as (Hu & Hi & [(-> & -> & Hsh)|(li & Hne & (L1 & L2 & L3 & L4) & -> & ->)]).
  - split; [reflexivity|]. split; [exact Hi|]. split; [exact Hu|]. split; [exact Hu|]. split; [auto|]. split; [exact Hsh|].
    split; [auto|]. apply Hok. exact Hi.
  - (* fork the prefix of the longest slot into the oldest *)
    destruct (Hok li L1) as (lo & Hlo0 & Hlt & _).
    assert (Hview : view (kv_copy_prefix kv0 li i (Z.of_nat n)) i = wenum lo (firstn n (s_inputs (nth_slot sl li)))).
    { rewrite view_copy_dst by auto.
      rewrite (view_lt_prefix kv0 li lo (s_inputs (nth_slot sl li)) (Z.of_nat n) Hlt) by (unfold zlen; lia).
      rewrite Nat2Z.id. reflexivity. }
    unfold found_ok, shares. rewrite set_nth_length, nth_slot_set_same by lia. cbn [s_inputs s_inuse].
    split; [auto|]. split; [lia|]. split; [auto|]. split; [auto|]. split; [|split; [|split]].
    + intros j Hj. apply nth_slot_set_other. auto.
    + rewrite firstn_length, firstn_firstn, Nat.min_id. repeat split; auto; lia.
    + intros j Hj. apply view_copy_other. auto.
    + exists lo. split; [auto|]. cbn [s_inputs s_inuse]. split; [apply exact_view_lt; auto|]. rewrite Hu. discriminate.
Qed.

(** how much of the chosen slot LoadCacheSlot keeps: one input is left to sample, CanResume is asked about the position
    really resumed at, a cache that cannot erase partially keeps nothing *)
Lemma load_cache_slot_cases cfg clk sl kv0 prompt :
  match load_cache_slot cfg clk sl kv0 prompt with
  | Ok (sl', kv', i, rest) =>
      exists sl1 kv1 n n3, find_slot cfg sl kv0 prompt = Ok (sl1, kv1, i, n) /\
        sl' = set_nth sl1 i (mkSlot (firstn n3 (s_inputs (nth_slot sl1 i))) true (S clk)) /\
        kv' = kv_trunc kv1 i (Z.of_nat n3) /\ rest = skipn n3 prompt /\
        (n3 <= n)%nat /\ ((n <= length prompt)%nat -> prompt <> [] -> (n3 < length prompt)%nat) /\
        ((0 < n3)%nat -> can_resume cfg kv1 i (Z.of_nat n3) = true)
  | Err => find_slot cfg sl kv0 prompt = Err
  | Panic => find_slot cfg sl kv0 prompt = Panic
  end.
Proof.
  unfold load_cache_slot. cbv zeta. fold (find_slot cfg sl kv0 prompt).
  destruct (find_slot cfg sl kv0 prompt) as [[[[sl1 kv1] i] n]| |]; [|reflexivity|reflexivity].
  set (n1 := if (n =? length prompt)%nat then Nat.pred n else n).
  set (n2 := if (0 <? n1)%nat && negb (can_resume cfg kv1 i (Z.of_nat n1)) then 0%nat else n1).
  assert (Hn1 : (n1 <= n)%nat) by (subst n1; destruct (n =? length prompt)%nat; lia).
  assert (Hn1' : (n <= length prompt)%nat -> prompt <> [] -> (n1 < length prompt)%nat).
  { intros A B. assert (0 < length prompt)%nat by (destruct prompt; [congruence|cbn; lia]).
    subst n1. destruct (n =? length prompt)%nat eqn:E; lia. }
  assert (Hn2 : (n2 <= n1)%nat /\ ((0 < n2)%nat -> can_resume cfg kv1 i (Z.of_nat n2) = true)).
  { subst n2. destruct ((0 <? n1)%nat && negb (can_resume cfg kv1 i (Z.of_nat n1))) eqn:E; [split; lia|].
    split; [lia|]. intro Hpos. apply andb_false_iff in E as [E|E]; [lia|]. apply negb_false_iff in E. exact E. }
  clearbody n1 n2. destruct Hn2 as [Hn2 Hres].
  destruct (kv_remove_tail cfg kv1 i (Z.of_nat n2)) as [kv2|] eqn:ER.
  - unfold kv_remove_tail in ER. destruct (negb (canPartial cfg) && negb (Z.of_nat n2 =? 0)); [discriminate|]. injection ER as <-.
    exists sl1, kv1, n, n2. repeat split; auto; try lia.
  - exists sl1, kv1, n, 0%nat. repeat split; auto; try lia.
Qed.

Definition loaded_ok (cfg : config) (sl : list slot) (kv0 : kvcache) (prompt : list tok) (sl' : list slot) (kv' : kvcache) (i : nat) (rest : list tok) : Prop :=
  length sl' = length sl /\ (i < length sl)%nat /\ s_inuse (nth_slot sl i) = false /\ s_inuse (nth_slot sl' i) = true /\
  (forall j, j <> i -> nth_slot sl' j = nth_slot sl j) /\
  s_inputs (nth_slot sl' i) ++ rest = prompt /\ rest <> [] /\
  (forall j, j <> i -> view kv' j = view kv0 j) /\
  holds cfg kv' i (s_inputs (nth_slot sl' i)).

Lemma load_cache_slot_ok cfg clk sl kv0 prompt sl' kv' i rest :
  win_ok cfg -> prompt <> [] -> slots_ok cfg kv0 sl ->
  load_cache_slot cfg clk sl kv0 prompt = Ok (sl', kv', i, rest) -> loaded_ok cfg sl kv0 prompt sl' kv' i rest.
Proof.
  intros Hwin Hne Hok H. pose proof (load_cache_slot_cases cfg clk sl kv0 prompt) as Hc. rewrite H in Hc.
  destruct Hc as (sl1 & kv1 & n & n3 & EF & -> & -> & -> & Hn3 & Hlt3 & Hres).
  destruct (find_slot_ok cfg sl kv0 prompt sl1 kv1 i n Hok EF) as (F1 & F2 & F3 & F4 & F5 & (_ & F6 & F7 & F8) & F9 & (lo & Hlo0 & Hlt & _)).
  specialize (Hlt3 F7 Hne).
  set (C := s_inputs (nth_slot sl1 i)) in *.
  assert (Hview : view (kv_trunc kv1 i (Z.of_nat n3)) i = wenum lo (firstn n3 C)).
  { rewrite view_trunc_same. rewrite (view_lt_prefix kv1 i lo _ (Z.of_nat n3) Hlt) by (unfold zlen; lia). rewrite Nat2Z.id. reflexivity. }
  unfold loaded_ok. rewrite set_nth_length, nth_slot_set_same by lia. cbn [s_inputs s_inuse].
  split; [auto|]. split; [lia|]. split; [auto|]. split; [auto|]. split; [|split; [|split; [|split]]].
  - intros j Hj. rewrite nth_slot_set_other by auto. auto.
  - replace (firstn n3 C) with (firstn n3 prompt); [apply firstn_skipn|].
    replace n3 with (Nat.min n3 n) by lia. rewrite <- !firstn_firstn. f_equal. auto.
  - intro E. apply (f_equal (@length tok)) in E. rewrite skipn_length in E. cbn in E. lia.
  - intros j Hj. rewrite view_trunc_other by auto. auto.
  - (* the window before the resume position is stored: that is what CanResume answered *)
    destruct (Nat.eq_dec n3 0) as [->|Hpos].
    + exists 0. split; [apply wlo_nonneg|]. rewrite Hview. reflexivity.
    + exists lo. split; [|exact Hview].
      replace (zlen (firstn n3 C)) with (Z.of_nat n3) by (rewrite zlen_firstn; unfold zlen; lia).
      unfold wlo. destruct (window cfg) as [w|] eqn:Ew; [|apply Hlo0; reflexivity].
      specialize (Hres ltac:(lia)). unfold can_resume in Hres. rewrite Ew in Hres. apply andb_true_iff in Hres as [_ Hcr].
      apply (swa_can_resume_lo w kv1 i (Z.of_nat n3) lo C (zlen C) (Hwin w Ew)); auto; unfold zlen; clear - Hpos Hn3 F6; lia.
Qed.

Lemma load_cache_slot_not_inuse cfg clk sl kv0 prompt sl' kv' i rest :
  load_cache_slot cfg clk sl kv0 prompt = Ok (sl', kv', i, rest) -> (i < length sl)%nat /\ s_inuse (nth_slot sl i) = false.
Proof.
  intro H. pose proof (load_cache_slot_cases cfg clk sl kv0 prompt) as Hc. rewrite H in Hc.
  destruct Hc as (sl1 & kv1 & n & n3 & EF & _). pose proof (find_slot_cases cfg sl kv0 prompt) as Hf. rewrite EF in Hf.
  split; apply Hf.
Qed.


Lemma shift_discard_bounds cfg inputLen numKeep :
  0 <= numKeep < numCtx cfg -> numCtx cfg <= inputLen ->
  1 <= shift_discard cfg inputLen numKeep /\ numKeep + shift_discard cfg inputLen numKeep <= inputLen.
Proof.
  intros Hk Hl. unfold shift_discard.
  assert (H: (numCtx cfg - numKeep) / 2 <= numCtx cfg - numKeep) by (apply Z.div_le_upper_bound; lia).
  lia.
Qed.

Lemma shifted_length l keep d : 0 <= keep -> 0 <= d -> keep + d <= zlen l -> zlen (shifted l keep d) = zlen l - d.
Proof. intros. unfold shifted. rewrite zlen_app, zlen_firstn, zlen_skipn. lia. Qed.

(** the guard under which a context shift is harmless on a sliding-window cache: nothing is kept before the discarded
    block (or the cache refuses partial erasure, so the sequence is reloaded).  Without a window: no condition. *)
Definition shift_guard (cfg : config) (keep : Z) : Prop :=
  window cfg = None \/ keep = 0 \/ canPartial cfg = false.

Lemma shift_cache_slot_ok cfg kv0 id C keep :
  shift_guard cfg keep ->
  0 <= keep < numCtx cfg -> numCtx cfg <= zlen C -> holds cfg kv0 id C ->
  let d := shift_discard cfg (zlen C) keep in
  match shift_cache_slot cfg kv0 id C keep with
  | ShOk C' kv' => C' = shifted C keep d /\ holds cfg kv' id C' /\
                   (forall j, j <> id -> view kv' j = view kv0 j)
  | ShReprocess re kv' => re = shifted C keep d /\ view kv' id = [] /\ (forall j, j <> id -> view kv' j = view kv0 j)
  | ShNone | ShErr => False
  end.
Proof.
  intros Hg Hk Hl (lo & Hlo & Hv) d. destruct (shift_discard_bounds cfg (zlen C) keep Hk Hl) as [Hd1 Hd2]. fold d in Hd1, Hd2.
  unfold shift_cache_slot. replace (numCtx cfg <=? keep) with false by lia. fold d.
  replace (d <=? 0) with false by lia.
  destruct (kv_remove_range cfg kv0 id keep (keep + d)) as [kv'|] eqn:ER.
  - unfold kv_remove_range in ER. destruct (canPartial cfg) eqn:Ecp; cbn [negb] in ER; [|discriminate].
    destruct (kv_range_blocked kv0 id (keep + d)) eqn:EB; [discriminate|].
    destruct (existsb (has id) (kv_range kv0 id keep (keep + d)) && negb (canShift cfg)); [discriminate|].
    injection ER as <-. split; [reflexivity|]. split; [|intros j Hj; apply view_range_other; auto].
    unfold holds. rewrite view_range_same, Hv.
    destruct (window cfg) as [w|] eqn:Ew.
    + (* sliding window: only a shift that keeps nothing *)
      destruct Hg as [Hg|[Hg|Hg]]; [congruence| |congruence]. subst keep. cbn [Z.add] in *.
      exists (lo - d). split.
      * unfold shifted. cbn [Z.to_nat firstn app]. rewrite zlen_skipn. unfold wlo in *. rewrite Ew in *. lia.
      * unfold shifted. cbn [Z.to_nat firstn app]. apply range0_wenum. lia.
    + exists 0. split; [apply wlo_nonneg|]. rewrite (wenum_le0 lo C) by (eapply lo_none; eauto). rewrite wenum_le0 by lia.
      apply range_enumerate; lia.
  - split; [reflexivity|]. split.
    + rewrite view_trunc_same. apply filter_none. intros [q t] Hin. rewrite Hv in Hin. apply wenum_In in Hin. cbn [fst]. lia.
    + intros j Hj. apply view_trunc_other. auto.
Qed.

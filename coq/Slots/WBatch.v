(** C07 — the transitions of the runner case by case, and the structural invariant (slots <-> cache <-> live
    sequences) through them.  Of Slots/Wrap.v only [post_all_v] is used: the second loop with the token handed in. *)
From Coq Require Import List ZArith NArith Bool Arith Lia ZifyBool ZifyNat.
From V Require Import Common.Bytes Slots.StopFns Slots.Model Slots.ProofsKv Slots.ProofsWin Slots.WSlots Slots.Wrap.
Import ListNotations.
Open Scope Z_scope.

Definition get_seq (qs : list (option seqst)) (idx : nat) : option seqst := nth idx qs None.

Lemma get_seq_set_same qs i x : (i < length qs)%nat -> get_seq (set_nth qs i x) i = x.
Proof. apply nth_set_nth_same. Qed.
Lemma get_seq_set_other qs i j x : i <> j -> get_seq (set_nth qs i x) j = get_seq qs j.
Proof. apply nth_set_nth_other. Qed.
Lemma get_seq_lt qs i q : get_seq qs i = Some q -> (i < length qs)%nat.
Proof.
  unfold get_seq. intro H. destruct (Nat.lt_ge_cases i (length qs)); auto.
  rewrite nth_overflow in H by lia. discriminate.
Qed.
Lemma get_seq_set_inv qs i x k q :
  (i < length qs)%nat -> get_seq (set_nth qs i x) k = Some q -> (k = i /\ x = Some q) \/ (k <> i /\ get_seq qs k = Some q).
Proof.
  intros Hi H. destruct (Nat.eq_dec i k) as [<-|Hk].
  - rewrite get_seq_set_same in H by auto. auto.
  - rewrite get_seq_set_other in H by auto. auto.
Qed.

Lemma get_seq_repeat_none n idx : get_seq (repeat None n) idx = None.
Proof.
  unfold get_seq. destruct (Nat.lt_ge_cases idx n).
  - apply nth_repeat_any. auto.
  - apply nth_overflow. rewrite repeat_length. lia.
Qed.


Inductive submit_spec (cfg : config) (st : state) (prompt : list tok) (np keep : Z) (stops : list str) : state * ores -> Prop :=
| SubmitRejected r : match r with RNewSeqErr | RBusy | RLoadErr | RPanic => True | _ => False end ->
    submit_spec cfg st prompt np keep stops (st, r)
| SubmitAccepted inputs keep' idx sl kv' si rest :
    new_sequence cfg prompt keep = Ok (inputs, keep') -> first_free (seqs st) 0 = Some idx ->
    load_cache_slot cfg (clock st) (slots st) (kv st) inputs = Ok (sl, kv', si, rest) ->
    submit_spec cfg st prompt np keep stops
      (mkSt sl kv' (set_nth (seqs st) idx (Some (mkSeq rest [] si np 0 keep' [] stops O (nreq st))))
            (nextSeq st) (S (clock st)) (S (nreq st)) (log st ++ [EvSubmit (nreq st) inputs keep' np stops]),
       RSubmitted idx).

Lemma submit_cases cfg st prompt np keep stops : submit_spec cfg st prompt np keep stops (submit cfg st prompt np keep stops).
Proof.
  unfold submit.
  destruct (new_sequence cfg prompt keep) as [[inputs keep']| |] eqn:EN; try (constructor; exact I).
  destruct (first_free (seqs st) 0) as [idx|] eqn:EF; [|constructor; exact I].
  destruct (load_cache_slot cfg (clock st) (slots st) (kv st) inputs) as [[[[sl kv'] si] rest]| |] eqn:EL;
    try (constructor; exact I).
  econstructor; eauto.
Qed.

Definition loop_start (p : pstate) (q : seqst) : bstate :=
  mkB (s_inputs (nth_slot (p_slots p) (q_slot q))) (p_kv p) (q_pending q) (q_inputs q) (p_batch p) (p_nout p)
      (q_ibatch q) (p_resume p).
Definition loop_seq (q : seqst) (b : bstate) : seqst :=
  mkSeq (skipn (length (b_pending b)) (b_inputs b)) (b_pending b) (q_slot q) (q_npredict q) (q_npredicted q)
        (q_keep q) (q_pend q) (q_stops q) (b_ibatch b) (q_req q).

Inductive build_one_spec (cfg : config) (p : pstate) (idx : nat) : pres -> Prop :=
| BuildSkip : get_seq (p_seqs p) idx = None -> build_one_spec cfg p idx (POk p)
| BuildLimit q : get_seq (p_seqs p) idx = Some q -> at_limit q = true ->
    build_one_spec cfg p idx
      (POk (mkP (release (p_slots p) (q_slot q)) (p_kv p) (set_nth (p_seqs p) idx None) (p_batch p) (p_nout p) (p_resume p)
                (p_log p ++ [EvDone (q_req q) DoneLength])))
| BuildLoop q r : get_seq (p_seqs p) idx = Some q -> at_limit q = false ->
    build_seq cfg idx (q_slot q) (q_keep q) (q_inputs q) O (loop_start p q) = r ->
    build_one_spec cfg p idx
      match r with
      | BFatal => PFatal
      | BOk b => POk (mkP (set_slot_inputs (p_slots p) (q_slot q) (b_C b)) (b_kv b) (set_nth (p_seqs p) idx (Some (loop_seq q b)))
                          (b_batch b) (b_nout b) (b_resume b) (p_log p))
      end.

Lemma build_one_cases cfg p idx : build_one_spec cfg p idx (build_one cfg p idx).
Proof.
  unfold build_one. fold (get_seq (p_seqs p) idx).
  destruct (get_seq (p_seqs p) idx) as [q|] eqn:Eq; [|constructor; auto].
  destruct (at_limit q) eqn:El; [apply BuildLimit; auto|].
  apply (BuildLoop cfg p idx q _ Eq El eq_refl).
Qed.

Lemma build_all_ind cfg (I : list nat -> pstate -> Prop) :
  (forall idx order p, I (idx :: order) p -> exists p', build_one cfg p idx = POk p' /\ I order p') ->
  forall order p, I order p -> exists p', build_all cfg p order = POk p' /\ I [] p'.
Proof.
  intros Hstep. induction order as [|idx order IH]; intros p Hp; cbn [build_all]; [eauto|].
  destruct (Hstep idx order p Hp) as (p1 & -> & H1). apply IH. exact H1.
Qed.

Definition batch_start (st : state) : pstate := mkP (slots st) (kv st) (seqs st) [] O None (log st).
Definition batch_order (st : state) : list nat := visit_order (length (seqs st)) (nextSeq st).
Definition fwd (cfg : config) (kv0 : kvcache) (b : list entry) : kvcache := kv_forward (kv_evict cfg kv0 b) b.

Inductive batch_spec (F : list (Z * tok) -> tok) (cfg : config) (st : state) (p : pstate) : state * ores -> Prop :=
| BatchKept r :
    match r with
    | RIdle => True
    | RCacheFull => p_batch p <> [] /\ kv_full cfg (kv_evict cfg (p_kv p) (p_batch p)) (p_batch p) = true
    | RPanic => post_all F cfg (fwd cfg (p_kv p) (p_batch p)) (p_batch p) (p_slots p) (p_seqs p) = None
    | _ => False
    end -> batch_spec F cfg st p (st, r)
| BatchEmpty next : p_batch p = [] ->
    batch_spec F cfg st p (mkSt (p_slots p) (p_kv p) (p_seqs p) next (clock st) (nreq st) (p_log p), RStepped [] [])
| BatchForward next sl qs ev : p_batch p <> [] ->
    kv_full cfg (kv_evict cfg (p_kv p) (p_batch p)) (p_batch p) = false ->
    post_all F cfg (fwd cfg (p_kv p) (p_batch p)) (p_batch p) (p_slots p) (p_seqs p) = Some (sl, qs, ev) ->
    batch_spec F cfg st p
      (mkSt sl (fwd cfg (p_kv p) (p_batch p)) qs next (clock st) (nreq st) (p_log p ++ ev),
       RStepped (p_batch p) (chosen_of F cfg (fwd cfg (p_kv p) (p_batch p)) (p_batch p))).

Lemma process_batch_cases F cfg st p :
  build_all cfg (batch_start st) (batch_order st) = POk p -> batch_spec F cfg st p (process_batch F cfg st).
Proof.
  intro E. unfold process_batch. destruct (all_nil (seqs st)); [apply BatchKept; exact I|].
  fold (batch_start st) (batch_order st). rewrite E.
  destruct (p_batch p) as [|e0 b0] eqn:Eb; [apply BatchEmpty; exact Eb|]. rewrite <- Eb.
  assert (Hne : p_batch p <> []) by (rewrite Eb; discriminate).
  fold (fwd cfg (p_kv p) (p_batch p)).
  destruct (kv_full cfg (kv_evict cfg (p_kv p) (p_batch p)) (p_batch p)) eqn:Ef; [apply BatchKept; auto|].
  destruct (post_all F cfg (fwd cfg (p_kv p) (p_batch p)) (p_batch p) (p_slots p) (p_seqs p)) as [[[sl qs] ev]|] eqn:EP.
  - apply BatchForward; auto.
  - apply BatchKept. exact EP.
Qed.

Lemma post_all_as_v F cfg kv' b qs : forall sl, post_all F cfg kv' b sl qs = post_all_v (fun _ => F) cfg kv' b sl qs.
Proof.
  induction qs as [|[q|] r IH]; intro sl; cbn [post_all post_all_v]; [reflexivity| |rewrite IH; reflexivity].
  destruct (post_one F cfg kv' b (nth_slot sl (q_slot q)) q); [rewrite IH|]; reflexivity.
Qed.

Lemma post_all_v_spec G cfg kv' b qs : forall sl sl' qs' ev,
  post_all_v G cfg kv' b sl qs = Some (sl', qs', ev) ->
  (forall k1 k2 q1 q2, get_seq qs k1 = Some q1 -> get_seq qs k2 = Some q2 -> q_slot q1 = q_slot q2 -> k1 = k2) ->
  (forall k q, get_seq qs k = Some q -> (q_slot q < length sl)%nat) ->
  length qs' = length qs /\ length sl' = length sl /\
  (forall i, (forall k q, get_seq qs k = Some q -> q_slot q <> i) -> nth_slot sl' i = nth_slot sl i) /\
  (forall k, get_seq qs k = None -> get_seq qs' k = None) /\
  exists evs, ev = concat evs /\ (forall k, get_seq qs k = None -> nth k evs [] = []) /\
    forall k q, get_seq qs k = Some q ->
      post_one (G q) cfg kv' b (nth_slot sl (q_slot q)) q = QOk (nth_slot sl' (q_slot q)) (get_seq qs' k) (nth k evs []).
Proof.
  induction qs as [|o r IH]; intros sl sl' qs' ev H Huniq Hlt; cbn [post_all_v] in H.
  - injection H as <- <- <-. repeat split; auto. exists []. repeat split; intros [|k]; auto; discriminate.
  - assert (Huniq' : forall k1 k2 q1 q2, get_seq r k1 = Some q1 -> get_seq r k2 = Some q2 -> q_slot q1 = q_slot q2 -> k1 = k2).
    { intros k1 k2 q1 q2 E1 E2 Hs. specialize (Huniq (S k1) (S k2) q1 q2 E1 E2 Hs). lia. }
    destruct o as [q0|].
    + destruct (post_one (G q0) cfg kv' b (nth_slot sl (q_slot q0)) q0) as [s1 q0' ev1|] eqn:E1; [|discriminate].
      destruct (post_all_v G cfg kv' b (set_nth sl (q_slot q0) s1) r) as [[[sl2 r'] ev2]|] eqn:E2; [|discriminate].
      injection H as <- <- <-.
      assert (Hne : forall k q, get_seq r k = Some q -> q_slot q0 <> q_slot q).
      { intros k q E Hs. specialize (Huniq 0%nat (S k) q0 q eq_refl E Hs). discriminate. }
      destruct (IH _ _ _ _ E2 Huniq') as (L1 & L2 & Hfr & Hnone & evs & -> & Hnil & Hown).
      { intros k q E. rewrite set_nth_length. apply (Hlt (S k) q E). }
      rewrite set_nth_length in L2. split; [cbn; lia|]. split; [exact L2|]. split; [|split].
      * intros i Hi. rewrite Hfr by (intros k q E; apply (Hi (S k) q E)).
        apply nth_slot_set_other. apply (Hi 0%nat q0 eq_refl).
      * intros [|k] E; [discriminate|]. apply (Hnone k E).
      * exists (ev1 :: evs). split; [reflexivity|]. split; [intros [|k] E; [discriminate|apply (Hnil k E)]|].
        intros [|k] q E.
        -- injection E as <-. rewrite E1. cbn [get_seq nth]. f_equal.
           rewrite Hfr by (intros k q E Hs; eapply Hne; eauto). symmetry. apply nth_slot_set_same. apply (Hlt 0%nat q0 eq_refl).
        -- rewrite <- (nth_slot_set_other sl (q_slot q0) (q_slot q) s1) by (eapply Hne; eauto). exact (Hown k q E).
    + destruct (post_all_v G cfg kv' b sl r) as [[[sl2 r'] ev2]|] eqn:E2; [|discriminate].
      injection H as <- <- <-.
      destruct (IH _ _ _ _ E2 Huniq') as (L1 & L2 & Hfr & Hnone & evs & -> & Hnil & Hown).
      { intros k q E. apply (Hlt (S k) q E). }
      split; [cbn; lia|]. split; [exact L2|]. split; [|split].
      * intros i Hi. apply Hfr. intros k q E. apply (Hi (S k) q E).
      * intros [|k] E; [reflexivity|]. apply (Hnone k E).
      * exists ([] :: evs). split; [reflexivity|]. split; [intros [|k] E; [reflexivity|apply (Hnil k E)]|].
        intros [|k] q E; [discriminate|]. apply (Hown k q E).
Qed.


Record live_ok (cfg : config) (sl : list slot) (kv0 : kvcache) (b : list entry) (q : seqst) : Prop := mkLiveOk {
  lo_slot : (q_slot q < length sl)%nat;
  lo_inuse : s_inuse (nth_slot sl (q_slot q)) = true;
  lo_view : holds cfg kv0 (q_slot q) (s_inputs (nth_slot sl (q_slot q)));
  lo_entries : slot_entries b (q_slot q) = enumerate (zlen (s_inputs (nth_slot sl (q_slot q)))) (q_pending q);
  (* the pending inputs still fit the context: no shift can be due in the middle of them *)
  lo_fit : zlen (s_inputs (nth_slot sl (q_slot q))) + zlen (q_pending q) <= numCtx cfg;
  lo_keep : 0 <= q_keep q < numCtx cfg;
  lo_guard : shift_guard cfg (q_keep q);
  (* a sequence with nothing left to evaluate has something pending: it is sampled from this batch *)
  lo_nonempty : q_inputs q = [] -> q_pending q <> []
}.

Record mid_ok (cfg : config) (sl : list slot) (kv0 : kvcache) (qs : list (option seqst)) (b : list entry) : Prop := mkMidOk {
  mo_len : length sl = length qs;
  mo_live : forall idx q, get_seq qs idx = Some q -> live_ok cfg sl kv0 b q;
  mo_inj : forall i1 i2 q1 q2, get_seq qs i1 = Some q1 -> get_seq qs i2 = Some q2 -> q_slot q1 = q_slot q2 -> i1 = i2;
  mo_idle : forall i, (i < length sl)%nat -> s_inuse (nth_slot sl i) = false ->
            holds_below cfg kv0 i (s_inputs (nth_slot sl i)) /\ slot_entries b i = [];
  mo_used : forall i, (i < length sl)%nat -> s_inuse (nth_slot sl i) = true -> exists idx q, get_seq qs idx = Some q /\ q_slot q = i
}.

Arguments lo_slot {cfg sl kv0 b q}. Arguments lo_inuse {cfg sl kv0 b q}. Arguments lo_view {cfg sl kv0 b q}.
Arguments lo_entries {cfg sl kv0 b q}. Arguments lo_fit {cfg sl kv0 b q}. Arguments lo_keep {cfg sl kv0 b q}.
Arguments lo_guard {cfg sl kv0 b q}. Arguments lo_nonempty {cfg sl kv0 b q}.
Arguments mo_len {cfg sl kv0 qs b}. Arguments mo_live {cfg sl kv0 qs b}. Arguments mo_inj {cfg sl kv0 qs b}.
Arguments mo_idle {cfg sl kv0 qs b}. Arguments mo_used {cfg sl kv0 qs b}.

Definition inv (cfg : config) (st : state) : Prop :=
  mid_ok cfg (slots st) (kv st) (seqs st) [] /\
  forall idx q, get_seq (seqs st) idx = Some q -> q_inputs q <> [].

Lemma live_pending_nil cfg sl kv0 q : live_ok cfg sl kv0 [] q -> q_pending q = [].
Proof. intros [_ _ _ He _ _ _ _]. cbn in He. symmetry in He. apply enumerate_nil_inv in He. auto. Qed.

Lemma mid_ok_nil_inv cfg sl kv0 qs next clk n l : mid_ok cfg sl kv0 qs [] -> inv cfg (mkSt sl kv0 qs next clk n l).
Proof.
  intro Hm. split; [exact Hm|]. cbn [seqs]. intros idx q Hq Hnil. pose proof (mo_live Hm idx q Hq) as Hl.
  apply (lo_nonempty Hl Hnil). eapply live_pending_nil; eauto.
Qed.

Lemma inv_slots_ok cfg sl kv0 qs b : mid_ok cfg sl kv0 qs b -> slots_ok cfg kv0 sl.
Proof.
  intros Hm i Hi. destruct (s_inuse (nth_slot sl i)) eqn:Hu.
  - destruct (mo_used Hm i Hi Hu) as (k & q & Eq & <-).
    destruct (lo_view (mo_live Hm k q Eq)) as (lo & Hlo & Hv). eapply exact_slot_ok; eauto.
  - destruct (mo_idle Hm i Hi Hu) as [(lo & Hl0 & Hv) _]. exists lo. split; [auto|]. split; [auto|congruence].
Qed.

Lemma mid_ok_set cfg sl kv0 qs b idx i sl' kv' b' x :
  mid_ok cfg sl kv0 qs b -> (idx < length qs)%nat ->
  (forall j q2, get_seq qs j = Some q2 -> (j = idx <-> q_slot q2 = i)) ->
  length sl' = length sl -> (forall j, j <> i -> nth_slot sl' j = nth_slot sl j) ->
  (forall j, j <> i -> view kv' j = view kv0 j /\ slot_entries b' j = slot_entries b j) ->
  match x with
  | Some q' => q_slot q' = i /\ live_ok cfg sl' kv' b' q'
  | None => s_inuse (nth_slot sl' i) = false /\ holds_below cfg kv' i (s_inputs (nth_slot sl' i)) /\ slot_entries b' i = []
  end ->
  mid_ok cfg sl' kv' (set_nth qs idx x) b'.
Proof.
  intros Hm Hidx Hown Hlen Hsl Hfr Hx.
  assert (Hother : forall j q2, get_seq qs j = Some q2 -> j <> idx -> q_slot q2 <> i).
  { intros j q2 E2 Hj Hs. apply Hj. apply (Hown j q2 E2). exact Hs. }
  constructor.
  - rewrite Hlen, set_nth_length. apply (mo_len Hm).
  - intros k q2 E. apply get_seq_set_inv in E as [[-> ->]|[Hk E]]; [apply Hx| |exact Hidx].
    pose proof (Hother k q2 E Hk) as Hs. destruct (Hfr _ Hs) as [F1 F2].
    destruct (mo_live Hm k q2 E) as [A1 A2 A3 A4 A5 A6 A7 A8].
    constructor; unfold holds in *; rewrite ?Hlen, ?(Hsl _ Hs), ?F1, ?F2; auto.
  - intros i1 i2 q1 q2 E1 E2 Hs.
    apply get_seq_set_inv in E1 as [[-> X1]|[H1 E1]]; [| |exact Hidx]; (apply get_seq_set_inv in E2 as [[-> X2]|[H2 E2]]; [| |exact Hidx]); auto.
    + rewrite X1 in Hx. destruct Hx as [Hx _]. destruct (Hother i2 q2 E2 H2). congruence.
    + rewrite X2 in Hx. destruct Hx as [Hx _]. destruct (Hother i1 q1 E1 H1). congruence.
    + eapply (mo_inj Hm); eauto.
  - intros j Hj Hu. rewrite Hlen in Hj. destruct (Nat.eq_dec j i) as [->|Hne].
    + destruct x as [q'|]; [|destruct Hx as (_ & H1 & H2); auto].
      destruct Hx as [Hs Hl]. rewrite <- Hs, (lo_inuse Hl) in Hu. discriminate.
    + rewrite (Hsl _ Hne) in *. destruct (Hfr _ Hne) as [F1 F2]. unfold holds_below, view_lt. rewrite F1, F2.
      apply (mo_idle Hm); auto.
  - intros j Hj Hu. rewrite Hlen in Hj. destruct (Nat.eq_dec j i) as [->|Hne].
    + destruct x as [q'|]; [|destruct Hx as (Hx & _); congruence].
      exists idx, q'. split; [apply get_seq_set_same; auto|apply Hx].
    + rewrite (Hsl _ Hne) in Hu. destruct (mo_used Hm j Hj Hu) as (k & q2 & E2 & Hs).
      exists k, q2. split; [|auto]. rewrite get_seq_set_other; auto. intro Hk. apply Hne. rewrite <- Hs. apply (Hown k q2 E2). auto.
Qed.

Lemma live_owns cfg sl kv0 qs b idx q :
  mid_ok cfg sl kv0 qs b -> get_seq qs idx = Some q -> forall j q2, get_seq qs j = Some q2 -> (j = idx <-> q_slot q2 = q_slot q).
Proof.
  intros Hm Eq j q2 E2. split; [intros ->; congruence|]. intro Hs. eapply (mo_inj Hm); eauto.
Qed.

Definition b_ok (cfg : config) (slotId : nat) (b : bstate) : Prop :=
  holds cfg (b_kv b) slotId (b_C b) /\
  slot_entries (b_batch b) slotId = enumerate (zlen (b_C b)) (b_pending b) /\
  zlen (b_C b) + zlen (b_pending b) <= numCtx cfg /\
  b_inputs b <> [].
Definition b_frame (slotId : nat) (b b' : bstate) : Prop :=
  forall j, j <> slotId -> view (b_kv b') j = view (b_kv b) j /\ slot_entries (b_batch b') j = slot_entries (b_batch b) j.

Lemma b_frame_refl s b : b_frame s b b. Proof. intros j _. auto. Qed.
Lemma b_frame_trans s b1 b2 b3 : b_frame s b1 b2 -> b_frame s b2 b3 -> b_frame s b1 b3.
Proof. intros H1 H2 j Hj. destruct (H1 j Hj) as [A B], (H2 j Hj) as [C D]. split; congruence. Qed.

Lemma slot_entries_single_same e s : e_seq e = s -> slot_entries [e] s = [(e_pos e, e_tok e)].
Proof. intro H. unfold slot_entries. cbn. rewrite H, Nat.eqb_refl. reflexivity. Qed.
Lemma slot_entries_single_other e s : e_seq e <> s -> slot_entries [e] s = [].
Proof. intro H. unfold slot_entries. cbn. replace (Nat.eqb s (e_seq e)) with false; [reflexivity|]. symmetry. apply Nat.eqb_neq. auto. Qed.

Lemma add_input_ok cfg slotId i inp b :
  b_ok cfg slotId b -> zlen (b_C b) + zlen (b_pending b) + 1 <= numCtx cfg ->
  b_ok cfg slotId (add_input slotId i inp b) /\ b_frame slotId b (add_input slotId i inp b).
Proof.
  intros (H1 & H2 & H3 & H4) Hfit. split.
  - unfold b_ok, add_input. cbn [b_kv b_C b_batch b_pending b_inputs]. split; [auto|]. split; [|split; [|auto]].
    + rewrite slot_entries_app, H2, enumerate_app, slot_entries_single_same by reflexivity. reflexivity.
    + rewrite zlen_app. unfold zlen at 3. cbn [length]. lia.
  - intros j Hj. unfold add_input. cbn [b_kv b_batch]. split; [reflexivity|].
    rewrite slot_entries_app, slot_entries_single_other by (cbn; auto). apply app_nil_r.
Qed.

Lemma set_resume_same seqIdx b :
  b_C (set_resume seqIdx b) = b_C b /\ b_kv (set_resume seqIdx b) = b_kv b /\ b_pending (set_resume seqIdx b) = b_pending b /\
  b_inputs (set_resume seqIdx b) = b_inputs b /\ b_batch (set_resume seqIdx b) = b_batch b /\ b_nout (set_resume seqIdx b) = b_nout b.
Proof. unfold set_resume. destruct (b_pending b) eqn:E1, (b_resume b) eqn:E2; cbn; rewrite ?E1; repeat split; reflexivity. Qed.

Lemma build_seq_ok cfg seqIdx slotId keep rng i b :
  shift_guard cfg keep ->
  0 <= keep < numCtx cfg -> b_ok cfg slotId b ->
  exists b', build_seq cfg seqIdx slotId keep rng i b = BOk b' /\ b_ok cfg slotId b' /\ b_frame slotId b b'.
Proof.
  intros Hg Hk. revert i b. induction rng as [|inp rest IH]; intros i b Hb; cbn [build_seq].
  - exists b. split; [reflexivity|]. split; [auto|apply b_frame_refl].
  - destruct (batchSize cfg <? zlen (b_batch b) + 1).
    { exists (set_resume seqIdx b). split; [reflexivity|].
      destruct (set_resume_same seqIdx b) as (E1 & E2 & E3 & E4 & E5 & E6).
      unfold b_ok, b_frame. rewrite E1, E2, E3, E4, E5. split; [exact Hb|]. intros j _. auto. }
    destruct (numCtx cfg <? zlen (b_C b) + zlen (b_pending b) + 1) eqn:Eover.
    + destruct (b_pending b) as [|p0 pr] eqn:Ep.
      * destruct Hb as (H1 & H2 & H3 & H4). rewrite Ep in *. rewrite zlen_nil in *.
        pose proof (shift_cache_slot_ok cfg (b_kv b) slotId (b_C b) keep Hg Hk ltac:(lia) H1) as Hs. cbn zeta in Hs.
        destruct (shift_discard_bounds cfg (zlen (b_C b)) keep Hk ltac:(lia)) as [Hd1 Hd2].
        destruct (shift_cache_slot cfg (b_kv b) slotId (b_C b) keep) as [|C' kv'|re kv'|]; try contradiction.
        -- destruct Hs as (HC & Hv & Hfr).
           set (b1 := mkB C' kv' [] (b_inputs b) (b_batch b) (b_nout b) (b_ibatch b) (b_resume b)).
           assert (Hb1 : b_ok cfg slotId b1).
           { unfold b_ok, b1. cbn [b_kv b_C b_batch b_pending b_inputs]. split; [exact Hv|]. split; [|split; [|exact H4]].
             - rewrite H2. reflexivity.
             - rewrite zlen_nil. subst C'. rewrite shifted_length by lia. lia. }
           assert (Hfit : zlen (b_C b1) + zlen (b_pending b1) + 1 <= numCtx cfg).
           { unfold b1. cbn [b_C b_pending]. rewrite zlen_nil. subst C'. rewrite shifted_length by lia. lia. }
           destruct (add_input_ok cfg slotId i inp b1 Hb1 Hfit) as [Hb2 Hf2].
           destruct (IH (S i) _ Hb2) as (b' & E & Hb' & Hf').
           exists b'. split; [exact E|]. split; [exact Hb'|].
           eapply b_frame_trans; [|exact Hf']. eapply b_frame_trans; [|exact Hf2].
           intros j Hj. unfold b1. cbn [b_kv b_batch]. split; [apply Hfr; auto|reflexivity].
        -- destruct Hs as (HC & Hv & Hfr).
           set (b1 := mkB [] kv' [] (re ++ b_inputs b) (b_batch b) (b_nout b) (b_ibatch b) (b_resume b)).
           assert (Hb1 : b_ok cfg slotId b1).
           { unfold b_ok, b1. cbn [b_kv b_C b_batch b_pending b_inputs].
             split; [exists 0; split; [apply wlo_nonneg|rewrite Hv; reflexivity]|]. split; [|split].
             - rewrite H2. reflexivity.
             - unfold zlen. cbn [length]. lia.
             - intro E. apply app_eq_nil in E as [_ E]. auto. }
           destruct (IH (S i) _ Hb1) as (b' & E & Hb' & Hf').
           exists b'. split; [exact E|]. split; [exact Hb'|].
           eapply b_frame_trans; [|exact Hf'].
           intros j Hj. unfold b1. cbn [b_kv b_batch]. split; [apply Hfr; auto|reflexivity].
      * exists b. split; [reflexivity|]. split; [auto|apply b_frame_refl].
    + destruct (add_input_ok cfg slotId i inp b Hb ltac:(lia)) as [Hb2 Hf2].
      destruct (IH (S i) _ Hb2) as (b' & E & Hb' & Hf').
      exists b'. split; [exact E|]. split; [exact Hb'|]. eapply b_frame_trans; eauto.
Qed.

Lemma release_length sl i : length (release sl i) = length sl.
Proof. unfold release. apply set_nth_length. Qed.
Lemma release_other sl i j : i <> j -> nth_slot (release sl i) j = nth_slot sl j.
Proof. unfold release. apply nth_slot_set_other. Qed.
Lemma release_same sl i : (i < length sl)%nat -> nth_slot (release sl i) i = mkSlot (s_inputs (nth_slot sl i)) false (s_last (nth_slot sl i)).
Proof. unfold release. apply nth_slot_set_same. Qed.
Lemma set_slot_inputs_length sl i C : length (set_slot_inputs sl i C) = length sl.
Proof. unfold set_slot_inputs. apply set_nth_length. Qed.
Lemma set_slot_inputs_other sl i j C : i <> j -> nth_slot (set_slot_inputs sl i C) j = nth_slot sl j.
Proof. unfold set_slot_inputs. apply nth_slot_set_other. Qed.
Lemma set_slot_inputs_same sl i C : (i < length sl)%nat ->
  nth_slot (set_slot_inputs sl i C) i = mkSlot C (s_inuse (nth_slot sl i)) (s_last (nth_slot sl i)).
Proof. unfold set_slot_inputs. apply nth_slot_set_same. Qed.

Definition unprocessed (qs : list (option seqst)) (idx : nat) : Prop :=
  forall q, get_seq qs idx = Some q -> q_pending q = [] /\ q_inputs q <> [].

Lemma loop_start_ok cfg p q :
  live_ok cfg (p_slots p) (p_kv p) (p_batch p) q -> q_inputs q <> [] -> b_ok cfg (q_slot q) (loop_start p q).
Proof. intros [A1 A2 A3 A4 A5 A6 A6' A7] Hi. unfold b_ok, loop_start. cbn [b_kv b_C b_batch b_pending b_inputs]. auto. Qed.

Lemma build_one_ok cfg p idx :
  mid_ok cfg (p_slots p) (p_kv p) (p_seqs p) (p_batch p) -> unprocessed (p_seqs p) idx ->
  exists p', build_one cfg p idx = POk p' /\ mid_ok cfg (p_slots p') (p_kv p') (p_seqs p') (p_batch p') /\
    (forall j, j <> idx -> get_seq (p_seqs p') j = get_seq (p_seqs p) j) /\ length (p_seqs p') = length (p_seqs p).
Proof.
  intros Hm Hun. destruct (build_one_cases cfg p idx) as [En|q Eq El|q r Eq El Er].
  - exists p. auto.
  - (* numPredict reached: removeSequence *)
    destruct (Hun q Eq) as [Hpend _]. pose proof (mo_live Hm idx q Eq) as Hq. pose proof (lo_slot Hq) as Hslot.
    eexists. split; [reflexivity|]. cbn [p_slots p_kv p_seqs p_batch].
    split; [|split; [intros j Hj; apply get_seq_set_other; auto|apply set_nth_length]].
    eapply mid_ok_set; [exact Hm|eapply get_seq_lt; eauto|exact (live_owns _ _ _ _ _ _ _ Hm Eq)|apply release_length|intros j Hj; apply release_other; auto|auto|].
    rewrite release_same by auto. cbn [s_inuse s_inputs]. split; [reflexivity|]. split.
    + apply holds_holds_below. exact (lo_view Hq).
    + rewrite (lo_entries Hq), Hpend. reflexivity.
  - 
    destruct (Hun q Eq) as [_ Hinp]. pose proof (mo_live Hm idx q Eq) as Hq. pose proof (lo_slot Hq) as Hslot.
    destruct (build_seq_ok cfg idx (q_slot q) (q_keep q) (q_inputs q) 0 _ (lo_guard Hq) (lo_keep Hq)
                           (loop_start_ok cfg p q Hq Hinp)) as (b' & E & (B1 & B2 & B3 & B4) & Hf).
    rewrite E in Er. subst r. eexists. split; [reflexivity|]. cbn [p_slots p_kv p_seqs p_batch].
    split; [|split; [intros j Hj; apply get_seq_set_other; auto|apply set_nth_length]].
    eapply mid_ok_set; [exact Hm|eapply get_seq_lt; eauto|exact (live_owns _ _ _ _ _ _ _ Hm Eq)|apply set_slot_inputs_length|intros j Hj; apply set_slot_inputs_other; auto|exact Hf|].
    split; [reflexivity|].
    constructor; cbn [loop_seq q_slot q_pending q_inputs q_keep]; rewrite ?set_slot_inputs_length, ?set_slot_inputs_same by auto;
      cbn [s_inputs s_inuse]; auto.
    + apply (lo_inuse Hq).
    + apply (lo_keep Hq).
    + apply (lo_guard Hq).
    + intros Hnil Hp. rewrite Hp in Hnil. cbn in Hnil. auto.
Qed.

(** [NoDup]: each sequence is visited once, so visiting one leaves the rest unprocessed *)
Definition mid_inv (cfg : config) (order : list nat) (p : pstate) : Prop :=
  NoDup order /\ mid_ok cfg (p_slots p) (p_kv p) (p_seqs p) (p_batch p) /\
  forall idx, In idx order -> unprocessed (p_seqs p) idx.

Lemma build_one_mid cfg idx order p :
  mid_inv cfg (idx :: order) p ->
  exists p', build_one cfg p idx = POk p' /\ mid_inv cfg order p' /\ length (p_seqs p') = length (p_seqs p).
Proof.
  intros (Hnd & Hm & Hun). inversion Hnd as [|x l Hnotin Hnd']; subst.
  destruct (build_one_ok cfg p idx Hm (Hun idx (or_introl eq_refl))) as (p1 & E & Hm1 & Hsame & Hlen).
  exists p1. split; [exact E|]. split; [|exact Hlen]. split; [exact Hnd'|]. split; [exact Hm1|].
  intros j Hj q Hq. rewrite Hsame in Hq by (intros ->; auto). apply (Hun j (or_intror Hj) q Hq).
Qed.

Lemma visit_order_nodup n next : NoDup (visit_order n next).
Proof.
  unfold visit_order. apply NoDup_map_in; [|apply seq_NoDup].
  intros x y Hx Hy. apply in_seq in Hx, Hy. apply mod_inj; lia.
Qed.

Lemma visit_order_complete n next k : (k < n)%nat -> In k (visit_order n next).
Proof.
  intro Hk.
  assert (Hincl : incl (visit_order n next) (seq 0 n)).
  { intros x Hx. unfold visit_order in Hx. apply in_map_iff in Hx as (y & <- & Hy). apply in_seq in Hy. apply in_seq.
    split; [lia|]. cbn. apply Nat.mod_upper_bound. lia. }
  assert (Hlen : (length (seq 0 n) <= length (visit_order n next))%nat).
  { unfold visit_order. rewrite map_length. lia. }
  apply (NoDup_length_incl (visit_order_nodup n next) Hlen Hincl). apply in_seq. lia.
Qed.

Lemma inv_unprocessed cfg st idx : inv cfg st -> unprocessed (seqs st) idx.
Proof. intros [Hm Hin] q Hq. split; [eapply live_pending_nil; eapply (mo_live Hm); eauto|eapply Hin; eauto]. Qed.

Lemma inv_mid_inv cfg st : inv cfg st -> mid_inv cfg (batch_order st) (batch_start st).
Proof. intro Hi. split; [apply visit_order_nodup|]. split; [apply Hi|]. intros idx _. apply (inv_unprocessed _ _ idx Hi). Qed.

Lemma build_all_mid cfg st :
  inv cfg st ->
  exists p, build_all cfg (batch_start st) (batch_order st) = POk p /\
            mid_ok cfg (p_slots p) (p_kv p) (p_seqs p) (p_batch p) /\ length (p_seqs p) = length (seqs st).
Proof.
  intros Hi.
  destruct (build_all_ind cfg (fun order p => mid_inv cfg order p /\ length (p_seqs p) = length (seqs st))) with
    (order := batch_order st) (p := batch_start st) as (p & E & (_ & Hm & _) & Hlen).
  - intros idx order p [Hp Hlen]. destruct (build_one_mid cfg idx order p Hp) as (p' & E & Hp' & Hl').
    exists p'. split; [exact E|]. split; [exact Hp'|congruence].
  - split; [apply inv_mid_inv; exact Hi|reflexivity].
  - eauto.
Qed.

(** after the second loop: slot [s'] and entry [o] of a sequence on slot [i] whose cache held [X] from [lo] on *)
Definition post_ok (kv' : kvcache) (i : nat) (lo : Z) (X : list tok) (q : seqst) (s' : slot) (o : option seqst) : Prop :=
  match o with
  | Some q1 => s_inuse s' = true /\ view kv' i = wenum lo (s_inputs s') /\ s_inputs s' = X /\
               q_pending q1 = [] /\ q_inputs q1 <> [] /\ q_slot q1 = q_slot q /\ q_keep q1 = q_keep q
  | None => s_inuse s' = false /\ view_lt kv' i (zlen (s_inputs s')) = wenum lo (s_inputs s')
  end.

Lemma post_one_ok F cfg kv' b s q i lo s' o ev :
  s_inuse s = true -> view kv' i = wenum lo (s_inputs s ++ q_pending q) ->
  post_one F cfg kv' b s q = QOk s' o ev -> post_ok kv' i lo (s_inputs s ++ q_pending q) q s' o.
Proof.
  intros Hu Hv. unfold post_one.
  set (C := s_inputs s ++ q_pending q) in *.
  set (s1 := match q_pending q with [] => s | _ => with_inputs s C end).
  assert (Hs1 : s_inputs s1 = C /\ s_inuse s1 = true).
  { subst s1 C. destruct (q_pending q); [rewrite app_nil_r; auto|cbn; auto]. }
  destruct Hs1 as [Hs1 Hu1].
  destruct (q_inputs q) as [|x r] eqn:Ei.
  2:{ intro H. injection H as <- <- <-. cbn [post_ok q_pending q_inputs q_slot q_keep]. rewrite Hs1. repeat split; auto. discriminate. }
  destruct (sample_at F cfg kv' b (q_ibatch q)) as [t vis].
  destruct ((0 <=? eosTok cfg) && (t =? eosTok cfg)).
  { intro H. injection H as <- <- <-. cbn [post_ok released s_inuse s_inputs]. rewrite Hs1. split; [reflexivity|]. apply exact_view_lt. auto. }
  destruct (find_stop (concat (q_pend q ++ [piece_of t])) (q_stops q)).
  - destruct (truncate_stop (q_pend q ++ [piece_of t]) s0) as [pend' trunc].
    match goal with |- context [Z.to_nat (Z.max 0 ?c)] => set (tl := Z.max 0 c) in * end.
    intro H. injection H as <- <- <-. cbn [post_ok released with_inputs s_inuse s_inputs]. split; [reflexivity|].
    (* the record is cut to a prefix of itself; the cache keeps more *)
    unfold view_lt. rewrite Hv, filter_lt_wenum by apply zlen_nonneg. rewrite firstn_zlen_firstn. reflexivity.
  - intro H. injection H as <- <- <-. cbn [post_ok q_pending q_inputs q_slot q_keep]. rewrite Hs1. repeat split; auto. discriminate.
Qed.

Definition fwd_view (cfg : config) (kv' : kvcache) (q : seqst) (C : list tok) : Prop :=
  exists lo, lo <= wlo cfg (zlen (C ++ q_pending q)) /\
             (* the window of the last pending input, from whose entry the sequence is sampled *)
             (q_pending q <> [] -> lo <= wlo cfg (zlen (C ++ q_pending q) - 1)) /\
             view kv' (q_slot q) = wenum lo (C ++ q_pending q).

Lemma forward_view_live cfg sl kv0 b q :
  win_ok cfg -> live_ok cfg sl kv0 b q -> fwd_view cfg (fwd cfg kv0 b) q (s_inputs (nth_slot sl (q_slot q))).
Proof.
  intros Hwin [A1 A2 (lo & Hlo & A3) A4 A5 A6 A6' A7]. unfold fwd_view, fwd.
  set (C := s_inputs (nth_slot sl (q_slot q))) in *. set (P := q_pending q) in *.
  assert (HloC : lo <= zlen C) by (pose proof (wlo_le cfg (zlen C) Hwin (zlen_nonneg C)); lia).
  rewrite view_forward, A4. destruct P as [|x P'] eqn:EP.
  - rewrite app_nil_r. cbn [enumerate]. rewrite app_nil_r.
    rewrite view_evict_other by (apply low_pos_none; rewrite A4; reflexivity).
    exists lo. split; [exact Hlo|]. split; [congruence|exact A3].
  - rewrite <- EP in *.
    assert (HP : 1 <= zlen P) by (rewrite EP, zlen_cons; pose proof (zlen_nonneg P'); lia).
    assert (Hlow : low_pos b (q_slot q) = Some (zlen C)) by (eapply low_pos_enumerate; eauto; rewrite EP; discriminate).
    destruct (window cfg) as [w|] eqn:Ew.
    + rewrite (view_evict_some cfg kv0 b (q_slot q) (zlen C) w Ew Hlow), A3, wenum_raise.
      exists (Z.max lo (zlen C - w)). specialize (Hwin w Ew).
      unfold wlo in *. rewrite Ew in *. rewrite zlen_app.
      split; [lia|]. split; [intros _; lia|]. rewrite wenum_app by lia. reflexivity.
    + rewrite view_evict_nowin by auto. rewrite A3. exists lo.
      unfold wlo in *. rewrite Ew in *. split; [lia|]. split; [intros _; lia|]. rewrite wenum_app by lia. reflexivity.
Qed.

Lemma forward_view_idle cfg kv0 b i : slot_entries b i = [] -> view (fwd cfg kv0 b) i = view kv0 i.
Proof. intro H. unfold fwd. rewrite view_forward, H, app_nil_r. apply view_evict_other. apply low_pos_none. exact H. Qed.

(** a sequence that goes on after the second loop is live, with nothing pending, on the slot it had *)
Lemma post_ok_live cfg sl kv0 b q sl' kv' lo q1 :
  live_ok cfg sl kv0 b q -> length sl' = length sl ->
  lo <= wlo cfg (zlen (s_inputs (nth_slot sl (q_slot q)) ++ q_pending q)) ->
  post_ok kv' (q_slot q) lo (s_inputs (nth_slot sl (q_slot q)) ++ q_pending q) q (nth_slot sl' (q_slot q)) (Some q1) ->
  live_ok cfg sl' kv' [] q1.
Proof.
  intros Hl L2 Hlo (B1 & B2 & B3' & B4 & B5 & B6 & B7).
  constructor; rewrite ?B6, ?B4, ?B7; auto.
  - rewrite L2. apply (lo_slot Hl).
  - exists lo. split; [rewrite B3'; exact Hlo|exact B2].
  - rewrite B3', zlen_app, zlen_nil. pose proof (lo_fit Hl). lia.
  - apply (lo_keep Hl).
  - apply (lo_guard Hl).
Qed.

Lemma post_inv G cfg sl kv0 qs b sl' qs' ev next clk n l :
  win_ok cfg -> mid_ok cfg sl kv0 qs b -> post_all_v G cfg (fwd cfg kv0 b) b sl qs = Some (sl', qs', ev) ->
  inv cfg (mkSt sl' (fwd cfg kv0 b) qs' next clk n l).
Proof.
  intros Hwin Hm EP. set (kv' := fwd cfg kv0 b) in *.
  destruct (post_all_v_spec _ _ _ _ _ _ _ _ _ EP (mo_inj Hm)) as (L1 & L2 & Hfr & Hnone & evs & _ & _ & Hown).
  { intros k q Hq. apply (lo_slot (mo_live Hm k q Hq)). }
  assert (Hpo : forall k q, get_seq qs k = Some q ->
            exists lo, lo <= wlo cfg (zlen (s_inputs (nth_slot sl (q_slot q)) ++ q_pending q)) /\
              post_ok kv' (q_slot q) lo (s_inputs (nth_slot sl (q_slot q)) ++ q_pending q) q (nth_slot sl' (q_slot q)) (get_seq qs' k)).
  { intros k q Hq. pose proof (mo_live Hm k q Hq) as Hl.
    destruct (forward_view_live cfg _ _ _ q Hwin Hl) as (lo & Hlo & _ & Hv). exists lo. split; [exact Hlo|].
    exact (post_one_ok (G q) cfg kv' b _ q (q_slot q) lo _ _ _ (lo_inuse Hl) Hv (Hown k q Hq)). }
  assert (Hback : forall k q1, get_seq qs' k = Some q1 -> exists q, get_seq qs k = Some q).
  { intros k q1 E1. destruct (get_seq qs k) as [q|] eqn:Eq; [eauto|]. rewrite (Hnone k Eq) in E1. discriminate. }
  assert (Hidle : forall k q, get_seq qs k = Some q -> s_inuse (nth_slot sl (q_slot q)) = true).
  { intros k q Eq. apply (lo_inuse (mo_live Hm k q Eq)). }
  split; cbn [slots kv seqs].
  - constructor.
    + rewrite L1, L2. apply (mo_len Hm).
    + intros k q1 E1. destruct (Hback k q1 E1) as (q & Eq). destruct (Hpo k q Eq) as (lo & Hlo & Hpo'). rewrite E1 in Hpo'.
      exact (post_ok_live cfg sl kv0 b q sl' kv' lo q1 (mo_live Hm k q Eq) L2 Hlo Hpo').
    + intros k1 k2 q1 q2 E1 E2 Hs. destruct (Hback k1 q1 E1) as (q10 & Eq1), (Hback k2 q2 E2) as (q20 & Eq2).
      destruct (Hpo k1 q10 Eq1) as (lo1 & _ & Q1). destruct (Hpo k2 q20 Eq2) as (lo2 & _ & Q2). rewrite E1 in Q1. rewrite E2 in Q2.
      eapply (mo_inj Hm); eauto. destruct Q1 as (_ & _ & _ & _ & _ & S1 & _), Q2 as (_ & _ & _ & _ & _ & S2 & _). congruence.
    + intros i Hi Hu. rewrite L2 in Hi. split; [|reflexivity].
      destruct (s_inuse (nth_slot sl i)) eqn:Hold.
      * destruct (mo_used Hm i Hi Hold) as (k & q & Eq & <-). destruct (Hpo k q Eq) as (lo & Hlo & Hpo').
        destruct (get_seq qs' k); [destruct Hpo' as (B1 & _); congruence|].
        exists lo. split; [intro Hn; eapply lo_none; eauto|apply Hpo'].
      * rewrite Hfr by (intros k q Eq <-; rewrite (Hidle k q Eq) in Hold; discriminate).
        destruct (mo_idle Hm i Hi Hold) as [I1 I2]. unfold holds_below, view_lt, kv'. rewrite (forward_view_idle cfg _ _ i I2). exact I1.
    + intros i Hi Hu. rewrite L2 in Hi.
      destruct (s_inuse (nth_slot sl i)) eqn:Hold.
      * destruct (mo_used Hm i Hi Hold) as (k & q & Eq & <-). destruct (Hpo k q Eq) as (lo & Hlo & Hpo').
        destruct (get_seq qs' k) as [q1|] eqn:E1; [|destruct Hpo' as (B1 & _); congruence].
        exists k, q1. split; [auto|]. apply Hpo'.
      * rewrite Hfr in Hu by (intros k q Eq <-; rewrite (Hidle k q Eq) in Hold; discriminate). congruence.
  - intros k q1 E1. destruct (Hback k q1 E1) as (q & Eq). destruct (Hpo k q Eq) as (lo & _ & Hpo'). rewrite E1 in Hpo'. apply Hpo'.
Qed.

Lemma post_slots_length G cfg sl kv0 qs b kv' sl' qs' ev :
  mid_ok cfg sl kv0 qs b -> post_all_v G cfg kv' b sl qs = Some (sl', qs', ev) -> length sl' = length sl.
Proof.
  intros Hm EP. destruct (post_all_v_spec _ _ _ _ _ _ _ _ _ EP (mo_inj Hm)) as (_ & L2 & _); [|exact L2].
  intros k q Hq. apply (lo_slot (mo_live Hm k q Hq)).
Qed.

Lemma process_batch_inv F cfg st : win_ok cfg -> inv cfg st -> inv cfg (fst (process_batch F cfg st)).
Proof.
  intros Hwin Hi. destruct (build_all_mid cfg st Hi) as (p & E & Hmp & _).
  destruct (process_batch_cases F cfg st p E) as [r _|next Eb|next sl qs ev _ _ EP]; cbn [fst]; [exact Hi| |].
  - rewrite Eb in Hmp. apply mid_ok_nil_inv. exact Hmp.
  - rewrite post_all_as_v in EP. eapply post_inv; eauto.
Qed.

Lemma new_sequence_ok cfg prompt keep inputs keep' :
  1 <= numCtx cfg -> new_sequence cfg prompt keep = Ok (inputs, keep') ->
  inputs <> [] /\ 0 <= keep' < numCtx cfg /\ zlen inputs <= numCtx cfg.
Proof.
  intros Hc H. unfold new_sequence in H. destruct prompt as [|x prompt]; [discriminate|].
  assert (HP : 1 <= zlen (x :: prompt)) by (rewrite zlen_cons; pose proof (zlen_nonneg prompt); lia).
  assert (HPne : x :: prompt <> []) by discriminate.
  remember (x :: prompt) as P eqn:EP. clear EP.
  set (keep0 := if keep <? 0 then zlen P else keep) in *.
  assert (Hk0 : 0 <= keep0) by (subst keep0; destruct (keep <? 0) eqn:E; lia).
  set (k := Z.min keep0 (numCtx cfg - 1)) in *.
  destruct (numCtx cfg <? zlen P) eqn:Elong.
  - destruct (zlen P <=? k + (zlen P - numCtx cfg)) eqn:E1; [discriminate|]. destruct (k <? 0) eqn:E2; [discriminate|].
    injection H as <- <-. split; [|split; [lia|]].
    + intro E. apply (f_equal (@zlen tok)) in E. rewrite zlen_app, zlen_firstn, zlen_skipn in E. change (zlen (@nil tok)) with 0 in E. lia.
    + rewrite zlen_app, zlen_firstn, zlen_skipn. lia.
  - injection H as <- <-. split; [auto|]. split; lia.
Qed.

Lemma first_free_spec l i0 idx : first_free l i0 = Some idx -> (i0 <= idx < i0 + length l)%nat /\ nth (idx - i0) l None = None.
Proof.
  revert i0. induction l as [|o l IH]; intros i0 H; cbn [first_free] in H; [discriminate|].
  destruct o.
  - apply IH in H. destruct H as [H1 H2]. cbn [length]. split; [lia|]. replace (idx - i0)%nat with (S (idx - S i0)) by lia. exact H2.
  - injection H as <-. cbn [length]. split; [lia|]. rewrite Nat.sub_diag. reflexivity.
Qed.
Lemma first_free_0 qs idx : first_free qs 0 = Some idx -> (idx < length qs)%nat /\ get_seq qs idx = None.
Proof. intro H. apply first_free_spec in H. rewrite Nat.sub_0_r in H. split; [lia|apply H]. Qed.

Lemma new_sequence_keep0 cfg prompt inputs keep' :
  1 <= numCtx cfg -> new_sequence cfg prompt 0 = Ok (inputs, keep') -> keep' = 0.
Proof.
  intros Hc H. unfold new_sequence in H. destruct prompt as [|x prompt]; [discriminate|].
  remember (x :: prompt) as P. cbn [Z.ltb Z.compare] in H.
  destruct (numCtx cfg <? zlen P).
  - destruct (zlen P <=? _); [discriminate|]. destruct (_ <? 0); [discriminate|]. injection H as _ <-. lia.
  - injection H as _ <-. lia.
Qed.

Lemma shift_guard_new cfg prompt keep inputs keep' :
  1 <= numCtx cfg -> shift_guard cfg keep -> new_sequence cfg prompt keep = Ok (inputs, keep') -> shift_guard cfg keep'.
Proof.
  intros Hc [Hg|[Hg|Hg]] H; [left; auto| |right; right; auto].
  subst keep. right. left. eapply new_sequence_keep0; eauto.
Qed.

Lemma idle_slot_unowned cfg sl kv0 qs b si :
  mid_ok cfg sl kv0 qs b -> s_inuse (nth_slot sl si) = false -> forall j q2, get_seq qs j = Some q2 -> q_slot q2 <> si.
Proof. intros Hm Hu j q2 E2 Hs. rewrite <- Hs, (lo_inuse (mo_live Hm j q2 E2)) in Hu. discriminate. Qed.

Lemma submit_inv cfg st prompt np keep stops :
  1 <= numCtx cfg -> win_ok cfg -> shift_guard cfg keep -> inv cfg st -> inv cfg (fst (submit cfg st prompt np keep stops)).
Proof.
  intros Hc Hwin Hg [Hm Hin]. destruct (submit_cases cfg st prompt np keep stops) as [r _|inputs keep' idx sl kv' si rest EN EF EL]; [split; auto|].
  destruct (new_sequence_ok _ _ _ _ _ Hc EN) as (N1 & N2 & N3). destruct (first_free_0 _ _ EF) as [Hidx Hfree].
  destruct (load_cache_slot_ok _ _ _ _ _ _ _ _ _ Hwin N1 (inv_slots_ok _ _ _ _ _ Hm) EL) as (L1 & L2 & L3 & L4 & L5 & L6 & L7 & L8 & L9).
  pose proof (shift_guard_new _ _ _ _ _ Hc Hg EN) as Hg'. pose proof (idle_slot_unowned _ _ _ _ _ _ Hm L3) as Hold.
  unfold inv. cbn [fst slots kv seqs]. split.
  - eapply mid_ok_set with (i := si); [exact Hm|exact Hidx| |exact L1|exact L5|intros j Hj; split; [apply L8; exact Hj|reflexivity]|].
    + intros j q2 E2. split; [intros ->; congruence|]. intro Hs. destruct (Hold j q2 E2 Hs).
    + split; [reflexivity|]. constructor; cbn [q_slot q_pending q_inputs q_keep]; auto; try lia.
      rewrite zlen_nil. rewrite <- L6, zlen_app in N3. pose proof (zlen_nonneg rest). lia.
  - intros j q2 E2. apply get_seq_set_inv in E2 as [[-> E2]|[Hj E2]]; [|eapply Hin; eauto|exact Hidx].
    injection E2 as <-. exact L7.
Qed.

Lemma init_inv cfg parallel : inv cfg (init parallel).
Proof.
  unfold init. split; cbn [slots kv seqs].
  - constructor.
    + rewrite !repeat_length. reflexivity.
    + intros idx q H. rewrite get_seq_repeat_none in H. discriminate.
    + intros i1 i2 q1 q2 H. rewrite get_seq_repeat_none in H. discriminate.
    + intros i Hi _. rewrite repeat_length in Hi. unfold nth_slot. rewrite nth_repeat_any by auto. cbn. split; [exists 0; split; [lia|reflexivity]|reflexivity].
    + intros i Hi Hu. rewrite repeat_length in Hi. unfold nth_slot in Hu. rewrite nth_repeat_any in Hu by auto. discriminate.
  - intros idx q H. rewrite get_seq_repeat_none in H. discriminate.
Qed.

Definition op_guard (cfg : config) (o : op) : Prop :=
  match o with Submit _ _ keep _ => shift_guard cfg keep | Step => True end.

Section Reach.
  Variable F : list (Z * tok) -> tok.

  Lemma step_op_inv cfg st o : 1 <= numCtx cfg -> win_ok cfg -> op_guard cfg o -> inv cfg st -> inv cfg (fst (step_op F cfg st o)).
  Proof. intros Hc Hwin Hg Hi. destruct o; cbn [step_op]; [apply submit_inv; auto|apply process_batch_inv; auto]. Qed.

  Lemma run_inv cfg st ops : 1 <= numCtx cfg -> win_ok cfg -> Forall (op_guard cfg) ops -> inv cfg st -> inv cfg (run F cfg st ops).
  Proof.
    intros Hc Hwin. revert st. induction ops as [|o ops IH]; intros st Hg Hi; cbn [run fold_left]; [auto|].
    inversion Hg; subst. apply IH; auto. apply step_op_inv; auto.
  Qed.

  Lemma reachable_inv cfg parallel ops :
    1 <= numCtx cfg -> win_ok cfg -> Forall (op_guard cfg) ops -> inv cfg (run F cfg (init parallel) ops).
  Proof. intros Hc Hwin Hg. apply run_inv; auto. apply init_inv. Qed.
End Reach.

Lemma submit_fresh_slot cfg st prompt np keep stops idx :
  inv cfg st -> snd (submit cfg st prompt np keep stops) = RSubmitted idx ->
  exists q, get_seq (seqs (fst (submit cfg st prompt np keep stops))) idx = Some q /\
            forall j q2, get_seq (seqs st) j = Some q2 -> q_slot q2 <> q_slot q.
Proof.
  intros [Hm Hin]. destruct (submit_cases cfg st prompt np keep stops) as [r Hr|inputs keep' idx' sl kv' si rest EN EF EL]; cbn [fst snd seqs].
  - intros ->. destruct Hr.
  - intro H. injection H as <-. destruct (first_free_0 _ _ EF) as [Hidx _].
    destruct (load_cache_slot_not_inuse _ _ _ _ _ _ _ _ _ EL) as [L1 L2].
    eexists. split; [apply get_seq_set_same; lia|]. cbn [q_slot]. eapply idle_slot_unowned; eauto.
Qed.

Lemma submit_logs cfg st prompt np keep stops idx :
  snd (submit cfg st prompt np keep stops) = RSubmitted idx ->
  exists inputs keep', new_sequence cfg prompt keep = Ok (inputs, keep') /\
    log (fst (submit cfg st prompt np keep stops)) = log st ++ [EvSubmit (nreq st) inputs keep' np stops].
Proof.
  destruct (submit_cases cfg st prompt np keep stops) as [r Hr|inputs keep' idx' sl kv' si rest EN EF EL]; cbn [fst snd log].
  - intros ->. destruct Hr.
  - intros _. eauto.
Qed.

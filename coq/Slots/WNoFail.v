(** C07 — in reachable states neither the slot assignment nor processBatch fails: no "no available cache slots",
    no nil dereference in findBestCacheSlot, no shift error, no negative slice bound (with the two C07 patches). *)
From Coq Require Import List ZArith NArith Bool Arith Lia ZifyBool ZifyNat.
From V Require Import Common.Bytes Slots.StopFns Slots.Model Slots.ProofsKv Slots.ProofsWin Slots.WSlots Slots.WBatch.
Import ListNotations.
Open Scope Z_scope.

Lemma owners_list cfg sl kv0 qs b :
  mid_ok cfg sl kv0 qs b ->
  forall m, (m <= length sl)%nat -> (forall j, (j < m)%nat -> s_inuse (nth_slot sl j) = true) ->
  exists ks, length ks = m /\ NoDup ks /\
             forall k, In k ks -> exists q, get_seq qs k = Some q /\ (q_slot q < m)%nat.
Proof.
  intros Hm. induction m as [|m IH]; intros Hle Hall.
  - exists []. repeat split; [constructor|intros k []].
  - destruct IH as (ks & Hlen & Hnd & Hks); [lia|intros; apply Hall; lia|].
    destruct (mo_used Hm m ltac:(lia) (Hall m ltac:(lia))) as (k & q & Hq & Hs).
    exists (k :: ks). split; [cbn; lia|]. split.
    + constructor; [|auto]. intro Hin. destruct (Hks k Hin) as (q' & Hq' & Hlt). rewrite Hq in Hq'. injection Hq' as <-. lia.
    + intros k' [<-|Hin].
      * exists q. split; [auto|lia].
      * destruct (Hks k' Hin) as (q' & Hq' & Hlt). exists q'. split; [auto|lia].
Qed.

Lemma idle_slot_exists cfg sl kv0 qs b idx :
  mid_ok cfg sl kv0 qs b -> (idx < length qs)%nat -> get_seq qs idx = None ->
  exists j, (j < length sl)%nat /\ s_inuse (nth_slot sl j) = false.
Proof.
  intros Hm Hidx Hfree.
  (* search for an idle slot; if there is none, count (pigeonhole) *)
  assert (Hdec : forall m, (m <= length sl)%nat ->
            (exists j, (j < m)%nat /\ s_inuse (nth_slot sl j) = false) \/ (forall j, (j < m)%nat -> s_inuse (nth_slot sl j) = true)).
  { induction m as [|m IHm]; intro Hle; [right; intros; lia|].
    destruct IHm as [(j & Hj & Hu)|Hall]; [lia|left; exists j; split; [lia|auto]|].
    destruct (s_inuse (nth_slot sl m)) eqn:Eu.
    - right. intros j Hj. destruct (Nat.eq_dec j m) as [->|]; [auto|apply Hall; lia].
    - left. exists m. split; [lia|auto]. }
  destruct (Hdec (length sl) (le_n _)) as [(j & Hj & Hu)|Hall]; [eauto|]. exfalso.
  destruct (owners_list cfg sl kv0 qs b Hm (length sl) (le_n _) Hall) as (ks & Hlen & Hnd & Hks).
  assert (Hnd' : NoDup (idx :: ks)).
  { constructor; [|auto]. intro Hin. destruct (Hks idx Hin) as (q & Hq & _). congruence. }
  assert (Hincl : incl (idx :: ks) (seq 0 (length qs))).
  { intros k [<-|Hin]; apply in_seq; [lia|]. destruct (Hks k Hin) as (q & Hq & _). apply get_seq_lt in Hq. lia. }
  pose proof (NoDup_incl_length Hnd' Hincl) as Hlen'. cbn [length] in Hlen'. rewrite seq_length, Hlen, (mo_len Hm) in Hlen'. lia.
Qed.

Lemma load_cache_slot_succeeds cfg clk sl kv0 prompt :
  (exists j, (j < length sl)%nat /\ s_inuse (nth_slot sl j) = false) ->
  exists r, load_cache_slot cfg clk sl kv0 prompt = Ok r.
Proof.
  intros (j & Hj & Hu). pose proof (load_cache_slot_cases cfg clk sl kv0 prompt) as Hl.
  destruct (load_cache_slot cfg clk sl kv0 prompt) as [r| |]; [eauto| |];
    pose proof (find_slot_cases cfg sl kv0 prompt) as Hf; rewrite Hl in Hf; rewrite (Hf j Hj) in Hu; discriminate.
Qed.

Lemma new_sequence_no_panic cfg prompt keep : 1 <= numCtx cfg -> new_sequence cfg prompt keep <> Panic.
Proof.
  intro Hc. unfold new_sequence. destruct prompt as [|x prompt]; [discriminate|].
  remember (x :: prompt) as P. destruct (numCtx cfg <? zlen P); [|discriminate].
  destruct (zlen P <=? _); [discriminate|].
  match goal with |- context [if ?c <? 0 then _ else _] => destruct (c <? 0) eqn:E; [|discriminate] end.
  exfalso. pose proof (zlen_nonneg P). destruct (keep <? 0) eqn:Ek; lia.
Qed.

Lemma first_free_lt l i0 idx : first_free l i0 = Some idx -> (idx - i0 < length l)%nat.
Proof. intro H. apply first_free_spec in H. lia. Qed.

Lemma submit_no_failure cfg st prompt np keep stops :
  1 <= numCtx cfg -> inv cfg st ->
  match snd (submit cfg st prompt np keep stops) with RPanic | RFatal | RLoadErr => False | _ => True end.
Proof.
  intros Hc [Hm _]. unfold submit.
  destruct (new_sequence cfg prompt keep) as [[inputs keep']| |] eqn:EN; [|exact I|exfalso; eapply new_sequence_no_panic; eauto].
  destruct (first_free (seqs st) 0) as [idx|] eqn:EF; [|exact I].
  destruct (first_free_0 _ _ EF) as [Hidx Hfree].
  destruct (idle_slot_exists _ _ _ _ _ idx Hm Hidx Hfree) as (j & Hj & Hu).
  destruct (load_cache_slot_succeeds cfg (clock st) (slots st) (kv st) inputs) as ([[[sl kv'] si] rest] & ->); [eauto|exact I].
Qed.

Section NoFail.
  Variable F : list (Z * tok) -> tok.

  Lemma post_one_total cfg kv' b s q : post_one F cfg kv' b s q <> QPanic.
  Proof.
    unfold post_one. destruct (q_inputs q); [|discriminate].
    destruct (sample_at F cfg kv' b (q_ibatch q)) as [t vis].
    destruct ((0 <=? eosTok cfg) && (t =? eosTok cfg)); [discriminate|].
    destruct (find_stop _ _); [|discriminate]. destruct (truncate_stop _ _). discriminate.
  Qed.

  Lemma post_all_total cfg kv' b qs : forall sl, post_all F cfg kv' b sl qs <> None.
  Proof.
    induction qs as [|o r IH]; intro sl; cbn [post_all]; [discriminate|].
    destruct o as [q|].
    - destruct (post_one F cfg kv' b (nth_slot sl (q_slot q)) q) as [s1 q' ev1|] eqn:E; [|exfalso; eapply post_one_total; eauto].
      destruct (post_all F cfg kv' b (set_nth sl (q_slot q) s1) r) as [[[sl' r'] ev]|] eqn:E2; [discriminate|].
      exfalso. eapply IH; eauto.
    - destruct (post_all F cfg kv' b sl r) as [[[sl' r'] ev]|] eqn:E2; [discriminate|]. exfalso. eapply IH; eauto.
  Qed.

  Lemma process_batch_no_failure cfg st :
    inv cfg st -> match snd (process_batch F cfg st) with RPanic | RFatal | RLoadErr => False | _ => True end.
  Proof.
    intros Hi. destruct (build_all_mid cfg st Hi) as (p & E & _ & _).
    destruct (process_batch_cases F cfg st p E) as [r Hr|next Eb|next sl qs ev _ _ _]; cbn [snd]; try exact I.
    destruct r; try exact I; try contradiction. exfalso. eapply post_all_total; eauto.
  Qed.

  Lemma step_op_no_failure cfg st o :
    1 <= numCtx cfg -> inv cfg st ->
    match snd (step_op F cfg st o) with RPanic | RFatal | RLoadErr => False | _ => True end.
  Proof.
    intros Hc Hi. destruct o; cbn [step_op]; [apply submit_no_failure; auto|apply process_batch_no_failure; auto].
  Qed.
End NoFail.

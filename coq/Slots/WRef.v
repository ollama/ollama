(** C07 — the single-sequence reference ("a fresh runner with an empty cache, for the same effective input") and the
    refinement invariant: every sampled token was computed from the reference window, and a request ends where its reference run ends. *)
From Coq Require Import List ZArith NArith Bool Arith Lia ZifyBool ZifyNat.
From V Require Import Common.Bytes Slots.StopFns Slots.Model Slots.ProofsKv Slots.ProofsWin Slots.WSlots Slots.WBatch.
Import ListNotations.
Open Scope Z_scope.

Section Ref.
  Variable F : list (Z * tok) -> tok.
  Variable cfg : config.
  Hypothesis Hwin : win_ok cfg.

  (** [W] is the list of inputs the model has been fed for the request (positions 0..|W|-1).  Feeding one more
      token first discards half of the non-kept history when the context is full. *)
  Definition feed (keep : Z) (W : list tok) (t : tok) : list tok :=
    (if numCtx cfg <? zlen W + 1 then shifted W keep (shift_discard cfg (zlen W) keep) else W) ++ [t].
  (** the window from which the n-th token (n = 0, 1, ...) is sampled; W0 = the prompt after truncation *)
  Fixpoint ref_win (keep : Z) (W : list tok) (n : nat) : list tok :=
    match n with
    | O => W
    | S k => ref_win keep (feed keep W (F (ref_vis cfg W))) k
    end.
  Definition ref_tok (keep : Z) (W0 : list tok) (n : nat) : tok := F (ref_vis cfg (ref_win keep W0 n)).

  Lemma ref_win_S keep W n :
    ref_win keep W (S n) = feed keep (ref_win keep W n) (F (ref_vis cfg (ref_win keep W n))).
  Proof. revert W. induction n as [|n IH]; intro W; [reflexivity|]. cbn [ref_win] in *. rewrite IH. reflexivity. Qed.

  Lemma feed_len keep W t :
    0 <= keep < numCtx cfg -> zlen W <= numCtx cfg -> zlen (feed keep W t) <= numCtx cfg /\ 1 <= zlen (feed keep W t).
  Proof.
    intros Hk Hl. unfold feed. rewrite zlen_app. change (zlen [t]) with 1.
    destruct (numCtx cfg <? zlen W + 1) eqn:E.
    - destruct (shift_discard_bounds cfg (zlen W) keep Hk ltac:(lia)) as [D1 D2].
      rewrite shifted_length by lia. lia.
    - pose proof (zlen_nonneg W). lia.
  Qed.

  Lemma ref_win_len keep W0 n :
    0 <= keep < numCtx cfg -> zlen W0 <= numCtx cfg -> zlen (ref_win keep W0 n) <= numCtx cfg.
  Proof.
    intros Hk. revert W0. induction n as [|n IH]; intros W0 Hl; cbn [ref_win]; [auto|].
    apply IH. apply feed_len; auto.
  Qed.

  Definition held (stops : list str) (pend' : list str) : bool :=
    contains_stop_suffix (concat pend') stops || incomplete_unicode (concat pend').
  Definition pend_next (stops : list str) (pend : list str) (t : tok) : list str :=
    let pend' := pend ++ [piece_of t] in if held stops pend' then pend' else [].
  Definition stops_at (stops : list str) (pend : list str) (t : tok) : bool :=
    ((0 <=? eosTok cfg) && (t =? eosTok cfg)) ||
    match find_stop (concat (pend ++ [piece_of t])) stops with Some _ => true | None => false end.

  Fixpoint ref_pend (keep : Z) (W0 : list tok) (stops : list str) (n : nat) : list str :=
    match n with
    | O => []
    | S k => pend_next stops (ref_pend keep W0 stops k) (ref_tok keep W0 k)
    end.
  Definition ends_stop (keep : Z) (W0 : list tok) (stops : list str) (n : nat) : bool :=
    stops_at stops (ref_pend keep W0 stops n) (ref_tok keep W0 n).
  (** after the n-th sample numPredicted = n+1 has reached numPredict (seen at the start of the next batch) *)
  Definition ends_length (np : Z) (n : nat) : bool := (0 <? np) && (np <=? Z.of_nat (S n)).

  Definition runs_to (keep : Z) (W0 : list tok) (np : Z) (stops : list str) (n : nat) : Prop :=
    forall j, (S j < n)%nat -> ends_stop keep W0 stops j = false /\ ends_length np j = false.

  Definition req_of (e : event) : nat :=
    match e with EvSubmit r _ _ _ _ => r | EvSample r _ _ => r | EvDone r _ => r end.
  Fixpoint samples_of (r : nat) (l : list event) : list (tok * list (Z * tok)) :=
    match l with
    | [] => []
    | EvSample r' t vis :: l' => if Nat.eqb r r' then (t, vis) :: samples_of r l' else samples_of r l'
    | _ :: l' => samples_of r l'
    end.
  Lemma samples_of_app r l1 l2 : samples_of r (l1 ++ l2) = samples_of r l1 ++ samples_of r l2.
  Proof.
    induction l1 as [|e l1 IH]; [reflexivity|]. cbn [app samples_of]. destruct e; auto.
    destruct (Nat.eqb r req); cbn [app]; rewrite IH; reflexivity.
  Qed.
  Lemma samples_of_other r l : (forall e, In e l -> req_of e <> r) -> samples_of r l = [].
  Proof.
    induction l as [|e l IH]; intro H; [reflexivity|]. cbn [samples_of].
    assert (IH' : samples_of r l = []) by (apply IH; intros; apply H; right; auto).
    destruct e; auto. specialize (H _ (or_introl eq_refl)). cbn in H.
    replace (Nat.eqb r req) with false; [auto|]. symmetry. apply Nat.eqb_neq. auto.
  Qed.

  Definition log_ok (l : list event) : Prop :=
    forall r W0 keep np sp, In (EvSubmit r W0 keep np sp) l ->
      forall j t vis, nth_error (samples_of r l) j = Some (t, vis) ->
        vis = ref_vis cfg (ref_win keep W0 j) /\ t = F vis.
  Definition log_ids (l : list event) (n : nat) : Prop :=
    (forall e, In e l -> (req_of e < n)%nat) /\
    (forall r W0 keep np sp W0' keep' np' sp', In (EvSubmit r W0 keep np sp) l -> In (EvSubmit r W0' keep' np' sp') l ->
       W0 = W0' /\ keep = keep' /\ np = np' /\ sp = sp').

  Definition nsamples (r : nat) (l : list event) : nat := length (samples_of r l).

  Lemma nsamples_ext l ext r : samples_of r ext = [] -> nsamples r (l ++ ext) = nsamples r l.
  Proof. intro H. unfold nsamples. rewrite samples_of_app, H, app_nil_r. reflexivity. Qed.

  Definition no_submit (ev : list event) : Prop := forall e, In e ev -> match e with EvSubmit _ _ _ _ _ => False | _ => True end.

  Lemma log_ok_ext l ext :
    log_ok l -> (forall r, samples_of r ext = []) -> no_submit ext -> log_ok (l ++ ext).
  Proof.
    intros Hok Hs Hn r W0 keep np sp Hin j t vis Hj.
    apply in_app_or in Hin as [Hin|Hin]; [|exfalso; apply (Hn _ Hin)].
    rewrite samples_of_app, Hs, app_nil_r in Hj. eapply Hok; eauto.
  Qed.

  Lemma log_ids_ext l ext n :
    log_ids l n -> (forall e, In e ext -> (req_of e < n)%nat) -> no_submit ext -> log_ids (l ++ ext) n.
  Proof.
    intros [H1 H2] Hr Hn. split.
    - intros e He. apply in_app_or in He as [He|He]; auto.
    - intros r W0 keep np sp W0' keep' np' sp' A B.
      apply in_app_or in A as [A|A]; [|exfalso; apply (Hn _ A)].
      apply in_app_or in B as [B|B]; [|exfalso; apply (Hn _ B)]. eapply H2; eauto.
  Qed.

  (** [pos_ref]: recorded, pending and remaining inputs make up the window [W] from which the next token is sampled, or the one generated token waits for the context shift
      that yields [W].  [cnt_ref]: none of the [n] samples was a stop, and none but perhaps the last reached numPredict
      (that is only seen at the start of the next batch). *)
  Definition pos_ref (C : list tok) (q : seqst) (W : list tok) : Prop :=
    C ++ q_pending q ++ q_inputs q = W \/
    (q_pending q = [] /\ exists t, q_inputs q = [t] /\ numCtx cfg < zlen C + 1 /\
     W = shifted C (q_keep q) (shift_discard cfg (zlen C) (q_keep q)) ++ [t]).
  Definition cnt_ref (q : seqst) (W0 : list tok) (n : nat) : Prop :=
    q_npredicted q = Z.of_nat n /\ q_pend q = ref_pend (q_keep q) W0 (q_stops q) n /\
    runs_to (q_keep q) W0 (q_npredict q) (q_stops q) n /\
    (forall j, (j < n)%nat -> ends_stop (q_keep q) W0 (q_stops q) j = false).
  Definition at_ref (l : list event) (C : list tok) (q : seqst) (W0 : list tok) : Prop :=
    In (EvSubmit (q_req q) W0 (q_keep q) (q_npredict q) (q_stops q)) l /\ zlen W0 <= numCtx cfg /\
    pos_ref C q (ref_win (q_keep q) W0 (nsamples (q_req q) l)) /\ cnt_ref q W0 (nsamples (q_req q) l).

  Lemma at_ref_ext l ext C q W0 : samples_of (q_req q) ext = [] -> at_ref l C q W0 -> at_ref (l ++ ext) C q W0.
  Proof.
    intros Hd (Hin & Hl & Hp & Hc). unfold at_ref. rewrite (nsamples_ext l ext _ Hd).
    split; [apply in_or_app; auto|auto].
  Qed.

  Definition same_request (q q' : seqst) : Prop :=
    q_req q' = q_req q /\ q_keep q' = q_keep q /\ q_npredict q' = q_npredict q /\ q_stops q' = q_stops q.
  Definition same_params (q q' : seqst) : Prop :=
    same_request q q' /\ q_npredicted q' = q_npredicted q /\ q_pend q' = q_pend q.

  (** the batch entry from which a sequence that has consumed all its inputs will be sampled *)
  Definition out_entry (b : list entry) (C : list tok) (q : seqst) : Prop :=
    q_inputs q = [] ->
    exists e, nth_error (outputs_of b) (q_ibatch q) = Some e /\ e_seq e = q_slot q /\ e_pos e = zlen C + zlen (q_pending q) - 1.

  Lemma outputs_of_app b1 b2 : outputs_of (b1 ++ b2) = outputs_of b1 ++ outputs_of b2.
  Proof. unfold outputs_of. apply filter_app. Qed.

  (** [i] of the inputs [I] are in the batch; once all are, the last one's entry is the one sampled from *)
  Definition plain_st (C I : list tok) (slotId i : nat) (b : bstate) : Prop :=
    b_C b = C /\ b_inputs b = I /\ b_pending b = firstn i I /\ (i <= length I)%nat /\
    b_nout b = length (outputs_of (b_batch b)) /\
    ((0 < i)%nat -> i = length I ->
     exists e, nth_error (outputs_of (b_batch b)) (b_ibatch b) = Some e /\ e_seq e = slotId /\ e_pos e = zlen C + Z.of_nat i - 1).

  Lemma build_seq_plain seqIdx slotId keep C I : forall rng i b,
    plain_st C I slotId i b -> rng = skipn i I -> zlen C + zlen I <= numCtx cfg ->
    exists m b', build_seq cfg seqIdx slotId keep rng i b = BOk b' /\ plain_st C I slotId m b' /\
      exists ext, b_batch b' = b_batch b ++ ext.
  Proof.
    induction rng as [|inp rest IH]; intros i b Hst Hr Hfit; cbn [build_seq].
    - exists i, b. split; [reflexivity|]. split; [exact Hst|]. exists []. symmetry. apply app_nil_r.
    - destruct Hst as (HC & HI & HP & Hile & Hn & _).
      symmetry in Hr. destruct (skipn_cons_nth _ _ _ _ Hr) as [Hr' Hlt].
      destruct (batchSize cfg <? zlen (b_batch b) + 1).
      { destruct (set_resume_same seqIdx b) as (E1 & E2 & E3 & E4 & E5 & E6).
        exists i, (set_resume seqIdx b). split; [reflexivity|]. unfold plain_st. rewrite E1, E3, E4, E5, E6.
        split; [|exists []; symmetry; apply app_nil_r]. repeat split; auto. intros _ Hi. lia. }
      replace (numCtx cfg <? zlen (b_C b) + zlen (b_pending b) + 1) with false
        by (rewrite HC, HP, zlen_firstn; unfold zlen in *; lia).
      destruct (IH (S i) (add_input slotId i inp b)) as (m & b' & E & Hst' & (ext & R6)); [|symmetry; exact Hr'|exact Hfit|].
      + unfold plain_st, add_input. cbn [b_C b_inputs b_pending b_nout b_batch b_ibatch]. rewrite HI.
        split; [exact HC|]. split; [reflexivity|]. split; [rewrite HP; symmetry; eapply firstn_S_skipn; eauto|]. split; [lia|].
        split; [rewrite outputs_of_app, app_length, <- Hn; destruct (S i =? length I)%nat; cbn; lia|].
        (* the last input is the output *)
        intros _ Hlast. rewrite Hlast, Nat.eqb_refl. eexists. split.
        * rewrite outputs_of_app, nth_error_app2 by lia. rewrite Hn, Nat.sub_diag. unfold outputs_of. cbn. reflexivity.
        * cbn [e_seq e_pos]. split; [reflexivity|]. rewrite HC, HP, zlen_firstn. unfold zlen. lia.
      + exists m, b'. split; [exact E|]. split; [exact Hst'|]. cbn [add_input b_batch] in R6.
        eexists. rewrite R6, <- app_assoc. reflexivity.
  Qed.

  (** a shift is only ever due for a sequence that holds exactly one generated token *)
  Lemma build_seq_shift seqIdx slotId keep t b :
    0 <= keep < numCtx cfg -> b_pending b = [] -> b_inputs b = [t] ->
    numCtx cfg < zlen (b_C b) + 1 -> zlen (b_C b) <= numCtx cfg ->
    shift_guard cfg keep ->
    holds cfg (b_kv b) slotId (b_C b) -> b_nout b = length (outputs_of (b_batch b)) ->
    let W := shifted (b_C b) keep (shift_discard cfg (zlen (b_C b)) keep) in
    exists b', build_seq cfg seqIdx slotId keep [t] 0 b = BOk b' /\
      b_nout b' = length (outputs_of (b_batch b')) /\ (exists ext, b_batch b' = b_batch b ++ ext) /\
      ((b_C b' = b_C b /\ b_pending b' = [] /\ b_inputs b' = [t] /\ b_batch b' = b_batch b) \/
       (b_C b' = W /\ b_pending b' = [t] /\ b_inputs b' = [t] /\
        exists e, nth_error (outputs_of (b_batch b')) (b_ibatch b') = Some e /\ e_seq e = slotId /\ e_pos e = zlen W) \/
       (b_C b' = [] /\ b_pending b' = [] /\ b_inputs b' = W ++ [t] /\ b_batch b' = b_batch b)).
  Proof.
    intros Hk HP HI Hdue Hle Hg Hv Hn W. cbn [build_seq].
    destruct (batchSize cfg <? zlen (b_batch b) + 1).
    { destruct (set_resume_same seqIdx b) as (E1 & E2 & E3 & E4 & E5 & E6).
      exists (set_resume seqIdx b). split; [reflexivity|]. rewrite E5, E6. split; [auto|]. split; [exists []; rewrite app_nil_r; reflexivity|].
      left. rewrite E1, E3, E4. auto. }
    rewrite HP. replace (numCtx cfg <? zlen (b_C b) + zlen (@nil tok) + 1) with true by (rewrite zlen_nil; lia).
    pose proof (shift_cache_slot_ok cfg (b_kv b) slotId (b_C b) keep Hg Hk ltac:(lia) Hv) as Hs. cbn zeta in Hs. fold W in Hs.
    destruct (shift_cache_slot cfg (b_kv b) slotId (b_C b) keep) as [|C' kv'|re kv'|]; try contradiction.
    - destruct Hs as (-> & _ & _). eexists. split; [reflexivity|].
      unfold add_input. cbn [b_nout b_batch b_C b_pending b_inputs b_ibatch]. rewrite HI. cbn [length Nat.eqb].
      split; [rewrite outputs_of_app, app_length, Hn; cbn; lia|]. split; [eexists; reflexivity|].
      right. left. repeat split; auto. eexists. split.
      + rewrite outputs_of_app, nth_error_app2 by lia. rewrite Hn, Nat.sub_diag. unfold outputs_of. cbn. reflexivity.
      + cbn [e_seq e_pos]. split; [reflexivity|lia].
    - destruct Hs as (-> & _ & _). eexists. split; [reflexivity|]. cbn [b_nout b_batch b_C b_pending b_inputs].
      split; [auto|]. split; [exists []; rewrite app_nil_r; reflexivity|]. right. right. rewrite HI. auto.
  Qed.

  Lemma out_entry_ext b ext C q : out_entry b C q -> out_entry (b ++ ext) C q.
  Proof.
    intros H Hi. destruct (H Hi) as (e & E1 & E2 & E3). exists e. split; [|auto].
    rewrite outputs_of_app, nth_error_app1; [auto|]. apply nth_error_Some. congruence.
  Qed.

  Lemma loop_ref p idx q b' W :
    live_ok cfg (p_slots p) (p_kv p) (p_batch p) q -> q_pending q = [] -> q_inputs q <> [] ->
    p_nout p = length (outputs_of (p_batch p)) -> zlen W <= numCtx cfg ->
    pos_ref (s_inputs (nth_slot (p_slots p) (q_slot q))) q W ->
    build_seq cfg idx (q_slot q) (q_keep q) (q_inputs q) 0 (loop_start p q) = BOk b' ->
    b_nout b' = length (outputs_of (b_batch b')) /\ (exists ext, b_batch b' = p_batch p ++ ext) /\
    pos_ref (b_C b') (loop_seq q b') W /\ out_entry (b_batch b') (b_C b') (loop_seq q b').
  Proof.
    intros Hq Hpend Hinp Hn0 HWl Hw E. set (C := s_inputs (nth_slot (p_slots p) (q_slot q))) in *.
    unfold pos_ref in Hw. rewrite Hpend in Hw. cbn [app] in Hw.
    destruct Hw as [Hw|(_ & t & HIt & Hdue & Hw)].
    - 
      destruct (build_seq_plain idx (q_slot q) (q_keep q) C (q_inputs q) (q_inputs q) 0 (loop_start p q))
        as (m & b'' & E' & (R1 & R3 & R4 & Hmle & R5 & R7) & R6).
      + unfold plain_st, loop_start. cbn [b_C b_inputs b_pending b_nout b_batch]. rewrite Hpend. repeat split; auto; try lia.
      + reflexivity.
      + rewrite <- Hw, zlen_app in HWl. exact HWl.
      + rewrite E in E'. injection E' as <-. split; [exact R5|]. split; [exact R6|].
        unfold pos_ref, out_entry, loop_seq. cbn [q_pending q_inputs q_keep q_ibatch q_slot].
        rewrite R1, R3, R4, firstn_length, Nat.min_l by lia. split.
        * left. rewrite firstn_skipn. exact Hw.
        * intro Hnil. apply (f_equal (@length tok)) in Hnil. rewrite skipn_length in Hnil. cbn in Hnil.
          assert (Hpos : (0 < length (q_inputs q))%nat) by (destruct (q_inputs q); [congruence|cbn; lia]).
          destruct (R7 ltac:(lia) ltac:(lia)) as (e & X1 & X2 & X3).
          exists e. split; [exact X1|]. split; [exact X2|]. rewrite X3, zlen_firstn. unfold zlen. lia.
    - 
      destruct (build_seq_shift idx (q_slot q) (q_keep q) t (loop_start p q) (lo_keep Hq)) as (b'' & E' & R1 & R2 & R3); auto.
      + cbn [loop_start b_C]. pose proof (lo_fit Hq) as Hf. fold C in Hf. pose proof (zlen_nonneg (q_pending q)). fold C. lia.
      + apply (lo_guard Hq).
      + apply (lo_view Hq).
      + rewrite HIt in E. rewrite E in E'. injection E' as <-. split; [exact R1|]. split; [exact R2|].
        unfold pos_ref, out_entry, loop_seq. cbn [q_pending q_inputs q_keep q_ibatch q_slot]. cbn [loop_start b_C b_batch] in R3. fold C in R3.
        destruct R3 as [(X1 & X2 & X3 & X4)|[(X1 & X2 & X3 & e & X4 & X5 & X6)|(X1 & X2 & X3 & X4)]]; rewrite X1, X2, X3; cbn [length skipn].
        * split; [right; split; [auto|]; exists t; auto|]. intro Hnil. discriminate.
        * split; [left; rewrite app_nil_r; symmetry; exact Hw|].
          intros _. exists e. split; [exact X4|]. split; [exact X5|]. rewrite X6. change (zlen [t]) with 1. lia.
        * split; [left; symmetry; exact Hw|]. intro Hnil. apply app_eq_nil in Hnil as [_ Hnil]. discriminate.
  Qed.

  Inductive post_ref_spec (q : seqst) (W0 : list tok) (n : nat) (s' : slot) : option seqst -> list event -> Prop :=
  | PostPrompt q1 :
      same_params q q1 -> q_slot q1 = q_slot q -> q_inputs q1 <> [] -> pos_ref (s_inputs s') q1 (ref_win (q_keep q) W0 n) ->
      post_ref_spec q W0 n s' (Some q1) []
  | PostSample q1 :
      ends_stop (q_keep q) W0 (q_stops q) n = false ->
      same_request q q1 -> q_npredicted q1 = Z.of_nat (S n) -> q_pend q1 = ref_pend (q_keep q) W0 (q_stops q) (S n) ->
      q_slot q1 = q_slot q -> q_inputs q1 <> [] -> pos_ref (s_inputs s') q1 (ref_win (q_keep q) W0 (S n)) ->
      post_ref_spec q W0 n s' (Some q1) [EvSample (q_req q) (ref_tok (q_keep q) W0 n) (ref_vis cfg (ref_win (q_keep q) W0 n))]
  | PostStop :
      ends_stop (q_keep q) W0 (q_stops q) n = true ->
      post_ref_spec q W0 n s' None
        [EvSample (q_req q) (ref_tok (q_keep q) W0 n) (ref_vis cfg (ref_win (q_keep q) W0 n)); EvDone (q_req q) DoneStop].

  Lemma post_one_ref kv' b s q l W0 s' q' ev :
    fwd_view cfg kv' q (s_inputs s) -> (q_inputs q = [] -> q_pending q <> []) ->
    at_ref l (s_inputs s) q W0 -> out_entry b (s_inputs s) q ->
    post_one F cfg kv' b s q = QOk s' q' ev -> post_ref_spec q W0 (nsamples (q_req q) l) s' q' ev.
  Proof.
    intros (lo & Hlo & Hlo1 & Hv) Hne (Hsub & HW0 & Hw & Hn & Hpend & Hrun & He) Hout. unfold post_one.
    set (C := s_inputs s ++ q_pending q) in *.
    set (s1 := match q_pending q with [] => s | _ => with_inputs s C end).
    assert (Hs1 : s_inputs s1 = C).
    { subst s1 C. destruct (q_pending q); [rewrite app_nil_r; auto|cbn; auto]. }
    set (n := nsamples (q_req q) l) in *. unfold pos_ref in Hw.
    destruct (q_inputs q) as [|x rest] eqn:Ei.
    2:{ 
      intro H. injection H as <- <- <-. apply PostPrompt; cbn [q_inputs]; [repeat split; reflexivity|reflexivity|discriminate|].
      fold n. rewrite Hs1. unfold pos_ref. cbn [q_pending q_inputs q_keep].
      destruct Hw as [Hw|(Hp & t & Ht & Hdue & Hw)].
      - left. subst C. rewrite <- app_assoc. exact Hw.
      - right. subst C. rewrite Hp, app_nil_r in *. split; [auto|]. exists t. auto. }
    (* all inputs consumed: the entry of the last pending input is sampled; it saw the reference's window *)
    assert (HCW : C = ref_win (q_keep q) W0 n).
    { destruct Hw as [Hw|(_ & t & Ht & _)]; [|discriminate]. subst C. rewrite app_nil_r in Hw. exact Hw. }
    destruct (Hout Ei) as (e & E1 & E2 & E3).
    assert (Hsample : sample_at F cfg kv' b (q_ibatch q) = (ref_tok (q_keep q) W0 n, ref_vis cfg (ref_win (q_keep q) W0 n))).
    { unfold sample_at. rewrite E1, E2, E3.
      replace (zlen (s_inputs s) + zlen (q_pending q) - 1) with (zlen C - 1) by (subst C; rewrite zlen_app; lia).
      rewrite (visible_c_wenum cfg kv' (q_slot q) lo C Hv (Hlo1 (Hne eq_refl))), sort_vis_ref_vis, HCW. reflexivity. }
    rewrite Hsample. set (t := ref_tok (q_keep q) W0 n).
    assert (Hes : ends_stop (q_keep q) W0 (q_stops q) n =
                  ((0 <=? eosTok cfg) && (t =? eosTok cfg)) ||
                  match find_stop (concat (q_pend q ++ [piece_of t])) (q_stops q) with Some _ => true | None => false end).
    { unfold ends_stop, stops_at. fold n t. rewrite <- Hpend. reflexivity. }
    destruct ((0 <=? eosTok cfg) && (t =? eosTok cfg)); cbn [orb] in Hes.
    { intro H. injection H as <- <- <-. apply PostStop. exact Hes. }
    destruct (find_stop (concat (q_pend q ++ [piece_of t])) (q_stops q)).
    - destruct (truncate_stop (q_pend q ++ [piece_of t]) s0) as [pend' trunc].
      intro H. injection H as <- <- <-. apply PostStop. exact Hes.
    - intro H. injection H as <- <- <-.
      apply PostSample; cbn [q_req q_keep q_npredict q_stops q_npredicted q_pend q_inputs q_pending]; try (repeat split; reflexivity); auto; try discriminate.
      + fold n. lia.
      + cbn [ref_pend]. fold n t. rewrite <- Hpend. unfold pend_next, held. reflexivity.
      + (* the token is fed: into the window as it is, or after the shift that is now due *)
        fold n. rewrite ref_win_S. fold n. change (F (ref_vis cfg (ref_win (q_keep q) W0 n))) with t. rewrite <- HCW, Hs1. unfold feed, pos_ref. cbn [q_pending q_inputs q_keep].
        destruct (numCtx cfg <? zlen C + 1) eqn:Edue.
        * right. split; [reflexivity|]. exists t. split; [reflexivity|]. split; [lia|reflexivity].
        * left. reflexivity.
  Qed.

  Lemma post_ref_events q W0 n s' q' ev e :
    post_ref_spec q W0 n s' q' ev -> In e ev -> req_of e = q_req q /\ match e with EvSubmit _ _ _ _ _ => False | _ => True end.
  Proof. intros S He. destruct S; cbn in He; repeat (destruct He as [<-|He]); try destruct He; split; (reflexivity || exact I). Qed.

  (** Every live sequence stands at a definite point of its reference run; every recorded sample is the reference's;
      a finished request got [n >= 1] samples, did not end earlier and ended at the last one for the recorded reason;
      every accepted request is live or finished. *)
  Definition is_live (qs : list (option seqst)) (r : nat) : Prop := exists k q, get_seq qs k = Some q /\ q_req q = r.

  Definition finished_at (l : list event) (r : nat) (rs : reason) : Prop :=
    forall W0 keep np stops, In (EvSubmit r W0 keep np stops) l ->
      let n := nsamples r l in
      (1 <= n)%nat /\ runs_to keep W0 np stops n /\
      match rs with
      | DoneStop => ends_stop keep W0 stops (n - 1) = true
      | DoneLength => ends_stop keep W0 stops (n - 1) = false /\ ends_length np (n - 1) = true
      end.

  (** stated over the components, so that it also speaks of the state in the middle of processBatch *)
  Record rmid (sl : list slot) (qs : list (option seqst)) (b : list entry) (nout : nat) (l : list event) (nr : nat) : Prop := mkRmid {
    rm_nout : nout = length (outputs_of b);
    rm_live : forall k q, get_seq qs k = Some q ->
                (exists W0, at_ref l (s_inputs (nth_slot sl (q_slot q))) q W0) /\
                out_entry b (s_inputs (nth_slot sl (q_slot q))) q /\ (q_req q < nr)%nat;
    rm_req : forall i1 i2 q1 q2, get_seq qs i1 = Some q1 -> get_seq qs i2 = Some q2 -> q_req q1 = q_req q2 -> i1 = i2;
    rm_log : log_ok l;
    rm_ids : log_ids l nr;
    rm_done : forall r rs, In (EvDone r rs) l -> finished_at l r rs /\ ~ is_live qs r;
    rm_all : forall r W0 keep np stops, In (EvSubmit r W0 keep np stops) l -> is_live qs r \/ exists rs, In (EvDone r rs) l
  }.
  Global Arguments rm_nout {sl qs b nout l nr}.
  Global Arguments rm_live {sl qs b nout l nr}.
  Global Arguments rm_req {sl qs b nout l nr}.
  Global Arguments rm_log {sl qs b nout l nr}.
  Global Arguments rm_ids {sl qs b nout l nr}.
  Global Arguments rm_done {sl qs b nout l nr}.
  Global Arguments rm_all {sl qs b nout l nr}.

  Definition rinv (st : state) : Prop := rmid (slots st) (seqs st) [] 0 (log st) (nreq st).

  Lemma finished_at_ext l ext r rs : samples_of r ext = [] -> no_submit ext -> finished_at l r rs -> finished_at (l ++ ext) r rs.
  Proof.
    intros Hs Hn Hd W0 keep np stops Hin. apply in_app_or in Hin as [Hin|Hin]; [|exfalso; apply (Hn _ Hin)].
    cbn zeta. rewrite (nsamples_ext l ext r Hs). apply (Hd W0 keep np stops Hin).
  Qed.

  Lemma at_limit_ends q n : q_npredicted q = Z.of_nat n -> (1 <= n)%nat -> at_limit q = ends_length (q_npredict q) (n - 1).
  Proof. intros H Hn. unfold at_limit, ends_length. rewrite H. replace (S (n - 1)) with n by lia. reflexivity. Qed.

  Lemma runs_to_S q W0 n : cnt_ref q W0 n -> at_limit q = false -> runs_to (q_keep q) W0 (q_npredict q) (q_stops q) (S n).
  Proof.
    intros (Hn & _ & Hr & He) Hlim j Hj. split; [apply He; lia|].
    destruct (Nat.eq_dec (S j) n) as [Hjn|Hjn]; [|apply Hr; lia].
    replace j with (n - 1)%nat by lia. rewrite <- (at_limit_ends q n Hn) by lia. exact Hlim.
  Qed.

  (** a sequence at its numPredict limit leaves: its request is finished with DoneLength *)
  Lemma limit_rmid sl kv0 qs b nout l nr idx q :
    mid_ok cfg sl kv0 qs b -> rmid sl qs b nout l nr -> get_seq qs idx = Some q -> at_limit q = true ->
    rmid (release sl (q_slot q)) (set_nth qs idx None) b nout (l ++ [EvDone (q_req q) DoneLength]) nr.
  Proof.
    intros Hm R Eq El. pose proof (get_seq_lt _ _ _ Eq) as Hidx.
    destruct (rm_live R idx q Eq) as ((W0 & Hsub & HW0 & Hpos & Hn & Hpd & Hrun & He) & _ & Hrq).
    set (ext := [EvDone (q_req q) DoneLength]).
    assert (Hs : forall r, samples_of r ext = []) by reflexivity.
    assert (Hns : no_submit ext) by (intros e [<-|[]]; exact I).
    assert (Hback : forall k q', get_seq (set_nth qs idx None) k = Some q' -> k <> idx /\ get_seq qs k = Some q').
    { intros k q' E. apply get_seq_set_inv in E as [[_ E]|E]; [discriminate|exact E|exact Hidx]. }
+ constructor.
  * apply (rm_nout R).
  * intros k q' E. destruct (Hback k q' E) as [Hk E']. destruct (rm_live R k q' E') as ((W & Hw) & Ho & Hr).
    rewrite release_other by (intro Es; apply Hk; eapply (mo_inj Hm); eauto).
    split; [exists W; apply at_ref_ext; auto|auto].
  * intros i1 i2 q1 q2 E1 E2. destruct (Hback _ _ E1), (Hback _ _ E2). eapply (rm_req R); eauto.
  * apply log_ok_ext; auto. apply (rm_log R).
  * apply log_ids_ext; auto; [apply (rm_ids R)|]. intros e [<-|[]]. exact Hrq.
  * intros r rs Hd. apply in_app_or in Hd as [Hd|[Hd|[]]].
    -- destruct (rm_done R r rs Hd) as [D1 D2]. split; [apply finished_at_ext; auto|].
       intros (k & q' & E & Hr). apply D2. destruct (Hback k q' E). exists k, q'. auto.
    -- injection Hd as <- <-. split.
       ++ intros W0' keep' np' stops' Hsub'. apply in_app_or in Hsub' as [Hsub'|Hsub']; [|destruct (Hns _ Hsub')].
          destruct (proj2 (rm_ids R) _ _ _ _ _ _ _ _ _ Hsub' Hsub) as (-> & -> & -> & ->).
          cbn zeta. rewrite (nsamples_ext _ ext _ (Hs _)).
          set (n := nsamples (q_req q) l) in *.
          assert (Hn1 : (1 <= n)%nat) by (unfold at_limit in El; rewrite Hn in El; lia).
          split; [auto|]. split; [auto|]. split; [apply He; lia|]. rewrite <- (at_limit_ends q n Hn Hn1). exact El.
       ++ intros (k & q' & E & Hr). destruct (Hback k q' E) as [Hk E']. apply Hk. eapply (rm_req R); eauto.
  * intros r W keep np stops Hsub'. apply in_app_or in Hsub' as [Hsub'|Hsub']; [|destruct (Hns _ Hsub')].
    destruct (rm_all R _ _ _ _ _ Hsub') as [(k & q' & E & Hr)|(rs & Hd)].
    -- destruct (Nat.eq_dec k idx) as [->|Hk].
       ++ right. exists DoneLength. apply in_or_app. right. left. congruence.
       ++ left. exists k, q'. split; [|auto]. rewrite get_seq_set_other; auto.
    -- right. exists rs. apply in_or_app. auto.
  Qed.

  (** the inner loop leaves a sequence where it is in its reference run, and the log alone *)
  Lemma loop_rmid p idx q b' nr :
    mid_ok cfg (p_slots p) (p_kv p) (p_seqs p) (p_batch p) -> unprocessed (p_seqs p) idx ->
    rmid (p_slots p) (p_seqs p) (p_batch p) (p_nout p) (p_log p) nr -> get_seq (p_seqs p) idx = Some q ->
    build_seq cfg idx (q_slot q) (q_keep q) (q_inputs q) 0 (loop_start p q) = BOk b' ->
    rmid (set_slot_inputs (p_slots p) (q_slot q) (b_C b')) (set_nth (p_seqs p) idx (Some (loop_seq q b'))) (b_batch b') (b_nout b')
         (p_log p) nr.
  Proof.
    intros Hm Hun R Eq Er. pose proof (get_seq_lt _ _ _ Eq) as Hidx. destruct (Hun q Eq) as [Hpend Hinp].
    pose proof (mo_live Hm idx q Eq) as Hq. pose proof (lo_slot Hq) as Hslot.
    destruct (rm_live R idx q Eq) as ((W0 & Hsub & HW0 & Hpos & Hcnt) & _ & Hrq).
    pose proof (ref_win_len (q_keep q) W0 (nsamples (q_req q) (p_log p)) (lo_keep Hq) HW0) as HWl.
    destruct (loop_ref p idx q b' _ Hq Hpend Hinp (rm_nout R) HWl Hpos Er) as (R1 & (ext & R2) & Rp & Ro).
    assert (Hback : forall k q', get_seq (set_nth (p_seqs p) idx (Some (loop_seq q b'))) k = Some q' ->
                      (k = idx /\ q' = loop_seq q b') \/ (k <> idx /\ get_seq (p_seqs p) k = Some q')).
    { intros k q' E. apply get_seq_set_inv in E as [[-> E]|E]; [injection E as <-; auto|auto|exact Hidx]. }
    assert (Hreq : forall k q', get_seq (set_nth (p_seqs p) idx (Some (loop_seq q b'))) k = Some q' ->
                     exists q0, get_seq (p_seqs p) k = Some q0 /\ q_req q0 = q_req q').
    { intros k q' E. destruct (Hback k q' E) as [[-> ->]|[Hk E']]; eauto. }
+ constructor.
  * exact R1.
  * intros k q' E. destruct (Hback k q' E) as [[-> ->]|[Hk E']].
    -- change (q_slot (loop_seq q b')) with (q_slot q). rewrite set_slot_inputs_same by auto. cbn [s_inputs].
       split; [exists W0; split; [exact Hsub|]; split; [exact HW0|]; split; [exact Rp|exact Hcnt]|]. split; [exact Ro|exact Hrq].
    -- destruct (rm_live R k q' E') as (Hw & Ho' & Hr').
       rewrite set_slot_inputs_other by (intro Es; apply Hk; eapply (mo_inj Hm); eauto).
       split; [exact Hw|]. split; [rewrite R2; apply out_entry_ext; exact Ho'|exact Hr'].
  * intros i1 i2 q1 q2 E1 E2 Hs. destruct (Hreq _ _ E1) as (q10 & G1 & S1), (Hreq _ _ E2) as (q20 & G2 & S2).
    eapply (rm_req R); eauto. congruence.
  * apply (rm_log R).
  * apply (rm_ids R).
  * intros r rs Hd. destruct (rm_done R r rs Hd) as [D1 D2]. split; [exact D1|].
    intros (k & q' & E & Hr). apply D2. destruct (Hreq k q' E) as (q0 & G & S). exists k, q0. split; [auto|congruence].
  * intros r W keep np stops Hsub'. destruct (rm_all R _ _ _ _ _ Hsub') as [(k & q0 & G & Hr)|Hd]; [left|right; exact Hd].
    destruct (Nat.eq_dec k idx) as [->|Hk].
    -- exists idx, (loop_seq q b'). split; [apply get_seq_set_same; auto|]. rewrite Eq in G. injection G as <-. exact Hr.
    -- exists k, q0. split; [rewrite get_seq_set_other; auto|exact Hr].
  Qed.

  (** the first loop keeps the invariant; afterwards the visited sequence, if still there, is not at its limit *)
  Lemma build_one_ref p idx p' nr :
    mid_ok cfg (p_slots p) (p_kv p) (p_seqs p) (p_batch p) -> unprocessed (p_seqs p) idx ->
    rmid (p_slots p) (p_seqs p) (p_batch p) (p_nout p) (p_log p) nr ->
    build_one cfg p idx = POk p' ->
    rmid (p_slots p') (p_seqs p') (p_batch p') (p_nout p') (p_log p') nr /\
    forall k q', get_seq (p_seqs p') k = Some q' ->
      exists q, get_seq (p_seqs p) k = Some q /\ at_limit q' = at_limit q /\ (k = idx -> at_limit q = false).
  Proof.
    intros Hm Hun R. destruct (build_one_cases cfg p idx) as [En|q Eq El|q r Eq El Er].
    - intro H. injection H as <-. split; [exact R|]. intros k q' E. exists q'. split; [auto|]. split; [auto|]. intros ->. congruence.
    - intro H. injection H as <-. cbn [p_slots p_seqs p_batch p_nout p_log]. split; [exact (limit_rmid _ _ _ _ _ _ _ _ _ Hm R Eq El)|].
      intros k q' E. apply get_seq_set_inv in E as [[_ E]|[Hk E]]; [discriminate| |eapply get_seq_lt; eauto].
      exists q'. split; [auto|]. split; [auto|]. intros ->. congruence.
    - destruct r as [b'|]; [|discriminate]. intro H. injection H as <-. cbn [p_slots p_seqs p_batch p_nout p_log].
      split; [exact (loop_rmid p idx q b' nr Hm Hun R Eq Er)|].
      intros k q' E. apply get_seq_set_inv in E as [[-> E]|[Hk E]]; [injection E as <-| |eapply get_seq_lt; eauto].
      + exists q. split; [auto|]. split; [reflexivity|auto].
      + exists q'. split; [auto|]. split; [reflexivity|]. intros ->. congruence.
  Qed.

  Lemma build_all_ref st :
    inv cfg st -> rinv st ->
    exists p, build_all cfg (batch_start st) (batch_order st) = POk p /\
      mid_ok cfg (p_slots p) (p_kv p) (p_seqs p) (p_batch p) /\
      rmid (p_slots p) (p_seqs p) (p_batch p) (p_nout p) (p_log p) (nreq st) /\
      forall k q, get_seq (p_seqs p) k = Some q -> at_limit q = false.
  Proof.
    intros Hi R.
    destruct (build_all_ind cfg (fun order p => mid_inv cfg order p /\
                 rmid (p_slots p) (p_seqs p) (p_batch p) (p_nout p) (p_log p) (nreq st) /\
                 forall k q, get_seq (p_seqs p) k = Some q -> In k order \/ at_limit q = false))
      with (order := batch_order st) (p := batch_start st) as (p & E & (_ & Hm & _) & Rp & Hl).
    - intros idx order p ((Hnd & Hm & Hun) & Rp & Hl).
      destruct (build_one_mid cfg idx order p (conj Hnd (conj Hm Hun))) as (p' & E & Hp' & _).
      destruct (build_one_ref p idx p' (nreq st) Hm (Hun idx (or_introl eq_refl)) Rp E) as [Rp' Hlim].
      exists p'. split; [exact E|]. split; [exact Hp'|]. split; [exact Rp'|].
      intros k q' G'. destruct (Hlim k q' G') as (q & G & -> & Hidx). destruct (Hl k q G) as [[<-|Hin]|Hf]; auto.
    - split; [apply inv_mid_inv; exact Hi|]. split; [exact R|]. intros k q G. left. apply visit_order_complete. eapply get_seq_lt; eauto.
    - exists p. split; [exact E|]. split; [exact Hm|]. split; [exact Rp|]. intros k q G. destruct (Hl k q G) as [[]|Hf]; exact Hf.
  Qed.

  Lemma samples_of_in r ev x : In x (samples_of r ev) -> exists e, In e ev /\ req_of e = r.
  Proof.
    induction ev as [|e ev IH]; [intros []|]. cbn [samples_of]. intro H.
    assert (G : In x (samples_of r ev) -> exists e0, In e0 (e :: ev) /\ req_of e0 = r).
    { intro H'. destruct (IH H') as (e0 & A & B). exists e0. split; [right; auto|auto]. }
    destruct e; auto. destruct (Nat.eqb r req) eqn:E; auto.
    destruct H as [_|H]; auto. apply Nat.eqb_eq in E. subst. eexists. split; [left; reflexivity|reflexivity].
  Qed.

  Lemma samples_of_concat_none r evs : (forall j, samples_of r (nth j evs []) = []) -> samples_of r (concat evs) = [].
  Proof.
    induction evs as [|x evs IH]; intro H; [reflexivity|]. cbn [concat]. rewrite samples_of_app, (H 0%nat : samples_of r x = []), IH; [reflexivity|].
    intro j. apply (H (S j)).
  Qed.
  Lemma samples_of_concat_only r k evs :
    (forall j, j <> k -> samples_of r (nth j evs []) = []) -> samples_of r (concat evs) = samples_of r (nth k evs []).
  Proof.
    revert k. induction evs as [|x evs IH]; intros k H; [destruct k; reflexivity|]. cbn [concat]. rewrite samples_of_app. destruct k as [|k]; cbn [nth].
    - rewrite samples_of_concat_none; [apply app_nil_r|]. intro j. apply (H (S j)). discriminate.
    - rewrite (H 0%nat ltac:(discriminate) : samples_of r x = []). apply IH. intros j Hj. apply (H (S j)). lia.
  Qed.

  Lemma post_events qs evs :
    (forall i1 i2 q1 q2, get_seq qs i1 = Some q1 -> get_seq qs i2 = Some q2 -> q_req q1 = q_req q2 -> i1 = i2) ->
    (forall j e, In e (nth j evs []) ->
       (exists q, get_seq qs j = Some q /\ req_of e = q_req q) /\ match e with EvSubmit _ _ _ _ _ => False | _ => True end) ->
    no_submit (concat evs) /\
    (forall k q, get_seq qs k = Some q -> samples_of (q_req q) (concat evs) = samples_of (q_req q) (nth k evs [])) /\
    (forall r, ~ is_live qs r -> samples_of r (concat evs) = []).
  Proof.
    intros Hreq Hevs. split; [|split].
    - intros e He. apply in_concat_nth in He as (j & He). apply (Hevs j e He).
    - intros k q G. apply samples_of_concat_only. intros j Hj. apply samples_of_other. intros e He Hr.
      destruct (Hevs j e He) as [(q2 & G2 & Hr2) _]. apply Hj. eapply Hreq; eauto. congruence.
    - intros r Hnl'. apply samples_of_other. intros e He Hr. apply in_concat_nth in He as (j & He).
      destruct (Hevs j e He) as [(q & G & Hrq) _]. apply Hnl'. exists j, q. split; [auto|congruence].
  Qed.

  (** one sequence's step of the second loop: what became of it, which samples its events hold, what an EvDone among them means *)
  Definition stepped (l l' : list event) (q : seqst) (W0 : list tok) (s' : slot) (o : option seqst) (evk : list event) : Prop :=
    let n := nsamples (q_req q) l in
    match o with
    | Some q1 => q_req q1 = q_req q /\ q_slot q1 = q_slot q /\ q_inputs q1 <> [] /\ at_ref l' (s_inputs s') q1 W0
    | None => In (EvDone (q_req q) DoneStop) evk
    end /\
    (samples_of (q_req q) evk = [] \/
     samples_of (q_req q) evk = [(ref_tok (q_keep q) W0 n, ref_vis cfg (ref_win (q_keep q) W0 n))]) /\
    (forall r rs, In (EvDone r rs) evk ->
       o = None /\ rs = DoneStop /\ nsamples (q_req q) l' = S n /\
       runs_to (q_keep q) W0 (q_npredict q) (q_stops q) (S n) /\ ends_stop (q_keep q) W0 (q_stops q) n = true).

  Lemma post_step l l' C q W0 s' o evk :
    at_ref l C q W0 -> at_limit q = false -> post_ref_spec q W0 (nsamples (q_req q) l) s' o evk ->
    (forall e, In e l -> In e l') -> samples_of (q_req q) l' = samples_of (q_req q) l ++ samples_of (q_req q) evk ->
    stepped l l' q W0 s' o evk.
  Proof.
    intros (Hsub & HW0 & Hpos & Hcnt) Hlim S Hin Hs. unfold stepped. set (n := nsamples (q_req q) l) in *.
    pose proof (runs_to_S q W0 n Hcnt Hlim) as Hrun'. destruct Hcnt as (Hn & Hpd & Hrun & He).
    assert (Hn' : nsamples (q_req q) l' = (n + length (samples_of (q_req q) evk))%nat).
    { unfold nsamples. rewrite Hs, app_length. reflexivity. }
    destruct S as [q1 ((S1 & S2 & S3 & S6) & S4 & S5) Hsl Hi1 Hp1|q1 Ees (A1 & A2 & A3 & A4) A5 A6 Hsl Hi1 Hp1|Ees]; cbn [samples_of] in *; rewrite ?Nat.eqb_refl in *; cbn [length] in Hn'.
    - rewrite Nat.add_0_r in Hn'. split; [|split; [left; reflexivity|intros r rs []]].
      split; [exact S1|]. split; [exact Hsl|]. split; [exact Hi1|]. unfold at_ref, cnt_ref. rewrite S1, S2, S3, S4, S5, S6, Hn'. auto 8.
    - replace (n + 1)%nat with (S n) in Hn' by lia. split; [|split; [right; reflexivity|intros r rs [Hd|[]]; discriminate]].
      split; [exact A1|]. split; [exact Hsl|]. split; [exact Hi1|]. unfold at_ref, cnt_ref. rewrite A1, A2, A3, A4, Hn'.
      split; [auto|]. split; [exact HW0|]. split; [exact Hp1|]. split; [exact A5|]. split; [exact A6|]. split; [exact Hrun'|].
      intros j Hj. destruct (Nat.eq_dec j n) as [->|]; [exact Ees|apply He; lia].
    - replace (n + 1)%nat with (S n) in Hn' by lia. split; [right; left; reflexivity|]. split; [right; reflexivity|].
      intros r rs [Hd|[Hd|[]]]; [discriminate|]. injection Hd as <- <-. auto.
  Qed.

  (** the second loop in the reference's terms: its events split by sequence, each live sequence's events are those of its own
      request, and every live sequence has [stepped] *)
  Lemma post_steps p sl' qs' ev nr :
    mid_ok cfg (p_slots p) (p_kv p) (p_seqs p) (p_batch p) ->
    rmid (p_slots p) (p_seqs p) (p_batch p) (p_nout p) (p_log p) nr ->
    (forall k q, get_seq (p_seqs p) k = Some q -> at_limit q = false) ->
    post_all F cfg (fwd cfg (p_kv p) (p_batch p)) (p_batch p) (p_slots p) (p_seqs p) = Some (sl', qs', ev) ->
    exists evs, ev = concat evs /\
      (forall k q1, get_seq qs' k = Some q1 -> exists q, get_seq (p_seqs p) k = Some q) /\
      (forall j e, In e (nth j evs []) ->
         (exists q, get_seq (p_seqs p) j = Some q /\ req_of e = q_req q) /\ match e with EvSubmit _ _ _ _ _ => False | _ => True end) /\
      (forall k q, get_seq (p_seqs p) k = Some q -> exists W0,
         In (EvSubmit (q_req q) W0 (q_keep q) (q_npredict q) (q_stops q)) (p_log p) /\
         stepped (p_log p) (p_log p ++ concat evs) q W0 (nth_slot sl' (q_slot q)) (get_seq qs' k) (nth k evs [])).
  Proof.
    intros Hm R Hnl EP. rewrite post_all_as_v in EP. set (l := p_log p) in *. set (qs := p_seqs p) in *.
    destruct (post_all_v_spec _ _ _ _ _ _ _ _ _ EP (mo_inj Hm)) as (_ & _ & _ & Hnone & evs & -> & Hnil & Hown).
    { intros k q G. apply (lo_slot (mo_live Hm k q G)). }
    assert (Hspec : forall k q, get_seq qs k = Some q -> exists W0,
              at_ref l (s_inputs (nth_slot (p_slots p) (q_slot q))) q W0 /\
              post_ref_spec q W0 (nsamples (q_req q) l) (nth_slot sl' (q_slot q)) (get_seq qs' k) (nth k evs [])).
    { intros k q G. pose proof (mo_live Hm k q G) as Hl. destruct (rm_live R k q G) as ((W0 & Hw) & Ho & _).
      exists W0. split; [exact Hw|].
      eapply post_one_ref; [exact (forward_view_live cfg _ _ _ q Hwin Hl)|apply (lo_nonempty Hl)|exact Hw|exact Ho|apply (Hown k q G)]. }
    assert (Hevs : forall j e, In e (nth j evs []) ->
              (exists q, get_seq qs j = Some q /\ req_of e = q_req q) /\ match e with EvSubmit _ _ _ _ _ => False | _ => True end).
    { intros j e He. destruct (get_seq qs j) as [q|] eqn:G; [|rewrite (Hnil j G) in He; destruct He].
      destruct (Hspec j q G) as (W0 & _ & S). destruct (post_ref_events _ _ _ _ _ _ _ S He) as [A B]. split; [exists q; auto|exact B]. }
    destruct (post_events qs evs (rm_req R) Hevs) as (_ & Hsam & _).
    exists evs. split; [reflexivity|]. split; [|split; [exact Hevs|]].
    - intros k q1 E1. destruct (get_seq qs k) as [q|] eqn:Eq; [eauto|]. rewrite (Hnone k Eq) in E1. discriminate.
    - intros k q G. destruct (Hspec k q G) as (W0 & Hw & S). exists W0. split; [apply Hw|].
      eapply post_step; eauto; [intros; apply in_or_app; auto|]. rewrite samples_of_app, (Hsam k q G). reflexivity.
  Qed.

  Lemma post_rmid p sl' qs' ev nr :
    mid_ok cfg (p_slots p) (p_kv p) (p_seqs p) (p_batch p) ->
    rmid (p_slots p) (p_seqs p) (p_batch p) (p_nout p) (p_log p) nr ->
    (forall k q, get_seq (p_seqs p) k = Some q -> at_limit q = false) ->
    post_all F cfg (fwd cfg (p_kv p) (p_batch p)) (p_batch p) (p_slots p) (p_seqs p) = Some (sl', qs', ev) ->
    rmid sl' qs' [] 0 (p_log p ++ ev) nr.
  Proof.
    intros Hm R Hnl EP. destruct (post_steps p sl' qs' ev nr Hm R Hnl EP) as (evs & -> & Hback & Hevs & Hstep).
    set (l := p_log p) in *. set (qs := p_seqs p) in *.
    destruct (post_events qs evs (rm_req R) Hevs) as (Hns & Hsam & Hdead).
    assert (Hlive' : forall r, is_live qs' r -> is_live qs r).
    { intros r (k & q1 & G1 & Hr). destruct (Hback k q1 G1) as (q & G). exists k, q. split; [auto|].
      destruct (Hstep k q G) as (W0 & _ & X & _). rewrite G1 in X. destruct X as (X & _). congruence. }
    constructor.
    - reflexivity.
    - intros k q1 G1. destruct (Hback k q1 G1) as (q & G). destruct (Hstep k q G) as (W0 & _ & X & _). rewrite G1 in X.
      destruct X as (Xr & Hslot & Xi & Xw).
      rewrite Hslot. split; [exists W0; exact Xw|]. split; [intro Hni; contradiction|]. rewrite Xr. apply (rm_live R k q G).
    - intros k1 k2 q1 q2 E1 E2 Hs. destruct (Hback k1 q1 E1) as (q10 & G1), (Hback k2 q2 E2) as (q20 & G2).
      destruct (Hstep k1 q10 G1) as (W1 & _ & X1 & _), (Hstep k2 q20 G2) as (W2 & _ & X2 & _). rewrite E1 in X1. rewrite E2 in X2.
      eapply (rm_req R); eauto. destruct X1 as (X1 & _), X2 as (X2 & _). congruence.
    - 
      intros r W0 keep np0 sp0 Hsub j t vis Hj.
      apply in_app_or in Hsub as [Hsub|Hsub]; [|destruct (Hns _ Hsub)].
      rewrite samples_of_app in Hj.
      destruct (Nat.lt_ge_cases j (length (samples_of r l))) as [Hlt|Hge].
      + rewrite nth_error_app1 in Hj by auto. eapply (rm_log R); eauto.
      + rewrite nth_error_app2 in Hj by auto.
        assert (Hx : In (t, vis) (samples_of r (concat evs))) by (eapply nth_error_In; eauto).
        destruct (samples_of_in _ _ _ Hx) as (e & He & Hre). apply in_concat_nth in He as (k & He).
        destruct (Hevs k e He) as [(q & G & Hrq) _]. assert (Hr : r = q_req q) by congruence. clear Hre Hrq He Hx. subst r.
        destruct (Hstep k q G) as (W0q & Hsubq & _ & Xs & _). cbn zeta in Xs. rewrite (Hsam k q G) in Hj.
        destruct (proj2 (rm_ids R) _ _ _ _ _ _ _ _ _ Hsub Hsubq) as (-> & -> & _ & _).
        destruct Xs as [Xs|Xs]; rewrite Xs in Hj.
        * destruct (j - length (samples_of (q_req q) l))%nat; discriminate.
        * destruct (j - length (samples_of (q_req q) l))%nat as [|d] eqn:Ed; [|destruct d; discriminate].
          cbn in Hj. injection Hj as <- <-.
          replace j with (nsamples (q_req q) l) by (unfold nsamples; lia). auto.
    - apply log_ids_ext; auto; [apply (rm_ids R)|].
      intros e He. apply in_concat_nth in He as (k & He). destruct (Hevs k e He) as [(q & G & ->) _]. apply (rm_live R k q G).
    - 
      intros r rs Hd. apply in_app_or in Hd as [Hd|Hd].
      + destruct (rm_done R r rs Hd) as [D1 D2]. split; [apply finished_at_ext; auto|]. intro Hl. apply D2. auto.
      + apply in_concat_nth in Hd as (k & Hd). destruct (Hevs k _ Hd) as [(q & G & Hrq) _]. cbn in Hrq. subst r.
        destruct (Hstep k q G) as (W0 & Hsub & _ & _ & Xd). destruct (Xd _ _ Hd) as (Xn & -> & Xs & Xr & Xe). split.
        * intros W0' keep' np' stops' Hsub'. apply in_app_or in Hsub' as [Hsub'|Hsub']; [|destruct (Hns _ Hsub')].
          destruct (proj2 (rm_ids R) _ _ _ _ _ _ _ _ _ Hsub' Hsub) as (-> & -> & -> & ->). cbn zeta.
          rewrite Xs. split; [clear; lia|]. split; [exact Xr|]. rewrite Nat.sub_1_r. exact Xe.
        * intros (k2 & q2 & G2 & Hr2). destruct (Hback k2 q2 G2) as (q20 & G20).
          destruct (Hstep k2 q20 G20) as (W2 & _ & X2 & _). rewrite G2 in X2. destruct X2 as (X2 & _).
          assert (k2 = k) by (eapply (rm_req R); eauto; congruence). subst k2. congruence.
    - 
      intros r W0 keep np stops Hsub. apply in_app_or in Hsub as [Hsub|Hsub]; [|destruct (Hns _ Hsub)].
      destruct (rm_all R _ _ _ _ _ Hsub) as [(k & q & G & Hr)|(rs & Hd)]; [|right; exists rs; apply in_or_app; auto].
      destruct (Hstep k q G) as (W0q & _ & X & _). destruct (get_seq qs' k) as [q1|] eqn:G1.
      + left. exists k, q1. split; [auto|]. destruct X as (X & _). congruence.
      + right. exists DoneStop. apply in_or_app. right. apply in_concat_nth. exists k. rewrite <- Hr. exact X.
  Qed.

  Lemma process_batch_rinv st : inv cfg st -> rinv st -> rinv (fst (process_batch F cfg st)).
  Proof.
    intros Hi R. destruct (build_all_ref st Hi R) as (p & E & Hmp & Rp & Hnl).
    destruct (process_batch_cases F cfg st p E) as [r _|next Eb|next sl qs ev _ _ EP]; cbn [fst]; [exact R| |].
    - pose proof (rm_nout Rp) as Hn. rewrite Eb in Hn, Rp. cbn in Hn. rewrite Hn in Rp. exact Rp.
    - eapply post_rmid; eauto.
  Qed.

  (** a Submit under a fresh request id keeps the log invariants *)
  Lemma log_ok_submit l n W0 keep np stops :
    log_ok l -> (forall e, In e l -> (req_of e < n)%nat) -> log_ok (l ++ [EvSubmit n W0 keep np stops]).
  Proof.
    intros Hok Hlt r W0' kp np0 sp0 Hsub j t vis Hj. rewrite samples_of_app, app_nil_r in Hj.
    apply in_app_or in Hsub as [Hsub|[Hsub|[]]]; [eapply Hok; eauto|].
    injection Hsub as <- <- <- <- <-. rewrite samples_of_other in Hj; [destruct j; discriminate|].
    intros e He. specialize (Hlt e He). lia.
  Qed.

  Lemma log_ids_submit l n W0 keep np stops : log_ids l n -> log_ids (l ++ [EvSubmit n W0 keep np stops]) (S n).
  Proof.
    intros [Hlt Huniq]. split.
    - intros e He. apply in_app_or in He as [He|[<-|[]]]; [specialize (Hlt e He); lia|cbn; lia].
    - intros r W0' kp np0 sp0 W0'' kp' np0' sp0' A B.
      apply in_app_or in A as [A|[A|[]]]; apply in_app_or in B as [B|[B|[]]].
      + eapply Huniq; eauto.
      + injection B as <- <- <- <- <-. specialize (Hlt _ A). cbn in Hlt. lia.
      + injection A as <- <- <- <- <-. specialize (Hlt _ B). cbn in Hlt. lia.
      + injection A as <- <- <- <- <-. injection B as <- <- <- <-. auto.
  Qed.

  Lemma submit_rinv st prompt np keep stops :
    1 <= numCtx cfg -> inv cfg st -> rinv st -> rinv (fst (submit cfg st prompt np keep stops)).
  Proof.
    intros Hc [Hm Hin] R. destruct (submit_cases cfg st prompt np keep stops) as [r _|inputs keep' idx sl kv' si rest EN EF EL]; [exact R|].
    destruct (new_sequence_ok _ _ _ _ _ Hc EN) as (N1 & N2 & N3). destruct (first_free_0 _ _ EF) as [Hidx Hfree].
    destruct (load_cache_slot_ok _ _ _ _ _ _ _ _ _ Hwin N1 (inv_slots_ok _ _ _ _ _ Hm) EL) as (L1 & L2 & L3 & L4 & L5 & L6 & L7 & L8 & L9).
    pose proof (idle_slot_unowned _ _ _ _ _ _ Hm L3) as Hold.
    unfold rinv. cbn [fst slots seqs log nreq].
    set (qn := mkSeq rest [] si np 0 keep' [] stops 0 (nreq st)). set (ext := [EvSubmit (nreq st) inputs keep' np stops]).
    destruct (rm_ids R) as [Hlt Huniq].
    assert (Hext : forall r, samples_of r ext = []) by reflexivity.
    assert (Hfresh : samples_of (nreq st) (log st) = []) by (apply samples_of_other; intros e He; specialize (Hlt e He); lia).
    assert (Hback : forall k q, get_seq (set_nth (seqs st) idx (Some qn)) k = Some q ->
                      (k = idx /\ q = qn) \/ (k <> idx /\ get_seq (seqs st) k = Some q)).
    { intros k q E. apply get_seq_set_inv in E as [[-> E]|E]; [injection E as <-; auto|auto|exact Hidx]. }
    constructor.
    - reflexivity.
    - intros k q E. destruct (Hback k q E) as [[-> ->]|[Hk E']].
      + split; [|split; [intro Hnil; cbn in Hnil; contradiction|cbn; lia]].
        exists inputs. unfold at_ref, cnt_ref, pos_ref. cbn [qn q_req q_keep q_npredict q_stops q_slot q_pending q_inputs q_npredicted q_pend].
        replace (nsamples (nreq st) (log st ++ ext)) with 0%nat by (unfold nsamples; rewrite samples_of_app, Hfresh; reflexivity).
        split; [apply in_or_app; right; left; reflexivity|]. split; [exact N3|]. split; [left; exact L6|].
        split; [reflexivity|]. split; [reflexivity|]. split; intros j Hj; inversion Hj.
      + destruct (rm_live R k q E') as ((W0 & Hw) & Ho & Hr). rewrite L5 by (eapply Hold; eauto).
        split; [exists W0; apply at_ref_ext; auto|]. split; [exact Ho|lia].
    - intros i1 i2 q1 q2 E1 E2 Hs. destruct (Hback _ _ E1) as [[-> ->]|[H1 E1']], (Hback _ _ E2) as [[-> ->]|[H2 E2']]; auto.
      + destruct (rm_live R _ _ E2') as (_ & _ & Hr). cbn in Hs. lia.
      + destruct (rm_live R _ _ E1') as (_ & _ & Hr). cbn in Hs. lia.
      + eapply (rm_req R); eauto.
    - apply log_ok_submit; [apply (rm_log R)|exact Hlt].
    - apply log_ids_submit. apply (rm_ids R).
    - intros r rs Hd. apply in_app_or in Hd as [Hd|[Hd|[]]]; [|discriminate].
      destruct (rm_done R r rs Hd) as [D1 D2]. pose proof (Hlt _ Hd) as Hrlt'. cbn in Hrlt'. split.
      + intros W0 kp np0 sp0 Hsub. apply in_app_or in Hsub as [Hsub|[Hsub|[]]].
        * cbn zeta. rewrite (nsamples_ext _ _ _ (Hext r)). apply (D1 _ _ _ _ Hsub).
        * injection Hsub as Hr0 _ _ _ _. lia.
      + intros (k & q & G & Hr). destruct (Hback k q G) as [[-> ->]|[Hk G']]; [cbn in Hr; lia|]. apply D2. exists k, q. auto.
    - intros r W0 kp np0 sp0 Hsub. apply in_app_or in Hsub as [Hsub|[Hsub|[]]].
      + destruct (rm_all R _ _ _ _ _ Hsub) as [(k & q & G & Hr)|(rs & Hd)]; [left|right; exists rs; apply in_or_app; auto].
        exists k, q. split; [|auto]. rewrite get_seq_set_other; auto. intros ->. congruence.
      + injection Hsub as Hr0 _ _ _ _. subst r. left. exists idx, qn. split; [apply get_seq_set_same; exact Hidx|reflexivity].
  Qed.

  Lemma init_rinv parallel : rinv (init parallel).
  Proof.
    unfold rinv, init. cbn [slots seqs log nreq]. constructor.
    - reflexivity.
    - intros k q G. rewrite get_seq_repeat_none in G. discriminate.
    - intros i1 i2 q1 q2 G. rewrite get_seq_repeat_none in G. discriminate.
    - intros r W0 keep np sp [].
    - split; [intros e []|intros r W0 keep np sp W0' keep' np' sp' []].
    - intros r rs [].
    - intros r W0 keep np stops [].
  Qed.

  Lemma run_rinv st ops : 1 <= numCtx cfg -> Forall (op_guard cfg) ops -> inv cfg st -> rinv st -> rinv (run F cfg st ops).
  Proof.
    intro Hc. revert st. induction ops as [|o ops IH]; intros st Hg Hi R; cbn [run fold_left]; [auto|].
    inversion Hg; subst. apply IH; [auto|apply step_op_inv; auto|].
    destruct o; cbn [step_op]; [apply submit_rinv; auto|apply process_batch_rinv; auto].
  Qed.

  Lemma reachable_rinv parallel ops : 1 <= numCtx cfg -> Forall (op_guard cfg) ops -> rinv (run F cfg (init parallel) ops).
  Proof. intros Hc Hg. apply run_rinv; auto; [apply init_inv|apply init_rinv]. Qed.

End Ref.

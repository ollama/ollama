(** C07 — when a request ends is a function of the request alone: the number of tokens sampled for a finished
    request and its done reason are the reference's, in every history. *)
From Coq Require Import List ZArith NArith Bool Arith Lia ZifyBool ZifyNat.
From V Require Import Common.Bytes Slots.StopFns Slots.Model Slots.ProofsKv Slots.ProofsWin Slots.WSlots Slots.WBatch Slots.WRef.
Import ListNotations.
Open Scope Z_scope.

Lemma at_limit_zero q : q_npredicted q = 0 -> at_limit q = false.
Proof. intro H. unfold at_limit. rewrite H. lia. Qed.

Section Term.
  Variable F : list (Z * tok) -> tok.
  Variable cfg : config.

  Lemma same_end st1 st2 r1 r2 W0 keep np stops rs1 :
    rinv F cfg st1 -> rinv F cfg st2 ->
    In (EvSubmit r1 W0 keep np stops) (log st1) -> In (EvSubmit r2 W0 keep np stops) (log st2) ->
    In (EvDone r1 rs1) (log st1) ->
    (nsamples r2 (log st2) <= nsamples r1 (log st1))%nat /\
    (forall rs2, In (EvDone r2 rs2) (log st2) -> nsamples r2 (log st2) = nsamples r1 (log st1) /\ rs2 = rs1).
  Proof.
    intros R1 R2 Hs1 Hs2 Hd1.
    destruct (rm_done F cfg R1 r1 rs1 Hd1) as [D1 _]. destruct (D1 _ _ _ _ Hs1) as (N1 & Run1 & E1). cbn zeta in *.
    set (n1 := nsamples r1 (log st1)) in *. set (n2 := nsamples r2 (log st2)) in *.
    assert (Hterm1 : ends_stop F cfg keep W0 stops (n1 - 1) = true \/ ends_length np (n1 - 1) = true).
    { destruct rs1; [left; auto|right; apply E1]. }
    (* whatever the second run has done so far, it has not run past the first run's end *)
    assert (Hrun2 : runs_to F cfg keep W0 np stops n2).
    { destruct (rm_all F cfg R2 _ _ _ _ _ Hs2) as [(k & q & G & Hr)|(rs2 & Hd2)].
      - destruct (rm_live F cfg R2 k q G) as ((W0' & Hsub & _ & _ & _ & _ & Hrun & _) & _). rewrite Hr in *.
        destruct (proj2 (rm_ids F cfg R2) _ _ _ _ _ _ _ _ _ Hsub Hs2) as (E1' & E2' & E3' & E4').
        rewrite E1', E2', E3', E4' in Hrun. exact Hrun.
      - destruct (rm_done F cfg R2 r2 rs2 Hd2) as [D2 _]. apply (D2 _ _ _ _ Hs2). }
    assert (Hle : (n2 <= n1)%nat).
    { destruct (Nat.le_gt_cases n2 n1) as [|Hgt]; [auto|exfalso].
      destruct (Hrun2 (n1 - 1)%nat ltac:(lia)) as [X1 X2]. destruct Hterm1; congruence. }
    split; [exact Hle|]. intros rs2 Hd2.
    destruct (rm_done F cfg R2 r2 rs2 Hd2) as [D2 _]. destruct (D2 _ _ _ _ Hs2) as (N2 & Run2 & E2). cbn zeta in *. fold n2 in N2, Run2, E2.
    assert (Hterm2 : ends_stop F cfg keep W0 stops (n2 - 1) = true \/ ends_length np (n2 - 1) = true).
    { destruct rs2; [left; auto|right; apply E2]. }
    assert (Heq : n2 = n1).
    { destruct (Nat.eq_dec n2 n1) as [|Hne]; [auto|exfalso].
      destruct (Run1 (n2 - 1)%nat ltac:(lia)) as [X1 X2]. destruct Hterm2; congruence. }
    split; [exact Heq|]. rewrite Heq in E2.
    destruct rs1, rs2; auto.
    - destruct E2 as [E2 _]. congruence.
    - destruct E1 as [E1 _]. congruence.
  Qed.
End Term.

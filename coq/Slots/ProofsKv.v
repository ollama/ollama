(** C07 — lemmas about lists, [enumerate] and the cell-level cache operations. *)
From Coq Require Import List ZArith NArith Bool Arith Lia ZifyBool ZifyNat.
From V Require Import Slots.Model.
Import ListNotations.
Open Scope Z_scope.

(** [enumerate p l] = [(p, l0); (p+1, l1); ...]: what a cache holds for a sequence whose recorded inputs are [l] *)
Fixpoint enumerate (p : Z) (l : list tok) : list (Z * tok) :=
  match l with
  | [] => []
  | t :: r => (p, t) :: enumerate (p + 1) r
  end.

Lemma zlen_nil {A} : zlen (@nil A) = 0. Proof. reflexivity. Qed.
Lemma zlen_cons {A} (x : A) l : zlen (x :: l) = 1 + zlen l. Proof. unfold zlen. cbn [length]. lia. Qed.
Lemma zlen_app {A} (a b : list A) : zlen (a ++ b) = zlen a + zlen b.
Proof. unfold zlen. rewrite app_length. lia. Qed.
Lemma zlen_nonneg {A} (l : list A) : 0 <= zlen l. Proof. unfold zlen. lia. Qed.
Lemma zlen_firstn {A} n (l : list A) : zlen (firstn n l) = Z.min (Z.of_nat n) (zlen l).
Proof. unfold zlen. rewrite firstn_length. lia. Qed.
Lemma zlen_skipn {A} n (l : list A) : zlen (skipn n l) = Z.max 0 (zlen l - Z.of_nat n).
Proof. unfold zlen. rewrite skipn_length. lia. Qed.

Lemma firstn_zlen_firstn {A} n (l : list A) : firstn (Z.to_nat (zlen (firstn n l))) l = firstn n l.
Proof.
  unfold zlen. rewrite Nat2Z.id, firstn_length. destruct (Nat.le_ge_cases n (length l)).
  - rewrite Nat.min_l by auto. reflexivity.
  - rewrite Nat.min_r, !firstn_all2 by auto. reflexivity.
Qed.

Lemma enumerate_app p a b : enumerate p (a ++ b) = enumerate p a ++ enumerate (p + zlen a) b.
Proof.
  revert p. induction a as [|x a IH]; intro p; cbn [app enumerate].
  - rewrite zlen_nil. f_equal. lia.
  - rewrite IH, zlen_cons. do 3 f_equal. lia.
Qed.

Lemma enumerate_length p l : length (enumerate p l) = length l.
Proof. revert p. induction l; intro; cbn; auto. Qed.

Lemma enumerate_In p l q t : In (q, t) (enumerate p l) -> p <= q < p + zlen l.
Proof.
  revert p. induction l as [|x l IH]; intro p; cbn [enumerate In]; [tauto|].
  rewrite zlen_cons. intros [E|H]; [inversion E; subst; pose proof (zlen_nonneg l); lia|].
  apply IH in H. lia.
Qed.

Lemma enumerate_ge p l e : In e (enumerate p l) -> p <= fst e < p + zlen l.
Proof. destruct e as [q t]. intro H. apply enumerate_In in H. exact H. Qed.

Lemma enumerate_nil_inv p l : enumerate p l = [] -> l = [].
Proof. destruct l; cbn; [auto|discriminate]. Qed.

Lemma enumerate_snd p l : map snd (enumerate p l) = l.
Proof. revert p. induction l; intro; cbn; f_equal; auto. Qed.

Lemma enumerate_inj p a b : enumerate p a = enumerate p b -> a = b.
Proof. intro H. rewrite <- (enumerate_snd p a), <- (enumerate_snd p b), H. reflexivity. Qed.

Lemma filter_all {A} (f : A -> bool) l : (forall x, In x l -> f x = true) -> filter f l = l.
Proof.
  induction l as [|x l IH]; intro H; cbn; auto.
  rewrite (H x (or_introl eq_refl)). f_equal. apply IH. intros; apply H; right; auto.
Qed.
Lemma filter_none {A} (f : A -> bool) l : (forall x, In x l -> f x = false) -> filter f l = [].
Proof.
  induction l as [|x l IH]; intro H; cbn; auto.
  rewrite (H x (or_introl eq_refl)). apply IH. intros; apply H; right; auto.
Qed.
Lemma filter_filter {A} (f g : A -> bool) l : filter f (filter g l) = filter (fun x => g x && f x) l.
Proof. induction l as [|x l IH]; cbn; auto. destruct (g x); cbn; [destruct (f x)|]; rewrite ?IH; auto. Qed.
Lemma filter_ext_in' {A} (f g : A -> bool) l : (forall x, In x l -> f x = g x) -> filter f l = filter g l.
Proof. apply filter_ext_in. Qed.

Lemma filter_comm {A} (f g : A -> bool) l : filter f (filter g l) = filter g (filter f l).
Proof. rewrite !filter_filter. apply filter_ext. intro. apply andb_comm. Qed.

Lemma filter_len_le {A} (f : A -> bool) l : (length (filter f l) <= length l)%nat.
Proof. induction l as [|x l IH]; cbn; [lia|]. destruct (f x); cbn; lia. Qed.
Lemma skipn_cons_nth {A} i (l : list A) x r : skipn i l = x :: r -> skipn (S i) l = r /\ (i < length l)%nat.
Proof.
  revert l. induction i as [|i IH]; intros l H.
  - cbn in H. subst. cbn. split; [auto|lia].
  - destruct l as [|y l]; [discriminate|]. cbn [skipn] in H. apply IH in H. cbn [skipn length]. split; [apply H|lia].
Qed.
Lemma firstn_S_skipn {A} i (l : list A) x r : skipn i l = x :: r -> firstn (S i) l = firstn i l ++ [x].
Proof.
  revert l. induction i as [|i IH]; intros l H.
  - cbn in H. subst. reflexivity.
  - destruct l as [|y l]; [discriminate|]. cbn [skipn] in H. rewrite !firstn_cons, (IH l H). reflexivity.
Qed.

Lemma in_concat_nth {A} (ls : list (list A)) x : In x (concat ls) <-> exists k, In x (nth k ls []).
Proof.
  rewrite in_concat. split.
  - intros (y & Hy & Hx). destruct (In_nth _ _ [] Hy) as (k & _ & <-). eauto.
  - intros (k & Hx). exists (nth k ls []). split; [|exact Hx].
    destruct (Nat.lt_ge_cases k (length ls)); [apply nth_In; auto|]. rewrite nth_overflow in Hx by auto. destruct Hx.
Qed.

Lemma nth_repeat_any {A} (x d : A) n i : (i < n)%nat -> nth i (repeat x n) d = x.
Proof. revert i. induction n; intros [|i] H; cbn; try lia; auto. apply IHn. lia. Qed.
Lemma mod_inj n a k1 k2 : (k1 < n)%nat -> (k2 < n)%nat -> ((a + k1) mod n = (a + k2) mod n)%nat -> k1 = k2.
Proof.
  intros H1 H2 H.
  pose proof (Nat.div_mod (a + k1) n ltac:(lia)) as E1.
  pose proof (Nat.div_mod (a + k2) n ltac:(lia)) as E2.
  rewrite H in E1.
  assert (Hlt : ((a + k2) mod n < n)%nat) by (apply Nat.mod_upper_bound; lia).
  set (d1 := ((a + k1) / n)%nat) in *. set (d2 := ((a + k2) / n)%nat) in *. set (r := ((a + k2) mod n)%nat) in *.
  assert (d1 = d2) by nia. subst. lia.
Qed.

Lemma NoDup_map_in {A B} (f : A -> B) l :
  (forall x y, In x l -> In y l -> f x = f y -> x = y) -> NoDup l -> NoDup (map f l).
Proof.
  induction l as [|a l IH]; intros Hinj Hnd; cbn; [constructor|].
  inversion Hnd; subst. constructor.
  - intro Hin. apply in_map_iff in Hin as (y & Hy & Hiny).
    assert (y = a) by (apply Hinj; cbn; auto). subst. auto.
  - apply IH; auto. intros x y Hx Hy. apply Hinj; cbn; auto.
Qed.

Lemma Forall2_comp {A B C} (P : A -> B -> Prop) (Q : B -> C -> Prop) (R : A -> C -> Prop) l1 l2 l3 :
  (forall a b c, P a b -> Q b c -> R a c) -> Forall2 P l1 l2 -> Forall2 Q l2 l3 -> Forall2 R l1 l3.
Proof. intros HR H. revert l3. induction H; intros l3 H2; inversion H2; subst; constructor; eauto. Qed.

Lemma Forall2_map_l {A B} (f : A -> B) (Q : A -> B -> Prop) l : Forall (fun a => Q a (f a)) l -> Forall2 Q l (map f l).
Proof. induction 1; cbn; constructor; auto. Qed.


Lemma filter_lt_enumerate p l k :
  0 <= k -> filter (fun e => fst e <? p + k) (enumerate p l) = enumerate p (firstn (Z.to_nat k) l).
Proof.
  revert p k. induction l as [|x l IH]; intros p k Hk; cbn [enumerate filter].
  - rewrite firstn_nil. reflexivity.
  - cbn [fst]. destruct (Z.eq_dec k 0) as [->|Hne].
    + replace (p <? p + 0) with false by lia. cbn [Z.to_nat firstn enumerate].
      apply filter_none. intros [q t] Hin. apply enumerate_In in Hin. cbn [fst]. lia.
    + replace (p <? p + k) with true by lia.
      replace (Z.to_nat k) with (S (Z.to_nat (k - 1))) by lia. cbn [firstn enumerate]. f_equal.
      replace (p + k) with (p + 1 + (k - 1)) by lia. apply IH. lia.
Qed.

Lemma filter_lt_enumerate0 l k :
  0 <= k -> filter (fun e => fst e <? k) (enumerate 0 l) = enumerate 0 (firstn (Z.to_nat k) l).
Proof. intro H. rewrite <- (filter_lt_enumerate 0 l k H). apply filter_ext. intro. f_equal. Qed.

Lemma filter_le_enumerate0 l q :
  -1 <= q -> filter (fun e => fst e <=? q) (enumerate 0 l) = enumerate 0 (firstn (Z.to_nat (q + 1)) l).
Proof.
  intro H. rewrite <- (filter_lt_enumerate0 l (q + 1)) by lia. apply filter_ext. intros [a b]. cbn [fst]. lia.
Qed.

Lemma firstn_all' {A} n (l : list A) : (length l <= n)%nat -> firstn n l = l.
Proof. apply firstn_all2. Qed.

Lemma insert_vis_head x l :
  (forall y, In y l -> fst x < fst y) -> insert_vis x l = x :: l.
Proof.
  destruct l as [|y l]; cbn [insert_vis]; auto. intro H.
  specialize (H y (or_introl eq_refl)). replace (fst x <? fst y) with true by lia. reflexivity.
Qed.
Lemma sort_vis_enumerate p l : sort_vis (enumerate p l) = enumerate p l.
Proof.
  revert p. induction l as [|x l IH]; intro p; cbn [enumerate]; [reflexivity|].
  unfold sort_vis in *. cbn [fold_right]. rewrite IH. apply insert_vis_head.
  intros [q t] Hin. apply enumerate_In in Hin. cbn [fst]. lia.
Qed.

Lemma has_del_seq s s' c : has s (del_seq s' c) = has s c && negb (Nat.eqb s' s).
Proof.
  unfold has, del_seq. cbn [cseqs]. induction (cseqs c) as [|x l IH]; cbn [filter existsb]; [reflexivity|].
  destruct (Nat.eqb s' x) eqn:E1; cbn [negb]; cbn [existsb]; rewrite IH.
  - apply Nat.eqb_eq in E1. subst. destruct (Nat.eqb s x) eqn:E2; cbn [orb]; auto.
    apply Nat.eqb_eq in E2. subst. rewrite Nat.eqb_refl. cbn. rewrite andb_false_r. reflexivity.
  - destruct (Nat.eqb s x) eqn:E2; cbn [orb]; auto.
    apply Nat.eqb_eq in E2. subst. rewrite E1. reflexivity.
Qed.
Lemma has_del_same s c : has s (del_seq s c) = false.
Proof. rewrite has_del_seq, Nat.eqb_refl. apply andb_false_r. Qed.
Lemma has_del_other s s' c : s <> s' -> has s (del_seq s' c) = has s c.
Proof. intro H. rewrite has_del_seq. replace (Nat.eqb s' s) with false; [apply andb_true_r|]. symmetry. apply Nat.eqb_neq. auto. Qed.

Lemma has_app_single s p t c d : has s (mkCell p t (cseqs c ++ [d])) = has s c || Nat.eqb s d.
Proof. unfold has. cbn [cseqs]. rewrite existsb_app. cbn. rewrite orb_false_r. reflexivity. Qed.

Lemma shared_false_has s s' c : shared s c = false -> s' <> s -> has s' c = false.
Proof.
  unfold shared, has. induction (cseqs c) as [|x l IH]; cbn [existsb]; auto.
  intros H Hne. apply orb_false_iff in H as [H1 H2]. rewrite (IH H2 Hne), orb_false_r.
  apply negb_false_iff, Nat.eqb_eq in H1. subst. apply Nat.eqb_neq. auto.
Qed.

Lemma view_nil s : view [] s = []. Proof. reflexivity. Qed.
Lemma view_app kv1 kv2 s : view (kv1 ++ kv2) s = view kv1 s ++ view kv2 s.
Proof. unfold view. rewrite filter_app, map_app. reflexivity. Qed.
Lemma view_cons c kv1 s : view (c :: kv1) s = (if has s c then [(cpos c, ctok c)] else []) ++ view kv1 s.
Proof. unfold view. cbn [filter]. destruct (has s c); reflexivity. Qed.

Lemma view_trunc_same kv0 s b : view (kv_trunc kv0 s b) s = filter (fun e => fst e <? b) (view kv0 s).
Proof.
  induction kv0 as [|c kv0 IH]; [reflexivity|].
  unfold kv_trunc in *. cbn [map]. rewrite !view_cons, filter_app, IH. f_equal.
  destruct (has s c) eqn:Hh; cbn [andb].
  - destruct (b <=? cpos c) eqn:Hb.
    + rewrite has_del_same. cbn [filter fst]. replace (cpos c <? b) with false by lia. reflexivity.
    + rewrite Hh. cbn [filter fst]. replace (cpos c <? b) with true by lia. reflexivity.
  - rewrite Hh. reflexivity.
Qed.
Lemma view_trunc_other kv0 s s' b : s' <> s -> view (kv_trunc kv0 s b) s' = view kv0 s'.
Proof.
  intro Hne. induction kv0 as [|c kv0 IH]; [reflexivity|].
  unfold kv_trunc in *. cbn [map]. rewrite !view_cons, IH. f_equal.
  destruct (has s c && (b <=? cpos c)); [|reflexivity].
  rewrite has_del_other by auto. reflexivity.
Qed.

Lemma view_copy_dst kv0 src dst len :
  src <> dst -> view (kv_copy_prefix kv0 src dst len) dst = filter (fun e => fst e <? len) (view kv0 src).
Proof.
  intro Hne. induction kv0 as [|c kv0 IH]; [reflexivity|].
  unfold kv_copy_prefix in *. cbn [map]. rewrite !view_cons, filter_app, IH. f_equal.
  rewrite has_del_other by auto. change (cpos (del_seq dst c)) with (cpos c). change (ctok (del_seq dst c)) with (ctok c).
  destruct (has src c) eqn:Hs; cbn [andb].
  - destruct (cpos c <? len) eqn:Hl.
    + rewrite (has_app_single dst _ _ (del_seq dst c) dst), Nat.eqb_refl, orb_true_r. cbn [cpos ctok filter fst].
      rewrite Hl. reflexivity.
    + rewrite has_del_same. cbn [filter fst]. rewrite Hl. reflexivity.
  - rewrite has_del_same. reflexivity.
Qed.
Lemma view_copy_other kv0 src dst len s :
  s <> dst -> view (kv_copy_prefix kv0 src dst len) s = view kv0 s.
Proof.
  intro Hne. induction kv0 as [|c kv0 IH]; [reflexivity|].
  unfold kv_copy_prefix in *. cbn [map]. rewrite !view_cons, IH. f_equal.
  destruct (has src (del_seq dst c) && (cpos (del_seq dst c) <? len)).
  - rewrite (has_app_single s _ _ (del_seq dst c) dst), has_del_other by auto.
    replace (Nat.eqb s dst) with false by (symmetry; apply Nat.eqb_neq; auto). rewrite orb_false_r. reflexivity.
  - rewrite has_del_other by auto. reflexivity.
Qed.

Definition range_map (b e : Z) (x : Z * tok) : Z * tok := if e <=? fst x then (fst x + (b - e), snd x) else x.
Lemma view_range_same kv0 s b e :
  view (kv_range kv0 s b e) s =
  map (range_map b e) (filter (fun x => negb ((b <=? fst x) && (fst x <? e))) (view kv0 s)).
Proof.
  induction kv0 as [|c kv0 IH]; [reflexivity|].
  unfold kv_range in *. cbn [map]. rewrite !view_cons, filter_app, map_app, IH. f_equal.
  destruct (has s c) eqn:Hh; [|rewrite Hh; reflexivity].
  destruct ((b <=? cpos c) && (cpos c <? e)) eqn:Hin.
  - rewrite has_del_same. cbn [filter fst]. rewrite Hin. reflexivity.
  - cbn [filter fst]. rewrite Hin. cbn [negb map]. unfold range_map. cbn [fst snd].
    destruct (e <=? cpos c); unfold has in *; cbn [cseqs cpos ctok]; rewrite Hh; reflexivity.
Qed.
Lemma view_range_other kv0 s s' b e :
  s' <> s -> kv_range_blocked kv0 s e = false -> view (kv_range kv0 s b e) s' = view kv0 s'.
Proof.
  intros Hne. induction kv0 as [|c kv0 IH]; [reflexivity|].
  unfold kv_range_blocked. cbn [existsb]. intro Hb. apply orb_false_iff in Hb as [Hb1 Hb2].
  unfold kv_range in *. cbn [map]. rewrite !view_cons, (IH Hb2). f_equal.
  destruct (has s c) eqn:Hh; [|reflexivity].
  destruct ((b <=? cpos c) && (cpos c <? e)).
  - rewrite has_del_other by auto. reflexivity.
  - destruct (e <=? cpos c) eqn:He; [|reflexivity].
    cbn [andb] in Hb1. rewrite (shared_false_has s s' c Hb1 Hne).
    unfold has. cbn [cseqs]. fold (has s' c). rewrite (shared_false_has s s' c Hb1 Hne). reflexivity.
Qed.

Lemma skipn_skipn' {A} x y (l : list A) : skipn x (skipn y l) = skipn (x + y) l.
Proof.
  revert l. induction y as [|y IH]; intro l; [rewrite Nat.add_0_r; reflexivity|].
  rewrite Nat.add_succ_r. destruct l; [rewrite !skipn_nil; reflexivity|]. cbn [skipn]. apply IH.
Qed.

Lemma range_map_enumerate_hi b e p D :
  e <= p -> map (range_map b e) (enumerate p D) = enumerate (p + (b - e)) D.
Proof.
  revert p. induction D as [|x D IH]; intros p Hp; [reflexivity|]. cbn [enumerate map].
  rewrite IH by lia. unfold range_map at 1. cbn [fst snd]. replace (e <=? p) with true by lia.
  do 2 f_equal. lia.
Qed.

Lemma range_enumerate l keep discard :
  0 <= keep -> 0 <= discard -> keep + discard <= zlen l ->
  map (range_map keep (keep + discard))
      (filter (fun x => negb ((keep <=? fst x) && (fst x <? keep + discard))) (enumerate 0 l))
  = enumerate 0 (shifted l keep discard).
Proof.
  intros Hk Hd Hl. unfold shifted.
  rewrite <- (firstn_skipn (Z.to_nat keep) l) at 1.
  rewrite <- (firstn_skipn (Z.to_nat discard) (skipn (Z.to_nat keep) l)) at 1.
  rewrite skipn_skipn'. replace (Z.to_nat discard + Z.to_nat keep)%nat with (Z.to_nat (keep + discard)) by lia.
  set (A := firstn (Z.to_nat keep) l). set (B := firstn (Z.to_nat discard) (skipn (Z.to_nat keep) l)).
  set (D := skipn (Z.to_nat (keep + discard)) l).
  assert (HA : zlen A = keep) by (subst A; rewrite zlen_firstn; lia).
  assert (HB : zlen B = discard) by (subst B; rewrite zlen_firstn, zlen_skipn; lia).
  rewrite !enumerate_app, !filter_app, !map_app, HA, HB. cbn [Z.add].
  rewrite (filter_all _ (enumerate 0 A)), (filter_none _ (enumerate keep B)), (filter_all _ (enumerate (keep + discard) D)).
  - cbn [map app]. f_equal.
    + rewrite <- (map_id (enumerate 0 A)) at 2. apply map_ext_in. intros [q t] Hin. apply enumerate_In in Hin.
      unfold range_map. cbn [fst]. replace (keep + discard <=? q) with false by lia. reflexivity.
    + rewrite range_map_enumerate_hi by lia. f_equal. lia.
  - intros [q t] Hin. apply enumerate_In in Hin. cbn [fst]. lia.
  - intros [q t] Hin. apply enumerate_In in Hin. cbn [fst]. lia.
  - intros [q t] Hin. apply enumerate_In in Hin. cbn [fst]. lia.
Qed.

Definition slot_entries (b : list entry) (s : nat) : list (Z * tok) :=
  map (fun e => (e_pos e, e_tok e)) (filter (fun e => Nat.eqb s (e_seq e)) b).
Lemma view_forward kv0 b s : view (kv_forward kv0 b) s = view kv0 s ++ slot_entries b s.
Proof.
  unfold kv_forward. rewrite view_app. f_equal. unfold view, slot_entries.
  induction b as [|e b IH]; [reflexivity|]. cbn [map filter]. unfold has at 1. cbn [cseqs existsb]. rewrite orb_false_r.
  destruct (Nat.eqb s (e_seq e)); cbn [map cpos ctok]; rewrite IH; reflexivity.
Qed.
Lemma slot_entries_app b1 b2 s : slot_entries (b1 ++ b2) s = slot_entries b1 s ++ slot_entries b2 s.
Proof. unfold slot_entries. rewrite filter_app, map_app. reflexivity. Qed.

Lemma visible_c_none cfg kv0 s p : window cfg = None -> visible_c cfg kv0 s p = visible kv0 s p.
Proof. intro H. unfold visible_c. rewrite H. reflexivity. Qed.

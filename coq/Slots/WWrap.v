(** C07 — a wrapper of caches behind the runner: every wrapped cache keeps the invariant of Slots/WBatch.v after any
    history; the joint decisions (Wrap.with_flags) do not touch what that invariant speaks about. *)
From Coq Require Import List ZArith NArith Bool Arith Lia ZifyBool ZifyNat.
From V Require Import Common.Bytes Slots.StopFns Slots.Model Slots.ProofsKv Slots.ProofsWin Slots.WSlots Slots.WBatch Slots.Wrap.
Import ListNotations.
Open Scope Z_scope.

Lemma win_ok_flags cfg a b : win_ok cfg -> win_ok (with_flags cfg a b).
Proof. intros H w Hw. apply H. exact Hw. Qed.

Lemma guard_in cfg a b k : shift_guard cfg k -> shift_guard (with_flags cfg a b) k.
Proof.
  unfold shift_guard. cbn [with_flags window canPartial]. intros [H|[H|H]]; [left|right; left|right; right]; auto.
  rewrite H. reflexivity.
Qed.
Lemma guard_out_true cfg b k : shift_guard (with_flags cfg true b) k -> shift_guard cfg k.
Proof. unfold shift_guard. cbn [with_flags window canPartial]. rewrite andb_true_r. auto. Qed.

Lemma live_ok_in cfg a b sl kv0 bt q : live_ok cfg sl kv0 bt q -> live_ok (with_flags cfg a b) sl kv0 bt q.
Proof. intros [A1 A2 A3 A4 A5 A6 A7 A8]. constructor; auto. apply guard_in. exact A7. Qed.
Lemma live_ok_out cfg a b sl kv0 bt q :
  live_ok (with_flags cfg a b) sl kv0 bt q -> shift_guard cfg (q_keep q) -> live_ok cfg sl kv0 bt q.
Proof. intros [A1 A2 A3 A4 A5 A6 A7 A8] Hg. constructor; auto. Qed.

Definition guards (cfg : config) (qs : list (option seqst)) : Prop :=
  forall k q, get_seq qs k = Some q -> shift_guard cfg (q_keep q).

Lemma mid_ok_in cfg a b sl kv0 qs bt : mid_ok cfg sl kv0 qs bt -> mid_ok (with_flags cfg a b) sl kv0 qs bt.
Proof. intros [B1 B2 B3 B4 B5]. constructor; auto. intros idx q Hq. apply live_ok_in. eauto. Qed.
Lemma mid_ok_out cfg a b sl kv0 qs bt : mid_ok (with_flags cfg a b) sl kv0 qs bt -> guards cfg qs -> mid_ok cfg sl kv0 qs bt.
Proof. intros [B1 B2 B3 B4 B5] Hg. constructor; auto. intros idx q Hq. eapply live_ok_out; eauto. Qed.
Lemma mid_ok_guards cfg sl kv0 qs bt : mid_ok cfg sl kv0 qs bt -> guards cfg qs.
Proof. intros Hm k q Hq. apply (lo_guard (mo_live Hm k q Hq)). Qed.

Lemma inv_in cfg a b st : inv cfg st -> inv (with_flags cfg a b) st.
Proof. intros [Hm Hin]. split; [apply mid_ok_in; exact Hm|exact Hin]. Qed.
Lemma inv_out_true cfg b st : inv (with_flags cfg true b) st -> inv cfg st.
Proof.
  intros [Hm Hin]. split; [|exact Hin]. eapply mid_ok_out; [exact Hm|].
  intros k q Hq. apply (guard_out_true cfg b). exact (mid_ok_guards _ _ _ _ _ Hm k q Hq).
Qed.

Lemma all_some_inv {A B} (f : A -> option B) l : forall l', all_some (map f l) = Some l' -> Forall2 (fun x y => f x = Some y) l l'.
Proof.
  induction l as [|x l IH]; intros l' H; cbn [map all_some] in H.
  - injection H as <-. constructor.
  - destruct (f x) as [y|] eqn:E; [|discriminate]. destruct (all_some (map f l)) as [r|]; [|discriminate].
    injection H as <-. constructor; auto.
Qed.

Definition comp_ok (c0 c : config * state) : Prop := fst c = fst c0 /\ inv (fst c) (snd c).
Definition winv (cs : wstate) : Prop := Forall (fun c => inv (fst c) (snd c)) cs.
Definition wcfg_ok (cs : wstate) : Prop := Forall (fun c => 1 <= numCtx (fst c) /\ win_ok (fst c)) cs.

Lemma comps_ok cs cs' : Forall2 comp_ok cs cs' -> winv cs' /\ map fst cs' = map fst cs.
Proof.
  induction 1 as [|c0 c l l' [A B] H IH]; [split; [constructor|reflexivity]|].
  destruct IH. split; [constructor; auto|cbn; congruence].
Qed.
Lemma comps_refl cs : winv cs -> Forall2 comp_ok cs cs.
Proof. induction 1; constructor; auto. split; auto. Qed.

Lemma w_submit_ok cs prompt np keep stops :
  wcfg_ok cs -> Forall (fun c => shift_guard (fst c) keep) cs -> winv cs ->
  Forall2 comp_ok cs (fst (w_submit cs prompt np keep stops)).
Proof.
  intros Hc Hg Hi. unfold w_submit. cbn [fst]. rewrite map_map. apply Forall2_map_l. cbn [fst snd].
  unfold wcfg_ok, winv in *. rewrite Forall_forall in *. intros c Hin. destruct (Hc c Hin) as [H1 H2]. split; [reflexivity|].
  eapply inv_out_true. apply submit_inv; [exact H1|apply win_ok_flags; exact H2|apply guard_in; apply Hg; exact Hin|apply inv_in; apply Hi; exact Hin].
Qed.

Lemma build_one_keeps cfg p i p' :
  build_one cfg p i = POk p' ->
  forall k q', get_seq (p_seqs p') k = Some q' -> exists q, get_seq (p_seqs p) k = Some q /\ q_keep q' = q_keep q.
Proof.
  destruct (build_one_cases cfg p i) as [En|q Eq El|q r Eq El Er]; [| |destruct r]; intro H; try discriminate H;
    injection H as <-; cbn [p_seqs]; intros k q' Hq; [eauto| |].
  - apply get_seq_set_inv in Hq as [[_ Hq]|[_ Hq]]; [discriminate|eauto|eapply get_seq_lt; eauto].
  - apply get_seq_set_inv in Hq as [[-> Hq]|[_ Hq]]; [injection Hq as <-; eauto|eauto|eapply get_seq_lt; eauto].
Qed.

Definition item_ok (order : list nat) (x : witem) : Prop :=
  win_ok (it_cfg x) /\
  mid_ok (it_cfg x) (p_slots (it_p x)) (p_kv (it_p x)) (p_seqs (it_p x)) (p_batch (it_p x)) /\
  (forall idx, In idx order -> unprocessed (p_seqs (it_p x)) idx).

Lemma build_item_ok part i order x y :
  ~ In i order -> item_ok (i :: order) x -> build_item part i x = Some y -> item_ok order y /\ it_cfg y = it_cfg x.
Proof.
  intros Hni (Hw & Hm & Hun). unfold build_item.
  destruct (build_one_ok (with_flags (it_cfg x) part true) (it_p x) i (mid_ok_in _ _ _ _ _ _ _ Hm)
                         (Hun i (or_introl eq_refl))) as (p' & E & Hm' & Hsame & Hlen).
  rewrite E. intro H. injection H as <-. unfold item_ok, it_cfg, it_p. cbn [fst snd]. split; [|reflexivity].
  split; [exact Hw|]. split.
  - eapply mid_ok_out; [exact Hm'|]. intros k q' Hq.
    destruct (build_one_keeps _ _ _ _ E k q' Hq) as (q & Eq & ->). apply (mid_ok_guards _ _ _ _ _ Hm k q Eq).
  - intros j Hj q Hq. rewrite Hsame in Hq by (intros ->; auto). apply (Hun j (or_intror Hj) q Hq).
Qed.

Lemma w_build_all_ok order : forall items items',
  NoDup order -> Forall (item_ok order) items -> w_build_all items order = Some items' ->
  Forall2 (fun x y => item_ok [] y /\ it_cfg y = it_cfg x) items items'.
Proof.
  induction order as [|i order IH]; intros items items' Hnd Hok H; cbn [w_build_all] in H.
  - injection H as <-. clear Hnd. induction Hok; constructor; auto.
  - inversion Hnd as [|x l Hni Hnd']; subst.
    set (part := negb _) in H. clearbody part.
    destruct (all_some (map (build_item part i) items)) as [items1|] eqn:E1; [|discriminate]. apply all_some_inv in E1.
    assert (H1 : Forall2 (fun x y => item_ok order y /\ it_cfg y = it_cfg x) items items1).
    { clear - E1 Hok Hni. induction E1 as [|x y l l' Hxy E1 IH1]; [constructor|]. pose proof (Forall_inv Hok) as Hx. pose proof (Forall_inv_tail Hok) as Hl.
      constructor; [exact (build_item_ok part i order x y Hni Hx Hxy)|apply IH1; exact Hl]. }
    assert (Hok1 : Forall (item_ok order) items1) by (clear - H1; induction H1; constructor; tauto).
    eapply Forall2_comp; [|exact H1|exact (IH items1 items' Hnd' Hok1 H)].
    intros x y z [_ A] [B C]. split; [exact B|congruence].
Qed.

Lemma finish_item_inv G next x c :
  item_ok [] x -> finish_item G next x = Some c -> fst c = it_cfg x /\ inv (it_cfg x) (snd c).
Proof.
  intros (Hwin & Hmp & _). unfold finish_item, it_b.
  destruct (p_batch (it_p x)) as [|e0 b0] eqn:Eb in |- *.
  - intro H. injection H as <-. cbn [fst snd]. split; [reflexivity|]. rewrite Eb in Hmp. apply mid_ok_nil_inv. exact Hmp.
  - rewrite <- Eb. destruct (post_all_v G (it_cfg x) (fwd_kv x) (p_batch (it_p x)) (p_slots (it_p x)) (p_seqs (it_p x))) as [[[sl' qs'] ev]|] eqn:EP;
      [|discriminate].
    intro H. injection H as <-. cbn [fst snd]. split; [reflexivity|]. eapply post_inv; eauto.
Qed.

Lemma start_item_ok order c : win_ok (fst c) -> inv (fst c) (snd c) -> item_ok order (start_item c).
Proof. intros Hw Hi. split; [exact Hw|]. split; [apply Hi|]. intros idx _. apply (inv_unprocessed _ _ idx Hi). Qed.

Lemma w_process_batch_ok F cs : wcfg_ok cs -> winv cs -> Forall2 comp_ok cs (fst (w_process_batch F cs)).
Proof.
  intros Hc Hi. pose proof (comps_refl cs Hi) as Hsame.
  unfold w_process_batch. destruct cs as [|[cfg0 st0] cs']; [exact Hsame|].
  destruct (all_nil (seqs st0)); [exact Hsame|].
  set (cs := (cfg0, st0) :: cs') in *. set (order := visit_order (length (seqs st0)) (nextSeq st0)).
  destruct (w_build_all (map start_item cs) order) as [items|] eqn:E; [|exact Hsame].
  destruct items as [|x0 items']; [exact Hsame|].
  destruct (existsb item_full (x0 :: items')); [exact Hsame|].
  match goal with |- context [all_some (map (finish_item ?G ?n) ?l)] => destruct (all_some (map (finish_item G n) l)) as [cs2|] eqn:EF end;
    [|exact Hsame].
  cbn [fst]. apply all_some_inv in EF.
  assert (Hit : Forall (fun c => item_ok order (start_item c)) cs).
  { unfold wcfg_ok, winv in *. rewrite Forall_forall in *. intros c Hin. apply start_item_ok; [apply (Hc c Hin)|apply (Hi c Hin)]. }
  pose proof (Forall2_map_l start_item (fun c0 x => it_cfg x = fst c0) cs ltac:(apply Forall_forall; reflexivity)) as H0.
  pose proof (w_build_all_ok order _ _ (visit_order_nodup _ _) ltac:(apply Forall_map; exact Hit) E) as H1.
  assert (H01 : Forall2 (fun c0 y => it_cfg y = fst c0 /\ item_ok [] y) cs (x0 :: items')).
  { eapply Forall2_comp; [|exact H0|exact H1]. intros c0 x y A [B C]. split; [congruence|exact B]. }
  eapply Forall2_comp; [|exact H01|exact EF].
  intros c0 y c [A B] D. destruct (finish_item_inv _ _ _ _ B D) as [E1 E2]. split; [congruence|rewrite E1; exact E2].
Qed.

Definition wguard (cs : wstate) (o : op) : Prop := Forall (fun c => op_guard (fst c) o) cs.

Lemma Forall_fst_ext (P : config -> Prop) (cs cs' : wstate) :
  map fst cs' = map fst cs -> Forall (fun c => P (fst c)) cs -> Forall (fun c => P (fst c)) cs'.
Proof. intros E H. rewrite <- Forall_map in *. rewrite E. exact H. Qed.

Section Reach.
  Variable F : list (Z * tok) -> tok.

  Lemma w_step_op_ok cs o : wcfg_ok cs -> wguard cs o -> winv cs -> Forall2 comp_ok cs (fst (w_step_op F cs o)).
  Proof. intros Hc Hg Hi. destruct o; cbn [w_step_op]; [apply w_submit_ok; auto|apply w_process_batch_ok; auto]. Qed.

  Lemma w_run_ok ops : forall cs,
    wcfg_ok cs -> Forall (wguard cs) ops -> winv cs -> winv (w_run F cs ops) /\ map fst (w_run F cs ops) = map fst cs.
  Proof.
    induction ops as [|o ops IH]; intros cs Hc Hg Hi; cbn [w_run fold_left]; [auto|].
    inversion Hg as [|o' l Ho Hg']; subst.
    destruct (comps_ok _ _ (w_step_op_ok cs o Hc Ho Hi)) as [Hi1 Hc1].
    destruct (IH (fst (w_step_op F cs o))) as [Hi2 Hc2].
    - exact (Forall_fst_ext (fun cfg => 1 <= numCtx cfg /\ win_ok cfg) _ _ Hc1 Hc).
    - rewrite Forall_forall in *. intros o2 Hin. exact (Forall_fst_ext (fun cfg => op_guard cfg o2) _ _ Hc1 (Hg' o2 Hin)).
    - exact Hi1.
    - split; [exact Hi2|]. unfold w_run in Hc2. congruence.
  Qed.
End Reach.

Lemma w_init_inv cfgs parallel : winv (w_init cfgs parallel).
Proof. unfold winv, w_init. apply Forall_map. cbn [fst snd]. apply Forall_forall. intros cfg _. apply init_inv. Qed.
Lemma w_init_cfgs cfgs parallel : map fst (w_init cfgs parallel) = cfgs.
Proof. unfold w_init. rewrite map_map. cbn [fst]. apply map_id. Qed.

(** C07 — llamarunner's input cache (Slots/Llama.v): with the single-user slot policy (no fork, hence no cell shared
    between two sequences) every history keeps each slot's recorded inputs equal to the cache contents of its
    sequence; with the multi-user policy this is false (Properties_C07.v). *)
From Coq Require Import List ZArith NArith Bool Arith Lia ZifyBool ZifyNat.
From V Require Import Slots.Model Slots.ProofsKv Slots.ProofsWin Slots.WSlots Slots.Llama.
Import ListNotations.
Open Scope Z_scope.

(** [WSlots.slot_ok] without a window: the sequence holds the enumeration of the recorded inputs *)
Definition pslot_ok (kv0 : kvcache) (i : nat) (s : slot) : Prop :=
  view_lt kv0 i (zlen (s_inputs s)) = enumerate 0 (s_inputs s) /\
  (s_inuse s = true -> view kv0 i = enumerate 0 (s_inputs s)).

Definition unshared (kv0 : kvcache) : Prop := forall c, In c kv0 -> (length (cseqs c) <= 1)%nat.

Lemma unshared_has kv0 c s s' : unshared kv0 -> In c kv0 -> has s c = true -> has s' c = true -> s = s'.
Proof.
  intros Hu Hin H1 H2. specialize (Hu c Hin). unfold has in *.
  destruct (cseqs c) as [|x [|y l]]; cbn in *; try discriminate; [|lia].
  rewrite orb_false_r in *. apply Nat.eqb_eq in H1, H2. congruence.
Qed.

Lemma unshared_map kv0 f : unshared kv0 -> (forall c, (length (cseqs (f c)) <= length (cseqs c))%nat) -> unshared (map f kv0).
Proof.
  intros Hu Hf c Hin. apply in_map_iff in Hin as (c0 & <- & Hin0). specialize (Hu c0 Hin0). specialize (Hf c0). lia.
Qed.

Lemma del_seq_length s c : (length (cseqs (del_seq s c)) <= length (cseqs c))%nat.
Proof. unfold del_seq. cbn [cseqs]. apply filter_len_le. Qed.

Lemma unshared_trunc kv0 s b : unshared kv0 -> unshared (kv_trunc kv0 s b).
Proof.
  intro Hu. apply unshared_map; auto. intro c. destruct (has s c && (b <=? cpos c)); [apply del_seq_length|lia].
Qed.
Lemma unshared_rm_range kv0 s b e : unshared kv0 -> unshared (ll_seq_rm_range kv0 s b e).
Proof.
  intro Hu. apply unshared_map; auto. intro c. destruct (has s c && (b <=? cpos c) && (cpos c <? e)); [apply del_seq_length|lia].
Qed.
Lemma unshared_add kv0 s p0 p1 d : unshared kv0 -> unshared (ll_seq_add kv0 s p0 p1 d).
Proof.
  intro Hu. apply unshared_map; auto. intro c. destruct (has s c && (p0 <=? cpos c) && (cpos c <? p1)); cbn [cseqs]; lia.
Qed.
Lemma unshared_forward kv0 i p toks : unshared kv0 -> unshared (kv_forward kv0 (ll_entries i p toks)).
Proof.
  intros Hu c Hin. unfold kv_forward in Hin. apply in_app_or in Hin as [Hin|Hin]; [auto|].
  apply in_map_iff in Hin as (e & <- & _). cbn. lia.
Qed.

Lemma view_rm_range_same kv0 s b e :
  view (ll_seq_rm_range kv0 s b e) s = filter (fun x => negb ((b <=? fst x) && (fst x <? e))) (view kv0 s).
Proof.
  induction kv0 as [|c kv0 IH]; [reflexivity|].
  unfold ll_seq_rm_range in *. cbn [map]. rewrite !view_cons, filter_app, IH. f_equal.
  destruct (has s c) eqn:Hh; cbn [andb]; [|rewrite Hh; reflexivity].
  destruct ((b <=? cpos c) && (cpos c <? e)) eqn:Hin.
  - rewrite has_del_same. cbn [filter fst]. rewrite Hin. reflexivity.
  - rewrite Hh. cbn [filter fst]. rewrite Hin. reflexivity.
Qed.
Lemma view_rm_range_other kv0 s s' b e : s' <> s -> view (ll_seq_rm_range kv0 s b e) s' = view kv0 s'.
Proof.
  intro Hne. induction kv0 as [|c kv0 IH]; [reflexivity|].
  unfold ll_seq_rm_range in *. cbn [map]. rewrite !view_cons, IH. f_equal.
  destruct (has s c && (b <=? cpos c) && (cpos c <? e)); [|reflexivity]. rewrite has_del_other by auto. reflexivity.
Qed.

Lemma view_add_same kv0 s p0 p1 d :
  view (ll_seq_add kv0 s p0 p1 d) s =
  map (fun x => if (p0 <=? fst x) && (fst x <? p1) then (fst x + d, snd x) else x) (view kv0 s).
Proof.
  induction kv0 as [|c kv0 IH]; [reflexivity|].
  unfold ll_seq_add in *. cbn [map]. rewrite !view_cons, map_app, IH. f_equal.
  destruct (has s c) eqn:Hh; cbn [andb].
  - destruct ((p0 <=? cpos c) && (cpos c <? p1)) eqn:Hin; unfold has in *; cbn [cseqs cpos ctok map fst snd]; rewrite Hh, ?Hin; reflexivity.
  - rewrite Hh. reflexivity.
Qed.
Lemma view_add_other kv0 s s' p0 p1 d : unshared kv0 -> s' <> s -> view (ll_seq_add kv0 s p0 p1 d) s' = view kv0 s'.
Proof.
  intros Hu Hne. induction kv0 as [|c kv0 IH]; [reflexivity|].
  assert (Hu' : unshared kv0) by (intros c0 H0; apply Hu; right; auto).
  unfold ll_seq_add in *. cbn [map]. rewrite !view_cons, (IH Hu'). f_equal.
  destruct (has s c && (p0 <=? cpos c) && (cpos c <? p1)) eqn:E; [|reflexivity].
  apply andb_true_iff in E as [E _]. apply andb_true_iff in E as [Hs _].
  destruct (has s' c) eqn:Hs'.
  - exfalso. apply Hne. symmetry. eapply (unshared_has (c :: kv0)); eauto. left. reflexivity.
  - unfold has in *. cbn [cseqs]. rewrite Hs'. reflexivity.
Qed.

Lemma shift_map_eq keep d L v :
  (forall x, In x v -> fst x < L) ->
  map (fun x => if (keep + d <=? fst x) && (fst x <? L) then (fst x + - d, snd x) else x) v = map (range_map keep (keep + d)) v.
Proof.
  intro H. apply map_ext_in. intros x Hx. specialize (H x Hx). unfold range_map.
  destruct (keep + d <=? fst x) eqn:E; cbn [andb].
  - replace (fst x <? L) with true by lia. f_equal. lia.
  - reflexivity.
Qed.

Lemma ll_shift_view kv0 s C keep d :
  0 <= keep -> 0 <= d -> keep + d <= zlen C -> view kv0 s = enumerate 0 C ->
  view (ll_seq_add (ll_seq_rm_range kv0 s keep (keep + d)) s (keep + d) (zlen C) (- d)) s = enumerate 0 (shifted C keep d).
Proof.
  intros Hk Hd Hl Hv. rewrite view_add_same, view_rm_range_same, Hv.
  rewrite shift_map_eq.
  - apply range_enumerate; auto.
  - intros [q t] Hin. apply filter_In in Hin as [Hin _]. apply enumerate_In in Hin. cbn [fst]. lia.
Qed.

Lemma slot_entries_ll i p toks : slot_entries (ll_entries i p toks) i = enumerate p toks.
Proof.
  revert p. induction toks as [|t r IH]; intro p; [reflexivity|].
  unfold slot_entries in *. cbn [ll_entries filter e_seq]. rewrite Nat.eqb_refl. cbn [map e_pos e_tok enumerate]. f_equal. apply IH.
Qed.
Lemma slot_entries_ll_other i j p toks : j <> i -> slot_entries (ll_entries i p toks) j = [].
Proof.
  intro Hne. revert p. induction toks as [|t r IH]; intro p; [reflexivity|].
  unfold slot_entries in *. cbn [ll_entries filter e_seq].
  replace (Nat.eqb j i) with false by (symmetry; apply Nat.eqb_neq; auto). apply IH.
Qed.

Definition linv (st : lstate) : Prop :=
  unshared (l_kv st) /\ forall i, (i < length (l_slots st))%nat -> pslot_ok (l_kv st) i (nth_slot (l_slots st) i).

Lemma pslot_frame kv0 kv1 i s : view kv1 i = view kv0 i -> pslot_ok kv0 i s -> pslot_ok kv1 i s.
Proof. intros Hv [H1 H2]. unfold pslot_ok, view_lt in *. rewrite Hv. auto. Qed.

Lemma exact_pslot kv0 i s : view kv0 i = enumerate 0 (s_inputs s) -> pslot_ok kv0 i s.
Proof.
  intro H. split; [|auto]. unfold view_lt. rewrite H, filter_lt_enumerate0 by apply zlen_nonneg.
  rewrite firstn_all2; [reflexivity|]. unfold zlen. lia.
Qed.

Lemma linv_set st i s' kv' clk :
  linv st -> (i < length (l_slots st))%nat -> unshared kv' -> pslot_ok kv' i s' ->
  (forall j, j <> i -> view kv' j = view (l_kv st) j) ->
  linv (mkL (set_nth (l_slots st) i s') kv' clk).
Proof.
  intros [Hu Hs] Hi Hu' Hs' Hfr. split; [exact Hu'|]. cbn [l_slots l_kv]. intros j Hj. rewrite set_nth_length in Hj.
  destruct (Nat.eq_dec i j) as [<-|Hij]; [rewrite nth_slot_set_same by auto; exact Hs'|].
  rewrite nth_slot_set_other by auto. eapply pslot_frame; [apply Hfr; auto|apply Hs; auto].
Qed.

Lemma lload_inv cfg st prompt cp : multiUser cfg = false -> linv st -> linv (lstep cfg st (LLoad prompt cp)).
Proof.
  intros Hsu Hl. pose proof Hl as [Hu Hs]. cbn [lstep].
  destruct prompt as [|p0 pr] eqn:Ep; [exact Hl|]. rewrite <- Ep. assert (Hne : prompt <> []) by (rewrite Ep; discriminate). clear Ep.
  unfold ll_load_cache_slot. rewrite Hsu.
  destruct (find_longest (l_slots st) prompt) as [[i n]| |] eqn:EF; try exact Hl.
  destruct (find_longest_idle _ _ _ _ EF) as (_ & F2 & F6 & _). destruct (Hs i F2) as [Hlt _].
  set (n0 := if cp then n else 0%nat). set (n1 := if (n0 =? length prompt)%nat then Nat.pred n0 else n0).
  set (n2 := if negb (canPartial cfg) && negb (n1 =? 0)%nat then 0%nat else n1).
  assert (Hn2 : (n2 <= n)%nat).
  { assert (n0 <= n)%nat by (subst n0; destruct cp; lia).
    assert (n1 <= n0)%nat by (subst n1; destruct (n0 =? length prompt)%nat; lia).
    subst n2. destruct (negb (canPartial cfg) && negb (n1 =? 0)%nat); lia. }
  unfold ll_seq_rm_tail. apply linv_set; [exact Hl|exact F2|apply unshared_trunc; exact Hu| |intros j Hj; apply view_trunc_other; exact Hj].
  apply exact_pslot. cbn [s_inputs]. rewrite <- (wenum_le0 0) in Hlt by lia.
  rewrite view_trunc_same, (view_lt_prefix _ _ 0 _ (Z.of_nat n2) Hlt) by (unfold zlen; lia). rewrite Nat2Z.id. apply wenum_le0. lia.
Qed.

Lemma lshift_inv cfg st i keep : linv st -> linv (lstep cfg st (LShift i keep)).
Proof.
  intros Hl. pose proof Hl as [Hu Hs]. cbn [lstep].
  destruct ((i <? length (l_slots st))%nat && s_inuse (nth_slot (l_slots st) i) && (0 <=? keep) && (numCtx cfg <=? zlen (s_inputs (nth_slot (l_slots st) i)))) eqn:E; [|exact Hl].
  apply andb_true_iff in E as [E Hfull]. apply andb_true_iff in E as [E Hk0]. apply andb_true_iff in E as [Hi Hin]. apply Nat.ltb_lt in Hi.
  set (s := nth_slot (l_slots st) i) in *. set (C := s_inputs s) in *.
  destruct (Hs i Hi) as [_ Hex]. specialize (Hex Hin). fold s C in Hex.
  unfold ll_shift_cache_slot. fold C.
  destruct (numCtx cfg <=? keep) eqn:Ek; [exact Hl|].
  destruct (shift_discard_bounds cfg (zlen C) keep ltac:(lia) ltac:(lia)) as [Hd1 Hd2].
  set (d := shift_discard cfg (zlen C) keep) in *. replace (d <=? 0) with false by lia.
  destruct (canShift cfg && canPartial cfg).
  + apply linv_set; [exact Hl|exact Hi|apply unshared_add; apply unshared_rm_range; exact Hu| |].
    * apply exact_pslot. cbn [s_inputs]. apply ll_shift_view; auto; lia.
    * intros j Hj. rewrite view_add_other by (auto; apply unshared_rm_range; auto). apply view_rm_range_other. auto.
  + unfold ll_seq_rm_tail. apply linv_set; [exact Hl|exact Hi|apply unshared_trunc; exact Hu| |intros j Hj; apply view_trunc_other; exact Hj].
    apply exact_pslot. cbn [s_inputs enumerate]. rewrite view_trunc_same.
    apply filter_none. intros [q t] Hq. rewrite Hex in Hq. apply enumerate_In in Hq. cbn [fst]. lia.
Qed.

Lemma lstep_inv cfg st o :
  multiUser cfg = false -> linv st -> linv (lstep cfg st o).
Proof.
  intros Hsu Hl. pose proof Hl as [Hu Hs]. destruct o as [prompt cp|i toks|i keep|i n|i]; [apply lload_inv; auto| |apply lshift_inv; auto| |]; cbn [lstep].
  - destruct ((i <? length (l_slots st))%nat && s_inuse (nth_slot (l_slots st) i) && (zlen (s_inputs (nth_slot (l_slots st) i)) + zlen toks <=? numCtx cfg)) eqn:E; [|exact Hl].
    apply andb_true_iff in E as [E _]. apply andb_true_iff in E as [Hi Hin]. apply Nat.ltb_lt in Hi.
    apply linv_set; [exact Hl|exact Hi|apply unshared_forward; exact Hu| |].
    + apply exact_pslot. cbn [s_inputs]. destruct (Hs i Hi) as [_ Hex]. rewrite view_forward, (Hex Hin), slot_entries_ll, enumerate_app. reflexivity.
    + intros j Hj. rewrite view_forward, slot_entries_ll_other by auto. apply app_nil_r.
  - (* the record is cut to a prefix of itself, the cache keeps more *)
    destruct ((i <? length (l_slots st))%nat && s_inuse (nth_slot (l_slots st) i)) eqn:E; [|exact Hl].
    apply andb_true_iff in E as [Hi Hin]. apply Nat.ltb_lt in Hi.
    apply linv_set; [exact Hl|exact Hi|exact Hu| |reflexivity].
    destruct (Hs i Hi) as [_ Hex]. split; [|cbn; discriminate]. cbn [s_inputs]. unfold view_lt.
    rewrite (Hex Hin), filter_lt_enumerate0 by apply zlen_nonneg. rewrite firstn_zlen_firstn. reflexivity.
  - destruct ((i <? length (l_slots st))%nat && s_inuse (nth_slot (l_slots st) i)) eqn:E; [|exact Hl].
    apply andb_true_iff in E as [Hi Hin]. apply Nat.ltb_lt in Hi.
    apply linv_set; [exact Hl|exact Hi|exact Hu| |reflexivity]. destruct (Hs i Hi) as [Hlt _]. split; [exact Hlt|cbn; discriminate].
Qed.

Lemma linit_inv parallel : linv (linit parallel).
Proof.
  split; [intros c []|]. intros i Hi. unfold linit in *. cbn [l_slots l_kv] in *. rewrite repeat_length in Hi.
  unfold nth_slot. rewrite nth_repeat. split; [reflexivity|cbn; discriminate].
Qed.

Lemma lrun_inv cfg st ops : multiUser cfg = false -> linv st -> linv (lrun cfg st ops).
Proof.
  intros Hsu. revert st. induction ops as [|o ops IH]; intros st H; cbn [lrun fold_left]; [auto|].
  apply IH. apply lstep_inv; auto.
Qed.

(** The lockset discipline implies happens-before ordering, for every interleaving: traces of threads that lock,
    unlock, access, fork and signal under Go's mutex semantics and Go's happens-before; a static access table (one
    entry per source site) with an executable check; [lockset_sound_except].  [Fork c give] hands the mutexes [give]
    to the new goroutine: the `load -> go func(){ defer refMu.Unlock() }` hand-off of server/sched.go. *)
From Coq Require Import List NArith Bool Lia PeanoNat.
Import ListNotations.

Definition tid := N.
Definition lock := (N * N)%type.   (* (object, mutex field) *)
Definition loc := (N * N)%type.    (* (object, field) *)
Inductive kind := Rd | Wr.
Inductive op :=
| Acq (l : lock)
| Rel (l : lock)
| Acc (k : kind) (x : loc) (site : nat)
| Fork (c : tid) (give : list lock)
| Post (c : lock)    (* a one-way signal on (object, token): close of a channel field, start of a child goroutine *)
| Wait (c : lock).   (* observing that signal: a receive that returns because the channel is closed, the child's first step *)
Definition event := (tid * op)%type.
Definition trace := list event.

Definition kind_eqb (a b : kind) : bool :=
  match a, b with Rd, Rd => true | Wr, Wr => true | _, _ => false end.
Lemma kind_eqb_eq a b : kind_eqb a b = true <-> a = b.
Proof. destruct a, b; cbn; split; intros H; try reflexivity; discriminate. Qed.

Definition lock_eqb (a b : lock) : bool := N.eqb (fst a) (fst b) && N.eqb (snd a) (snd b).
Lemma lock_eqb_eq a b : lock_eqb a b = true <-> a = b.
Proof.
  destruct a as [a1 a2], b as [b1 b2]; unfold lock_eqb; cbn [fst snd].
  rewrite andb_true_iff, !N.eqb_eq. split.
  - intros [H1 H2]; subst; reflexivity.
  - intros H; inversion H; subst; split; reflexivity.
Qed.
Lemma lock_eqb_refl a : lock_eqb a a = true.
Proof. apply lock_eqb_eq; reflexivity. Qed.
Lemma lock_eqb_neq a b : a <> b -> lock_eqb a b = false.
Proof. intros H. destruct (lock_eqb a b) eqn:E; [apply lock_eqb_eq in E; contradiction | reflexivity]. Qed.
Lemma lock_eq_dec (a b : lock) : {a = b} + {a <> b}.
Proof. unfold lock. decide equality; apply N.eq_dec. Qed.

Definition lstate := lock -> option tid.
Definition init_state : lstate := fun _ => None.
Definition upd (s : lstate) (l : lock) (v : option tid) : lstate :=
  fun l' => if lock_eqb l l' then v else s l'.
Definition owns (s : lstate) (t : tid) (l : lock) : bool :=
  match s l with Some t' => N.eqb t t' | None => false end.
Definition give_all (s : lstate) (c : tid) (give : list lock) : lstate :=
  fun l' => if existsb (fun l => lock_eqb l l') give then Some c else s l'.

Definition step (s : lstate) (e : event) : option lstate :=
  match snd e with
  | Acq l => match s l with None => Some (upd s l (Some (fst e))) | Some _ => None end
  | Rel l => if owns s (fst e) l then Some (upd s l None) else None
  | Acc _ _ _ => Some s
  | Fork c give => if forallb (owns s (fst e)) give then Some (give_all s c give) else None
  | Post _ | Wait _ => Some s
  end.

Fixpoint run (s : lstate) (tr : trace) : option lstate :=
  match tr with
  | [] => Some s
  | e :: tr' => match step s e with Some s' => run s' tr' | None => None end
  end.

Definition fork_fresh (tr : trace) : Prop :=
  forall i t c g, nth_error tr i = Some (t, Fork c g) ->
    c <> t /\ forall j e, j <= i -> nth_error tr j = Some e -> fst e <> c.

Definition wait_after_post (tr : trace) : Prop :=
  forall q t c, nth_error tr q = Some (t, Wait c) -> exists p t', p < q /\ nth_error tr p = Some (t', Post c).

Definition wf_trace (tr : trace) : Prop := (exists s, run init_state tr = Some s) /\ fork_fresh tr /\ wait_after_post tr.

Definition state_at (tr : trace) (k : nat) : option lstate := run init_state (firstn k tr).

(** thread [t] holds [l] just before event number [k] is executed *)
Definition holds_at (tr : trace) (k : nat) (l : lock) (t : tid) : Prop :=
  exists s, state_at tr k = Some s /\ s l = Some t.

Inductive hb (tr : trace) : nat -> nat -> Prop :=
| hb_po i j t o1 o2 : i < j -> nth_error tr i = Some (t, o1) -> nth_error tr j = Some (t, o2) -> hb tr i j
| hb_sw i j t1 t2 l : i < j -> nth_error tr i = Some (t1, Rel l) -> nth_error tr j = Some (t2, Acq l) -> hb tr i j
| hb_fork i j t c g o : i < j -> nth_error tr i = Some (t, Fork c g) -> nth_error tr j = Some (c, o) -> hb tr i j
| hb_post i j t1 t2 c : i < j -> nth_error tr i = Some (t1, Post c) -> nth_error tr j = Some (t2, Wait c) -> hb tr i j
| hb_trans i j k : hb tr i j -> hb tr j k -> hb tr i k.

Lemma hb_lt tr i j : hb tr i j -> i < j.
Proof. induction 1; lia. Qed.

(** [P] restricts the claim to some pairs of sites (those outside the waivers) *)
Definition race_free_on (tr : trace) (P : nat -> nat -> Prop) : Prop :=
  forall i j t1 t2 k1 k2 x s1 s2,
    i < j ->
    nth_error tr i = Some (t1, Acc k1 x s1) ->
    nth_error tr j = Some (t2, Acc k2 x s2) ->
    t1 <> t2 -> (k1 = Wr \/ k2 = Wr) -> P s1 s2 ->
    hb tr i j.
Definition race_free (tr : trace) : Prop := race_free_on tr (fun _ _ => True).

Lemma run_app s a b : run s (a ++ b) = match run s a with Some s' => run s' b | None => None end.
Proof.
  revert s; induction a as [|e a IH]; intros s; cbn; [reflexivity|].
  destruct (step s e); [apply IH | reflexivity].
Qed.

Lemma firstn_S_nth {A} (l : list A) k e : nth_error l k = Some e -> firstn (S k) l = firstn k l ++ [e].
Proof.
  revert k; induction l as [|a l IH]; intros [|k] H; cbn in *; try discriminate.
  - inversion H; reflexivity.
  - f_equal. apply IH; assumption.
Qed.

Lemma state_at_S tr k e s :
  nth_error tr k = Some e -> state_at tr k = Some s -> state_at tr (S k) = step s e.
Proof.
  intros Hn Hs. unfold state_at in *. rewrite (firstn_S_nth _ _ _ Hn), run_app, Hs. cbn.
  destruct (step s e); reflexivity.
Qed.

Lemma run_state_at tr s0 : run init_state tr = Some s0 -> forall k, exists s, state_at tr k = Some s.
Proof.
  intros H k. unfold state_at. rewrite <- (firstn_skipn k tr), run_app in H.
  destruct (run init_state (firstn k tr)) as [s|]; [exists s; reflexivity | discriminate].
Qed.

Lemma give_all_in s c give l : In l give -> give_all s c give l = Some c.
Proof.
  intros H. unfold give_all.
  assert (E : existsb (fun l0 => lock_eqb l0 l) give = true)
    by (apply existsb_exists; exists l; split; [assumption | apply lock_eqb_refl]).
  rewrite E; reflexivity.
Qed.
Lemma give_all_notin s c give l : ~ In l give -> give_all s c give l = s l.
Proof.
  intros H. unfold give_all.
  destruct (existsb (fun l0 => lock_eqb l0 l) give) eqn:E; [|reflexivity].
  apply existsb_exists in E. destruct E as [l0 [Hin He]]. apply lock_eqb_eq in He; subst. contradiction.
Qed.

Lemma upd_same s l v : upd s l v l = v.
Proof. unfold upd. rewrite lock_eqb_refl. reflexivity. Qed.
Lemma upd_other s l v l' : l <> l' -> upd s l v l' = s l'.
Proof. intros H. unfold upd. rewrite (lock_eqb_neq _ _ H). reflexivity. Qed.

Lemma owns_true s t l : owns s t l = true <-> s l = Some t.
Proof.
  unfold owns. destruct (s l) as [t'|]; [|split; discriminate].
  rewrite N.eqb_eq. split; [intros -> | intros [= ->]]; reflexivity.
Qed.

Lemma step_lock s t o s' l : step s (t, o) = Some s' ->
  s' l = s l \/
  (o = Acq l /\ s l = None /\ s' l = Some t) \/
  (o = Rel l /\ s l = Some t /\ s' l = None) \/
  (exists c g, o = Fork c g /\ s l = Some t /\ s' l = Some c).
Proof.
  unfold step; cbn [fst snd]. destruct o as [l1 | l1 | | c g | |]; try (intros [= <-]; left; reflexivity).
  - destruct (s l1) eqn:Hl1; intros [= <-]. destruct (lock_eq_dec l1 l) as [<- | Hn].
    + right; left. rewrite upd_same. auto.
    + left. apply upd_other, Hn.
  - destruct (owns s t l1) eqn:Ho; intros [= <-]. apply owns_true in Ho. destruct (lock_eq_dec l1 l) as [<- | Hn].
    + right; right; left. rewrite upd_same. auto.
    + left. apply upd_other, Hn.
  - destruct (forallb (owns s t) g) eqn:Ho; intros [= <-]. destruct (in_dec lock_eq_dec l g) as [Hin | Hn].
    + right; right; right. exists c, g. rewrite forallb_forall in Ho. rewrite give_all_in by assumption.
      split; [reflexivity | split; [apply owns_true, Ho, Hin | reflexivity]].
    + left. apply give_all_notin. assumption.
Qed.

(** invariant scanned forward from an event [i] whose thread holds [l]: whoever holds [l] at time [k] is
    "after i" for everything it does from [k] on; if [l] is free, some unlock of [l] after [i] is hb-after [i] *)
Definition ord_inv (tr : trace) (i : nat) (l : lock) (k : nat) : Prop :=
  exists s, state_at tr k = Some s /\
    (forall c, s l = Some c -> forall j o, k <= j -> nth_error tr j = Some (c, o) -> hb tr i j) /\
    (s l = None -> exists r t, i < r /\ r < k /\ nth_error tr r = Some (t, Rel l) /\ hb tr i r).

Lemma ord_inv_step tr s0 i l k :
  run init_state tr = Some s0 -> i < k -> k < length tr ->
  ord_inv tr i l k -> ord_inv tr i l (S k).
Proof.
  intros Hrun Hik Hk (s & Hs & Hheld & Hfree).
  destruct (nth_error tr k) as [[t o]|] eqn:Hn; [| apply nth_error_None in Hn; lia].
  destruct (run_state_at tr s0 Hrun (S k)) as [s' Hs'].
  pose proof (state_at_S tr k (t, o) s Hn Hs) as Hst. rewrite Hs' in Hst. symmetry in Hst.
  exists s'; split; [assumption|].
  destruct (step_lock _ _ _ _ l Hst) as [E | [(-> & Hl & ->) | [(-> & Hl & ->) | (c & g & -> & Hl & ->)]]].
  - rewrite E. split.
    + intros c Hc j o' Hj Hnj. eapply Hheld; eauto. lia.
    + intros Hc. destruct (Hfree Hc) as (r & t0 & ? & ? & ? & ?). exists r, t0. auto.
  - (* taken from free: the unlock that freed it is after [i], and synchronises with this lock *)
    destruct (Hfree Hl) as (r & t0 & Hir & Hrk & Hnr & Hhb).
    assert (Hik' : hb tr i k) by (eapply hb_trans; [exact Hhb | eapply hb_sw; eauto]).
    split; [|discriminate].
    intros c [= <-] j o' Hj Hnj. eapply hb_trans; [exact Hik' | eapply hb_po; [| exact Hn | exact Hnj]; lia].
  - (* released by its holder, which is after [i] *)
    assert (Hik' : hb tr i k) by (eapply Hheld; [exact Hl | | exact Hn]; lia).
    split; [discriminate|]. intros _. exists k, t. auto.
  - (* handed over by its holder, which is after [i], to a goroutine that starts here *)
    assert (Hik' : hb tr i k) by (eapply Hheld; [exact Hl | | exact Hn]; lia).
    split; [|discriminate].
    intros c0 [= <-] j o' Hj Hnj. eapply hb_trans; [exact Hik' | eapply hb_fork; [| exact Hn | exact Hnj]; lia].
Qed.

Lemma common_lock_ordered tr s0 i j t1 t2 k1 x1 s1 o2 l :
  run init_state tr = Some s0 -> i < j ->
  nth_error tr i = Some (t1, Acc k1 x1 s1) ->
  nth_error tr j = Some (t2, o2) ->
  holds_at tr i l t1 -> holds_at tr j l t2 ->
  hb tr i j.
Proof.
  intros Hrun Hij Hi Hj (si & Hsi & Hli) (sj & Hsj & Hlj).
  assert (Hjlen : j < length tr) by (apply nth_error_Some; rewrite Hj; discriminate).
  assert (Hbase : ord_inv tr i l (S i)).
  { exists si. split.
    - rewrite (state_at_S tr i _ si Hi Hsi). reflexivity.
    - split.
      + intros c Hc j0 o Hj0 Hn0. rewrite Hli in Hc. inversion Hc; subst c.
        eapply hb_po; [| exact Hi | exact Hn0]. lia.
      + intros Hc. rewrite Hli in Hc. discriminate. }
  assert (Hall : forall k, S i <= k -> k <= j -> ord_inv tr i l k).
  { induction 1 as [|k Hle IH]; intros Hkj; [exact Hbase|].
    eapply ord_inv_step; [exact Hrun | lia | lia | apply IH; lia]. }
  destruct (Hall j Hij (le_n j)) as (s & Hs & Hheld & _).
  rewrite Hsj in Hs. inversion Hs; subst s.
  eapply Hheld; [exact Hlj | | exact Hj]. lia.
Qed.

(** a statically named mutex: [Self m] = mutex field [m] of the very object whose field is accessed;
    [Glob m] = mutex [m] of the one process-wide owner object (the Scheduler) *)
Inductive slock := Self (m : N) | Glob (m : N).
Definition slock_eqb (a b : slock) : bool :=
  match a, b with
  | Self x, Self y => N.eqb x y
  | Glob x, Glob y => N.eqb x y
  | _, _ => false
  end.
Lemma slock_eqb_eq a b : slock_eqb a b = true <-> a = b.
Proof.
  destruct a, b; cbn; try (split; intros; discriminate); rewrite N.eqb_eq; split; intros H; try (subst; reflexivity); inversion H; reflexivity.
Qed.
Definition slock_eq_dec (a b : slock) : {a = b} + {a <> b}.
Proof. decide equality; apply N.eq_dec. Defined.
Definition glob_obj : N := 0%N.
Definition inst (o : N) (s : slock) : lock := match s with Self m => (o, m) | Glob m => (glob_obj, m) end.

Record entry := mkE {
  e_fld : N;            (* static location: type.field / package variable *)
  e_kind : kind;
  e_clss : list N;      (* goroutine classes that may execute this site *)
  e_locks : list slock; (* must-hold lockset *)
  e_init : bool;        (* executed on a freshly allocated, not yet published object *)
  e_fn : N;             (* enclosing function (for reporting and waivers) *)
  e_before : list N;    (* signals of the accessed object that only this thread gives, and only later *)
  e_after : list N      (* signals of the accessed object this thread has already observed *)
}.
Record table := mkT { entries : list entry; singles : list N (* classes with at most one thread *) }.

Definition memN (x : N) (l : list N) : bool := existsb (N.eqb x) l.
Lemma memN_In x l : memN x l = true <-> In x l.
Proof.
  unfold memN. rewrite existsb_exists. split.
  - intros [y [Hy He]]. apply N.eqb_eq in He; subst; assumption.
  - intros H; exists x; split; [assumption | apply N.eqb_refl].
Qed.

Definition share (a b : entry) : bool :=
  existsb (fun s => existsb (slock_eqb s) (e_locks b)) (e_locks a).
Definition may_conc (S : list N) (a b : entry) : bool :=
  existsb (fun ca => existsb (fun cb => negb (N.eqb ca cb) || negb (memN ca S)) (e_clss b)) (e_clss a).
Definition both_rd (a b : entry) : bool := kind_eqb (e_kind a) Rd && kind_eqb (e_kind b) Rd.
(** one access is made before its thread gives a signal that the other thread has observed *)
Definition sig_ordered (a b : entry) : bool :=
  existsb (fun k => memN k (e_after b)) (e_before a) || existsb (fun k => memN k (e_after a)) (e_before b).

(** the pair needs no further argument: different locations, two reads, init phase (safe publication),
    never in two threads, a common mutex, or a signal given after the one access and observed before the other *)
Definition pair_ok (S : list N) (a b : entry) : bool :=
  negb (N.eqb (e_fld a) (e_fld b)) || both_rd a b || e_init a || e_init b || negb (may_conc S a b) || share a b
  || sig_ordered a b.

Definition lockset_ok_except (W : entry -> bool) (T : table) : bool :=
  forallb (fun a => forallb (fun b => pair_ok (singles T) a b || W a || W b) (entries T)) (entries T).
Definition no_waiver : entry -> bool := fun _ => false.
Definition lockset_ok (T : table) : bool := lockset_ok_except no_waiver T.

Lemma share_spec a b : share a b = true <-> exists s, In s (e_locks a) /\ In s (e_locks b).
Proof.
  unfold share. rewrite existsb_exists. split; intros (s & Ha & Hb).
  - apply existsb_exists in Hb. destruct Hb as (s' & Hb & E). apply slock_eqb_eq in E; subst s'. eauto.
  - exists s. split; [assumption|]. apply existsb_exists. exists s. split; [assumption | apply slock_eqb_eq; reflexivity].
Qed.

Lemma may_conc_spec sg a b : may_conc sg a b = true <->
  exists ca cb, In ca (e_clss a) /\ In cb (e_clss b) /\ (ca <> cb \/ ~ In ca sg).
Proof.
  assert (E : forall ca cb, negb (N.eqb ca cb) || negb (memN ca sg) = true <-> ca <> cb \/ ~ In ca sg).
  { intros ca cb. rewrite orb_true_iff, !negb_true_iff, N.eqb_neq, <- not_true_iff_false, memN_In. reflexivity. }
  unfold may_conc. rewrite existsb_exists. split.
  - intros (ca & Ha & H). apply existsb_exists in H. destruct H as (cb & Hb & H). apply E in H. eauto.
  - intros (ca & cb & Ha & Hb & H). exists ca. split; [assumption|]. apply existsb_exists. exists cb. split; [assumption | apply E, H].
Qed.

Lemma may_conc_sym sg a b : may_conc sg a b = true -> may_conc sg b a = true.
Proof.
  rewrite !may_conc_spec. intros (ca & cb & Ha & Hb & H).
  destruct (N.eq_dec ca cb) as [<- | E]; [exists ca, ca | exists cb, ca]; auto.
Qed.

Lemma may_conc_false sg a b ca cb :
  may_conc sg a b = false -> In ca (e_clss a) -> In cb (e_clss b) -> ca = cb /\ In ca sg.
Proof.
  intros H Ha Hb. rewrite <- not_true_iff_false, may_conc_spec in H.
  destruct (N.eq_dec ca cb) as [E|E]; [|exfalso; apply H; eauto 6].
  split; [exact E|]. destruct (in_dec N.eq_dec ca sg) as [I|I]; [exact I | exfalso; apply H; eauto 6].
Qed.

Lemma pair_ok_false sg a b : pair_ok sg a b = false ->
  e_fld a = e_fld b /\ both_rd a b = false /\ e_init a = false /\ e_init b = false /\
  may_conc sg a b = true /\ share a b = false /\ sig_ordered a b = false.
Proof.
  unfold pair_ok. rewrite !orb_false_iff, !negb_false_iff, N.eqb_eq. tauto.
Qed.

Lemma lockset_ok_except_spec W T :
  lockset_ok_except W T = true <->
  forall a b, In a (entries T) -> In b (entries T) -> pair_ok (singles T) a b || W a || W b = true.
Proof.
  unfold lockset_ok_except. rewrite forallb_forall. split.
  - intros H a b Ha Hb. specialize (H a Ha). rewrite forallb_forall in H. exact (H b Hb).
  - intros H a Ha. apply forallb_forall. intros b Hb. exact (H a b Ha Hb).
Qed.

(** The check by location, the form the table theorems evaluate: a site that is initialising or waived passes
    against every other, and so do two sites of different locations.  [L] is bound by [let]: otherwise the kernel
    recomputes it for every location. *)
Definition live (W : entry -> bool) (T : table) : list entry :=
  filter (fun e => negb (e_init e || W e)) (entries T).
Definition by_loc_ok (W : entry -> bool) (T : table) : bool :=
  let L := live W T in
  forallb (fun f => let Lf := filter (fun e => N.eqb (e_fld e) f) L in
                    forallb (fun a => forallb (pair_ok (singles T) a) Lf) Lf)
          (nodup N.eq_dec (map e_fld L)).

Lemma by_loc_ok_sound W T : by_loc_ok W T = true -> lockset_ok_except W T = true.
Proof.
  intros H. apply lockset_ok_except_spec. intros a b Ha Hb.
  destruct (pair_ok (singles T) a b || W a || W b) eqn:E; [reflexivity | exfalso].
  rewrite !orb_false_iff in E. destruct E as [[E Wa] Wb].
  destruct (pair_ok_false _ _ _ E) as (Ef & _ & Ia & Ib & _).
  assert (La : In a (live W T)) by (apply filter_In; rewrite Ia, Wa; auto).
  assert (Lb : In b (live W T)) by (apply filter_In; rewrite Ib, Wb; auto).
  unfold by_loc_ok in H. cbv zeta in H. rewrite forallb_forall in H.
  specialize (H (e_fld a)). rewrite nodup_In in H. specialize (H (in_map _ _ _ La)).
  rewrite forallb_forall in H. specialize (H a). rewrite filter_In, N.eqb_refl in H. specialize (H (conj La eq_refl)).
  rewrite forallb_forall in H. specialize (H b). rewrite filter_In, Ef, N.eqb_refl in H.
  rewrite (H (conj Lb eq_refl)) in E. discriminate.
Qed.

(** what the check prints for a regenerated table *)
Fixpoint enum {A} (i : nat) (l : list A) : list (nat * A) :=
  match l with [] => [] | a :: t => (i, a) :: enum (S i) t end.
Definition bad_pairs (W : entry -> bool) (T : table) : list (nat * nat) :=
  flat_map (fun ia => flat_map (fun jb =>
      if (Nat.leb (fst ia) (fst jb)) && negb (pair_ok (singles T) (snd ia) (snd jb) || W (snd ia) || W (snd jb))
      then [(fst ia, fst jb)] else [])
    (enum 0 (entries T))) (enum 0 (entries T)).

Lemma enum_spec {A} (l : list A) : forall i k a, nth_error l k = Some a -> In (i + k, a) (enum i l).
Proof.
  induction l as [|x l IH]; intros i [|k] a H; cbn in *; try discriminate.
  - inversion H; subst. left. f_equal. lia.
  - right. replace (i + S k) with (S i + k) by lia. apply IH; assumption.
Qed.

Lemma pair_ok_sym_true sg a b : pair_ok sg a b = true -> pair_ok sg b a = true.
Proof.
  intros H. destruct (pair_ok sg b a) eqn:E; [reflexivity | exfalso].
  apply pair_ok_false in E. destruct E as (Ef & Er & Ib & Ia & Ec & Es & Eg).
  unfold pair_ok in H.
  rewrite Ef, N.eqb_refl, Ia, Ib, (andb_comm _ _ : both_rd a b = both_rd b a), Er, (may_conc_sym _ _ _ Ec),
    (orb_comm _ _ : sig_ordered a b = sig_ordered b a), Eg, orb_false_r in H.
  apply share_spec in H. destruct H as (s & Hb & Ha).
  rewrite <- not_true_iff_false, share_spec in Es. eauto.
Qed.

Lemma pair_ok_sym sg a b : pair_ok sg a b = pair_ok sg b a.
Proof. apply eq_true_iff_eq. split; apply pair_ok_sym_true. Qed.

(** the report is complete; the check's proof about a regenerated table goes through this *)
Lemma bad_pairs_nil W T : bad_pairs W T = [] -> lockset_ok_except W T = true.
Proof.
  intros H.
  assert (G : forall k1 e1 k2 e2, nth_error (entries T) k1 = Some e1 -> nth_error (entries T) k2 = Some e2 -> k1 <= k2 ->
              pair_ok (singles T) e1 e2 || W e1 || W e2 = true).
  { intros k1 e1 k2 e2 H1 H2 Hle.
    destruct (pair_ok (singles T) e1 e2 || W e1 || W e2) eqn:E; [reflexivity | exfalso].
    assert (X : In (k1, k2) (bad_pairs W T)); [|rewrite H in X; destruct X].
    apply in_flat_map. exists (k1, e1). split; [exact (enum_spec _ 0 _ _ H1)|].
    apply in_flat_map. exists (k2, e2). split; [exact (enum_spec _ 0 _ _ H2)|].
    cbn [fst snd]. rewrite E, (proj2 (Nat.leb_le _ _) Hle). left; reflexivity. }
  apply lockset_ok_except_spec. intros a b Ha Hb.
  apply In_nth_error in Ha, Hb. destruct Ha as [ka Hka], Hb as [kb Hkb].
  destruct (Nat.le_ge_cases ka kb) as [Hle | Hle]; [exact (G _ _ _ _ Hka Hkb Hle)|].
  rewrite pair_ok_sym, <- orb_assoc, (orb_comm (W a)), orb_assoc. exact (G _ _ _ _ Hkb Hka Hle).
Qed.

Definition waive (l : list (N * N)) : entry -> bool :=
  fun e => existsb (fun p => N.eqb (fst p) (e_fn e) && N.eqb (snd p) (e_fld e)) l.

Section Conf.
Variable T : table.
Variable cls_of : tid -> N.

(** every executed access comes from a site of the table, is executed by a goroutine of one of the site's
    classes, and the thread really holds the site's must-hold lockset (this is what the translator claims).  The
    last clause ranges over all thread ids, not only those that occur in [tr]. *)
Definition conforms (tr : trace) : Prop :=
  (forall j t k x site, nth_error tr j = Some (t, Acc k x site) ->
     exists e, nth_error (entries T) site = Some e /\ e_fld e = snd x /\ e_kind e = k /\
               In (cls_of t) (e_clss e) /\
               (forall s, In s (e_locks e) -> holds_at tr j (inst (fst x) s) t) /\
               (forall k, In k (e_before e) -> forall p t', nth_error tr p = Some (t', Post (fst x, k)) -> t' = t /\ j < p) /\
               (forall k, In k (e_after e) -> exists q, q < j /\ nth_error tr q = Some (t, Wait (fst x, k))))
  /\ (forall t t', In (cls_of t) (singles T) -> cls_of t = cls_of t' -> t = t').

(** safe publication: what a thread does to an object in its init phase happens-before every access of any
    other thread to the same location (other threads can only reach the object through a synchronised
    publication).  Hypothesis of the theorem, not derived.  No [i < j]: a foreign access cannot come before an
    init access either. *)
Definition safe_init (tr : trace) : Prop :=
  forall i j t1 t2 k1 k2 x s1 s2 e,
    nth_error tr i = Some (t1, Acc k1 x s1) ->
    nth_error tr j = Some (t2, Acc k2 x s2) ->
    t1 <> t2 -> nth_error (entries T) s1 = Some e -> e_init e = true -> hb tr i j.

Theorem lockset_sound_except (W : entry -> bool) (tr : trace) :
  wf_trace tr -> conforms tr -> safe_init tr ->
  lockset_ok_except W T = true ->
  race_free_on tr (fun s1 s2 => forall e1 e2, nth_error (entries T) s1 = Some e1 -> nth_error (entries T) s2 = Some e2 ->
                                    W e1 = false /\ W e2 = false).
Proof.
  intros [[s0 Hrun] [_ Hwp]] [Hconf Hsingle] Hsafe Hok i j t1 t2 k1 k2 x s1 s2 Hij Hi Hj Hne Hw HW.
  destruct (Hconf _ _ _ _ _ Hi) as (e1 & He1 & Hf1 & Hk1 & Hc1 & Hl1 & Hb1 & Ha1).
  destruct (Hconf _ _ _ _ _ Hj) as (e2 & He2 & Hf2 & Hk2 & Hc2 & Hl2 & Hb2 & Ha2).
  destruct (HW e1 e2 He1 He2) as [HW1 HW2].
  rewrite lockset_ok_except_spec in Hok.
  specialize (Hok e1 e2 (nth_error_In _ _ He1) (nth_error_In _ _ He2)). rewrite HW1, HW2, !orb_false_r in Hok.
  unfold pair_ok in Hok. rewrite !orb_true_iff in Hok.
  destruct Hok as [[[[[[Hfld | Hrd] | Hin1] | Hin2] | Hnc] | Hsh] | Hsig].
  - exfalso. rewrite Hf1, Hf2, N.eqb_refl in Hfld. discriminate.
  - exfalso. unfold both_rd in Hrd. apply andb_true_iff in Hrd. destruct Hrd as [Ha Hb].
    apply kind_eqb_eq in Ha. apply kind_eqb_eq in Hb. rewrite Hk1 in Ha. rewrite Hk2 in Hb.
    destruct Hw as [Hw | Hw]; rewrite Hw in *; discriminate.
  - eapply Hsafe; eauto.
  - (* [safe_init] puts the init access [j] first *)
    exfalso. assert (Hji : hb tr j i) by (eapply (Hsafe j i); eauto).
    apply hb_lt in Hji. lia.
  - exfalso. apply negb_true_iff in Hnc.
    destruct (may_conc_false _ _ _ _ _ Hnc Hc1 Hc2) as [Heq Hs]. apply Hne. apply Hsingle; assumption.
  - apply share_spec in Hsh. destruct Hsh as (s & Hs1 & Hs2).
    eapply common_lock_ordered; [exact Hrun | exact Hij | exact Hi | exact Hj | apply Hl1; exact Hs1 | apply Hl2; exact Hs2].
  - unfold sig_ordered in Hsig. apply orb_true_iff in Hsig. destruct Hsig as [Hsig | Hsig].
    + (* e1 before k, e2 after k: access i, then the signal, then its observation, then access j *)
      apply existsb_exists in Hsig. destruct Hsig as (k & Hkb & Hka). apply memN_In in Hka.
      destruct (Ha2 k Hka) as (q & Hqj & Hq).
      destruct (Hwp q t2 _ Hq) as (p & t' & Hpq & Hp).
      destruct (Hb1 k Hkb p t' Hp) as [Ht Hip]. subst t'.
      eapply hb_trans; [eapply hb_po; [exact Hip | exact Hi | exact Hp]|].
      eapply hb_trans; [eapply hb_post; [exact Hpq | exact Hp | exact Hq]|].
      eapply hb_po; [exact Hqj | exact Hq | exact Hj].
    + exfalso. apply existsb_exists in Hsig. destruct Hsig as (k & Hkb & Hka). apply memN_In in Hka.
      destruct (Ha1 k Hka) as (q & Hqi & Hq).
      destruct (Hwp q t1 _ Hq) as (p & t' & Hpq & Hp).
      destruct (Hb2 k Hkb p t' Hp) as [Ht Hjp]. lia.
Qed.

Theorem lockset_sound (tr : trace) :
  wf_trace tr -> conforms tr -> safe_init tr -> lockset_ok T = true -> race_free tr.
Proof.
  intros Hwf Hc Hs Hok i j t1 t2 k1 k2 x s1 s2 Hij Hi Hj Hne Hw _.
  apply (lockset_sound_except no_waiver tr Hwf Hc Hs Hok i j t1 t2 k1 k2 x s1 s2 Hij Hi Hj Hne Hw).
  intros e1 e2 _ _. split; reflexivity.
Qed.

End Conf.

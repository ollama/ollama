(** Accesses ordered by a reference-count protocol instead of a mutex.

    `scheduleRunner` (server/routes.go) reads `runner.llama` without `refMu`; `runnerRef.unload` writes it.  What
    orders the two is the reference the request holds: the scheduler grants a reference (refCount++ under refMu) and
    hands the runner over on `successCh`; the request's reference is released by the finished event the scheduler
    consumes (refCount-- under refMu) after the request's context ended; the runner is torn down only at refCount 0.

    In the trace model: a reference to a runner has two signals, [gsig] (posted by the scheduler when it hands the
    runner out, observed by the request before it touches the runner) and [rsig] (posted on the request's side after
    its last use, observed by the scheduler when it consumes the finished event).  The hypothesis [guarded] is the
    reference-count invariant (C01_no_close_in_use / C01_no_grant_closed, coq/Sched): a teardown write happens
    either before the reference is granted or after its release has been consumed. *)
From Coq Require Import List NArith Lia.
From V Require Import Race.Lockset.
Import ListNotations.

Section Ref.
Variable tr : trace.
Variables (gsig rsig : lock).   (* the grant / release signals of one reference *)

Definition inside (i : nat) (h : tid) : Prop :=
  (exists g, g < i /\ nth_error tr g = Some (h, Wait gsig)) /\
  (exists p t, nth_error tr p = Some (t, Post rsig)) /\
  (forall p t, nth_error tr p = Some (t, Post rsig) -> i = p \/ hb tr i p).

Definition guarded (j : nat) (w : tid) : Prop :=
  (forall p t, nth_error tr p = Some (t, Post gsig) -> hb tr j p) \/
  (exists q, nth_error tr q = Some (w, Wait rsig) /\ q < j).

Theorem refcount_ordered i j h w oi oj :
  wait_after_post tr -> nth_error tr i = Some (h, oi) -> nth_error tr j = Some (w, oj) ->
  inside i h -> guarded j w -> hb tr i j \/ hb tr j i.
Proof.
  intros Hwp Hi Hj ((g & Hgi & Hg) & _ & Hrel) [Hbefore | (q & Hq & Hqj)].
  - right. destruct (Hwp g h gsig Hg) as (p & t' & Hpg & Hp).
    eapply hb_trans; [exact (Hbefore p t' Hp)|].
    eapply hb_trans; [eapply hb_post; [exact Hpg | exact Hp | exact Hg]|].
    eapply hb_po; [exact Hgi | exact Hg | exact Hi].
  - left. destruct (Hwp q w rsig Hq) as (p & t' & Hpq & Hp).
    assert (Hip : i = p \/ hb tr i p) by (eapply Hrel; exact Hp).
    assert (Hpj : hb tr p j).
    { eapply hb_trans; [eapply hb_post; [exact Hpq | exact Hp | exact Hq]|].
      eapply hb_po; [exact Hqj | exact Hq | exact Hj]. }
    destruct Hip as [E | Hip]; [subst p; exact Hpj | eapply hb_trans; [exact Hip | exact Hpj]].
Qed.
End Ref.

(** a concrete history: scheduler (thread 1) grants, request (2) reads llama, its finisher (3) releases, the
    scheduler consumes the release and tears the runner down *)
Definition ex_g : lock := (7%N, 100%N).
Definition ex_r : lock := (7%N, 101%N).
Definition ex_tr : trace :=
  [(1%N, Post ex_g); (2%N, Wait ex_g); (2%N, Acc Rd (7%N, 21%N) 0); (2%N, Fork 3%N []); (3%N, Post ex_r);
   (1%N, Wait ex_r); (1%N, Acc Wr (7%N, 21%N) 1)].

Lemma ex_wf : wf_trace ex_tr.
Proof.
  split; [|split].
  - eexists. vm_compute. reflexivity.
  - intros i t c g H. destruct i as [|[|[|[|[|[|[|i]]]]]]]; cbn in H; try discriminate; try (destruct i; discriminate).
    inversion H; subst. split; [discriminate|]. intros j e Hj He.
    destruct j as [|[|[|[|j]]]]; cbn in He; try (inversion He; subst; cbn; discriminate). lia.
  - intros q t c H. destruct q as [|[|[|[|[|[|[|q]]]]]]]; cbn in H; try discriminate; try (destruct q; discriminate).
    + inversion H; subst. exists 0, 1%N. split; [lia | reflexivity].
    + inversion H; subst. exists 4, 3%N. split; [lia | reflexivity].
Qed.

Example ex_ordered : hb ex_tr 2 6.
Proof.
  assert (Hin : inside ex_tr ex_g ex_r 2 2%N).
  { split; [exists 1; split; [lia | reflexivity]|]. split; [exists 4, 3%N; reflexivity|].
    intros p t Hp. destruct p as [|[|[|[|[|[|[|p]]]]]]]; cbn in Hp; try discriminate; try (destruct p; discriminate).
    right. eapply hb_trans; [eapply (hb_po _ 2 3); [lia | reflexivity | reflexivity]|].
    eapply (hb_fork _ 3 4); [lia | reflexivity | reflexivity]. }
  assert (Hg : guarded ex_tr ex_g ex_r 6 1%N) by (right; exists 5; split; [reflexivity | lia]).
  destruct (refcount_ordered ex_tr ex_g ex_r 2 6 2%N 1%N _ _ (proj2 (proj2 ex_wf)) eq_refl eq_refl Hin Hg) as [H | H]; [exact H|].
  apply hb_lt in H. lia.
Qed.

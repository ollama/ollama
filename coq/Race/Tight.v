(** Converse of soundness for pairs that do not rely on an observed signal: if the check rejects two sites whose
    [e_after] lists are empty, some well-formed conforming trace (with safe publication) has a data race.  This makes
    [C15_sched_race_free_refuted] a refutation of race freedom for the table, not only of the check. *)
From Coq Require Import List NArith Bool Lia PeanoNat FinFun.
From V Require Import Race.Lockset.
Import ListNotations.

Lemma forallb_false_exists {A} (f : A -> bool) l : forallb f l = false -> exists x, In x l /\ f x = false.
Proof.
  induction l as [|a l IH]; cbn; [discriminate|]. intros H. apply andb_false_iff in H. destruct H as [H | H].
  - exists a. split; [left; reflexivity | exact H].
  - destruct (IH H) as (x & Hx & Hf). exists x. split; [right; exact Hx | exact Hf].
Qed.

Lemma hb_adjacent tr i k : hb tr i k -> k = S i ->
  (exists t o1 o2, nth_error tr i = Some (t, o1) /\ nth_error tr k = Some (t, o2)) \/
  (exists t l, nth_error tr i = Some (t, Rel l)) \/
  (exists t c g, nth_error tr i = Some (t, Fork c g)) \/
  (exists t c, nth_error tr i = Some (t, Post c)).
Proof.
  induction 1 as [i j t o1 o2 Hlt H1 H2 | i j t1 t2 l Hlt H1 H2 | i j t c g o Hlt H1 H2 | i j t1 t2 c Hlt H1 H2 | i j k Hij IH1 Hjk IH2]; intros Hk.
  - left. exists t, o1, o2. split; assumption.
  - right; left. exists t1, l. assumption.
  - right; right; left. exists t, c, g. assumption.
  - right; right; right. exists t1, c. assumption.
  - exfalso. apply hb_lt in Hij. apply hb_lt in Hjk. lia.
Qed.

Definition acqs (t : tid) (L : list lock) : trace := map (fun l => (t, Acq l)) L.

Lemma run_acqs t L : forall s, NoDup L -> (forall l, In l L -> s l = None) ->
  exists s', run s (acqs t L) = Some s' /\ (forall l, In l L -> s' l = Some t) /\ (forall l, ~ In l L -> s' l = s l).
Proof.
  induction L as [|l0 L IH]; intros s Hnd Hfree.
  - exists s. cbn. repeat split; auto. intros l [].
  - inversion Hnd as [|? ? Hnin Hnd']; subst.
    cbn. unfold step; cbn [fst snd]. rewrite (Hfree l0 (or_introl eq_refl)).
    destruct (IH (upd s l0 (Some t)) Hnd') as (s' & Hr & Hin & Hout).
    { intros l Hl. rewrite upd_other; [apply Hfree; right; assumption|]. intros <-; contradiction. }
    exists s'. split; [exact Hr|]. split.
    + intros l [<- | Hl]; [rewrite (Hout _ Hnin); apply upd_same | apply Hin; assumption].
    + intros l Hl. rewrite Hout by (intros X; apply Hl; right; assumption).
      apply upd_other. intros <-; apply Hl; left; reflexivity.
Qed.

Definition w_locks (e : entry) : list lock := map (inst 1%N) (nodup slock_eq_dec (e_locks e)).

Lemma inst_inj o s s' : o <> glob_obj -> inst o s = inst o s' -> s = s'.
Proof. intros Ho. destruct s, s'; cbn; intros H; inversion H; congruence. Qed.

Lemma w_locks_In e l : In l (w_locks e) <-> exists s, l = inst 1%N s /\ In s (e_locks e).
Proof.
  unfold w_locks. rewrite in_map_iff. split; intros (s & E & H); exists s; [apply nodup_In in H | rewrite nodup_In]; auto.
Qed.

Lemma w_locks_nodup e : NoDup (w_locks e).
Proof. apply FinFun.Injective_map_NoDup; [intros s s'; apply inst_inj; discriminate | apply NoDup_nodup]. Qed.

Lemma w_locks_disjoint a b l : share a b = false -> In l (w_locks a) -> In l (w_locks b) -> False.
Proof.
  rewrite <- not_true_iff_false, share_spec, !w_locks_In. intros Hsh (s & -> & H1) (s' & E & H2).
  apply inst_inj in E; [|discriminate]. subst s'. eauto.
Qed.

Definition fresh_cls (cs : list N) : N := N.succ (fold_right N.max 0%N cs).
Lemma fresh_cls_notin cs : ~ In (fresh_cls cs) cs.
Proof.
  assert (H : forall x, In x cs -> (x <= fold_right N.max 0 cs)%N).
  { induction cs as [|a cs IH]; intros x Hx; [destruct Hx|]. destruct Hx as [E | Hx]; cbn; [subst; lia | specialize (IH x Hx); lia]. }
  intros Hin. specialize (H _ Hin). unfold fresh_cls in H. lia.
Qed.

(** The witness for a rejected pair of sites [a], [b]: thread 1 takes [a]'s lockset, thread 2 takes [b]'s (the two
    are disjoint), then the two access the same location back to back. *)
Section Witness.
Variable T : table.
Variables (a b : entry) (sa sb : nat).
Hypothesis Ha : nth_error (entries T) sa = Some a.
Hypothesis Hb : nth_error (entries T) sb = Some b.
Hypothesis Hbad : pair_ok (singles T) a b = false.
Hypothesis Haa : e_after a = [].
Hypothesis Hab : e_after b = [].

Let x : loc := (1%N, e_fld a).
Let pre := acqs 1%N (w_locks a) ++ acqs 2%N (w_locks b).
Let n := length pre.
Definition w_tr : trace := pre ++ [(1%N, Acc (e_kind a) x sa); (2%N, Acc (e_kind b) x sb)].

Lemma tr_nth j e : nth_error w_tr j = Some e ->
  (exists t l, e = (t, Acq l)) \/
  (j = n /\ e = (1%N, Acc (e_kind a) x sa)) \/ (j = S n /\ e = (2%N, Acc (e_kind b) x sb)).
Proof.
  intros H. unfold w_tr in H. destruct (Nat.lt_ge_cases j n) as [Hlt | Hge].
  - left. rewrite nth_error_app1 in H by exact Hlt. apply nth_error_In, in_app_iff in H.
    destruct H as [H | H]; apply in_map_iff in H; destruct H as (l & <- & _); eauto.
  - right. rewrite nth_error_app2 in H by exact Hge. fold n in H.
    destruct (j - n) as [|[|[|d]]] eqn:E; cbn in H; try discriminate; injection H as <-; [left | right]; split; (lia || reflexivity).
Qed.

Lemma tr_shape j t o : nth_error w_tr j = Some (t, o) -> (exists l, o = Acq l) \/ (exists k y site, o = Acc k y site).
Proof.
  intros H. destruct (tr_nth _ _ H) as [(t0 & l & [= -> ->]) | [(_ & [= -> ->]) | (_ & [= -> ->])]]; eauto.
Qed.

Lemma tr_n : nth_error w_tr n = Some (1%N, Acc (e_kind a) x sa).
Proof. unfold w_tr. rewrite nth_error_app2 by (unfold n; lia). fold n. rewrite Nat.sub_diag. reflexivity. Qed.
Lemma tr_Sn : nth_error w_tr (S n) = Some (2%N, Acc (e_kind b) x sb).
Proof. unfold w_tr. rewrite nth_error_app2 by (unfold n; lia). fold n. replace (S n - n) with 1 by lia. reflexivity. Qed.

Lemma tr_state : exists s, state_at w_tr n = Some s /\ state_at w_tr (S n) = Some s /\ run init_state w_tr = Some s /\
  (forall l, In l (w_locks a) -> s l = Some 1%N) /\ (forall l, In l (w_locks b) -> s l = Some 2%N).
Proof.
  destruct (pair_ok_false _ _ _ Hbad) as (_ & _ & _ & _ & _ & Hsh & _).
  destruct (run_acqs 1%N (w_locks a) init_state (w_locks_nodup a) (fun _ _ => eq_refl)) as (s1 & Hr1 & Hin1 & Hout1).
  destruct (run_acqs 2%N (w_locks b) s1 (w_locks_nodup b)) as (s & Hr2 & Hin2 & Hout2).
  { intros l Hl. rewrite Hout1; [reflexivity|]. intros X. exact (w_locks_disjoint a b l Hsh X Hl). }
  assert (Hr : run init_state pre = Some s) by (unfold pre; rewrite run_app, Hr1; exact Hr2).
  assert (Hn : state_at w_tr n = Some s).
  { unfold state_at, w_tr, n. rewrite firstn_app, firstn_all, Nat.sub_diag, firstn_O, app_nil_r. exact Hr. }
  exists s. split; [exact Hn|]. split; [rewrite (state_at_S w_tr n _ s tr_n Hn); reflexivity|].
  split; [unfold w_tr; rewrite run_app, Hr; reflexivity|]. split; [|exact Hin2].
  intros l Hl. rewrite Hout2; [apply Hin1; assumption|]. intros X. exact (w_locks_disjoint a b l Hsh Hl X).
Qed.

Lemma tr_wf : wf_trace w_tr.
Proof.
  destruct tr_state as (s & _ & _ & Hr & _). split; [exists s; exact Hr|]. split.
  - intros i t c g H. destruct (tr_shape _ _ _ H) as [(l & [=]) | (k & y & site & [=])].
  - intros q t c H. destruct (tr_shape _ _ _ H) as [(l & [=]) | (k & y & site & [=])].
Qed.

Lemma tr_safe_init : safe_init T w_tr.
Proof.
  destruct (pair_ok_false _ _ _ Hbad) as (_ & _ & Hia & Hib & _).
  intros i j t1 t2 k1 k2 y s1 s2 e Hi Hj Hne He Hinit. exfalso.
  destruct (tr_nth _ _ Hi) as [(? & ? & [=]) | [(_ & [= _ _ _ ->]) | (_ & [= _ _ _ ->])]]; congruence.
Qed.

Lemma tr_racy : ~ race_free w_tr.
Proof.
  destruct (pair_ok_false _ _ _ Hbad) as (_ & Hrd & _).
  intros Hrf.
  assert (Hw : e_kind a = Wr \/ e_kind b = Wr).
  { unfold both_rd in Hrd. destruct (e_kind a); [|left; reflexivity]. destruct (e_kind b); [cbn in Hrd; discriminate | right; reflexivity]. }
  assert (Hhb : hb w_tr n (S n)).
  { eapply (Hrf n (S n) 1%N 2%N); [lia | exact tr_n | exact tr_Sn | discriminate | exact Hw | exact I]. }
  destruct (hb_adjacent _ _ _ Hhb eq_refl) as [(t & o1 & o2 & H1 & H2) | [(t & l & H1) | [(t & c & g & H1) | (t & c & H1)]]];
    rewrite tr_n in H1; [rewrite tr_Sn in H2; inversion H1; inversion H2; subst |..]; discriminate.
Qed.

Variables ca cb : N.
Hypothesis Hca : In ca (e_clss a).
Hypothesis Hcb : In cb (e_clss b).
Hypothesis Hconc : ca <> cb \/ ~ In ca (singles T).

(** every thread id other than 1 and 2 gets a class outside [singles]: [conforms] speaks of all thread ids *)
Definition w_cls (t : tid) : N :=
  if N.eqb t 1 then ca else if N.eqb t 2 then cb else fresh_cls (singles T).

Lemma w_cls_single t : In (w_cls t) (singles T) -> t = 1%N \/ t = 2%N.
Proof.
  unfold w_cls. destruct (N.eqb_spec t 1); [auto|]. destruct (N.eqb_spec t 2); [auto|].
  intros H. destruct (fresh_cls_notin _ H).
Qed.

Lemma tr_conforms : conforms T w_cls w_tr.
Proof.
  destruct (pair_ok_false _ _ _ Hbad) as (Hf & _). destruct tr_state as (st & Hn & HSn & _ & H1 & H2).
  assert (K : forall j t e site, nth_error (entries T) site = Some e -> e_fld e = e_fld a -> In (w_cls t) (e_clss e) ->
            (forall l, In l (w_locks e) -> holds_at w_tr j l t) -> e_after e = [] ->
            exists e0, nth_error (entries T) site = Some e0 /\ e_fld e0 = snd x /\ e_kind e0 = e_kind e /\ In (w_cls t) (e_clss e0) /\
              (forall s, In s (e_locks e0) -> holds_at w_tr j (inst (fst x) s) t) /\
              (forall k, In k (e_before e0) -> forall p t', nth_error w_tr p = Some (t', Post (fst x, k)) -> t' = t /\ j < p) /\
              (forall k, In k (e_after e0) -> exists q, q < j /\ nth_error w_tr q = Some (t, Wait (fst x, k)))).
  { intros j t e site He Hfe Hc Hh Hae. exists e.
    split; [exact He|]. split; [exact Hfe|]. split; [reflexivity|]. split; [exact Hc|]. split; [|split].
    - intros s Hs. apply Hh, w_locks_In. eauto.
    - intros k _ p t' Hp. exfalso. destruct (tr_shape _ _ _ Hp) as [(l & [=]) | (k0 & y & s0 & [=])].
    - intros k Hk. rewrite Hae in Hk. destruct Hk. }
  split.
  - intros j t k y site H.
    destruct (tr_nth _ _ H) as [(? & ? & [=]) | [(-> & [= -> -> -> ->]) | (-> & [= -> -> -> ->])]].
    + apply K; auto. intros l Hl. exists st. auto.
    + apply K; auto. intros l Hl. exists st. auto.
  - (* 1 and 2 could share a singleton class only if [ca = cb] is in [singles], which [Hconc] excludes *)
    intros t t' Hin Heq.
    destruct (w_cls_single t Hin) as [-> | ->]; (destruct (w_cls_single t') as [-> | ->]; [rewrite <- Heq; exact Hin | |]);
      try reflexivity; exfalso; cbn in Hin, Heq; destruct Hconc as [X | X]; apply X; congruence.
Qed.

End Witness.

(** a pair the check rejects, neither side of which relies on an observed signal *)
Definition plain_bad_pair (T : table) : bool :=
  existsb (fun a => existsb (fun b => negb (pair_ok (singles T) a b) &&
     match e_after a, e_after b with [], [] => true | _, _ => false end) (entries T)) (entries T).

Theorem lockset_tight (T : table) :
  plain_bad_pair T = true ->
  exists (cls_of : tid -> N) (tr : trace), wf_trace tr /\ conforms T cls_of tr /\ safe_init T tr /\ ~ race_free tr.
Proof.
  intros H. unfold plain_bad_pair in H.
  apply existsb_exists in H. destruct H as (a & Ha & H).
  apply existsb_exists in H. destruct H as (b & Hb & H).
  apply andb_true_iff in H. destruct H as [Hp Haft]. apply negb_true_iff in Hp.
  destruct (e_after a) eqn:Haa; [|discriminate]. destruct (e_after b) eqn:Hab; [|discriminate].
  apply In_nth_error in Ha, Hb. destruct Ha as [sa Ha], Hb as [sb Hb].
  destruct (pair_ok_false _ _ _ Hp) as (_ & _ & _ & _ & Hmc & _).
  apply may_conc_spec in Hmc. destruct Hmc as (ca & cb & Hca & Hcb & Hconc).
  exists (w_cls T ca cb), (w_tr a b sa sb). split; [|split; [|split]].
  - eapply tr_wf; eassumption.
  - eapply tr_conforms; eassumption.
  - eapply tr_safe_init; eassumption.
  - eapply tr_racy; eassumption.
Qed.

(** Property C15 - concurrent API use causes no data race and no torn view of the running models.
    [Generated_Accesses.accesses] is the access table written by harness/cmd/lockx from server/*.go; every run of
    the check regenerates the table from the current tree and re-proves the obligations below against it. *)
From Coq Require Import List NArith Lia.
From V Require Import Race.Lockset Race.Tight Race.Refcount Race.PsView Race.Generated_Accesses.
From V Require Race.Generated_Accesses_llm.
Import ListNotations.

(** Generic: for ANY access table T, any assignment of goroutine classes to threads and any well-formed trace
    (mutex semantics, forks, lock hand-off) whose accesses come from the sites of T with T's locksets really
    held, if the executable check accepts T then every two conflicting accesses of different threads are ordered
    by happens-before - for every interleaving. *)
Theorem C15_lockset_sound : forall (T : table) (cls_of : tid -> N) (tr : trace),
  wf_trace tr -> conforms T cls_of tr -> safe_init T tr ->
  lockset_ok T = true -> race_free tr.
Proof. exact lockset_sound. Qed.
Print Assumptions C15_lockset_sound.

(** the same with recorded findings W excluded: all pairs of accesses from sites outside W are ordered *)
Theorem C15_lockset_sound_except : forall (T : table) (cls_of : tid -> N) (W : entry -> bool) (tr : trace),
  wf_trace tr -> conforms T cls_of tr -> safe_init T tr ->
  lockset_ok_except W T = true ->
  race_free_on tr (fun s1 s2 => forall e1 e2, nth_error (entries T) s1 = Some e1 -> nth_error (entries T) s2 = Some e2 ->
                                    W e1 = false /\ W e2 = false).
Proof. intros T cls_of W tr. apply lockset_sound_except. Qed.
Print Assumptions C15_lockset_sound_except.

(** two accesses made under one common mutex are ordered, whatever else the threads do in between
    (the heart of the argument; includes the load() -> goroutine hand-off of refMu) *)
Theorem C15_common_lock_ordered : forall tr (i j : nat) t1 t2 k1 k2 x1 x2 s1 s2 l,
  wf_trace tr -> i < j ->
  nth_error tr i = Some (t1, Acc k1 x1 s1) -> nth_error tr j = Some (t2, Acc k2 x2 s2) ->
  holds_at tr i l t1 -> holds_at tr j l t2 -> hb tr i j.
Proof.
  intros tr i j t1 t2 k1 k2 x1 x2 s1 s2 l [[s0 Hrun] _]. exact (common_lock_ordered tr s0 i j t1 t2 k1 x1 s1 _ l Hrun).
Qed.
Print Assumptions C15_common_lock_ordered.

(** The scheduler's table.  Full claim: the table passes the lockset check as it is. *)
Definition C15_sched_lockset_full : Prop := lockset_ok accesses = true.

(** False on this tree: the recorded findings (known_findings.d/C15.json) are real lockset violations. *)
Theorem C15_sched_lockset_refuted : ~ C15_sched_lockset_full.
Proof. intros H. discriminate H. Qed.
Print Assumptions C15_sched_lockset_refuted.

(** The check is exact for the table semantics (converse of C15_lockset_sound): a table with a rejected pair
    (neither side of which relies on an observed signal) has a well-formed conforming execution with two
    unordered conflicting accesses. *)
Theorem C15_lockset_tight : forall T : table,
  plain_bad_pair T = true ->
  exists (cls_of : tid -> N) (tr : trace), wf_trace tr /\ conforms T cls_of tr /\ safe_init T tr /\ ~ race_free tr.
Proof. exact lockset_tight. Qed.
Print Assumptions C15_lockset_tight.

(** Full race freedom of everything the scheduler's table describes ... *)
Definition C15_sched_race_free_full : Prop :=
  forall (cls_of : tid -> N) (tr : trace), wf_trace tr -> conforms accesses cls_of tr -> safe_init accesses tr -> race_free tr.

(** ... is false: some execution allowed by the table races (one of the recorded findings). *)
Theorem C15_sched_race_free_refuted : ~ C15_sched_race_free_full.
Proof.
  assert (Hbad : plain_bad_pair accesses = true) by reflexivity.
  intros H. destruct (lockset_tight accesses Hbad) as (c & tr & Hwf & Hc & Hs & Hr).
  apply Hr. apply (H c tr Hwf Hc Hs).
Qed.
Print Assumptions C15_sched_race_free_refuted.

(** Partial: excluding exactly the recorded (function, location) findings, the table passes ... *)
Theorem C15_sched_lockset_partial : lockset_ok_except (waive waived) accesses = true.
Proof. apply by_loc_ok_sound. vm_compute. reflexivity. Qed.
Print Assumptions C15_sched_lockset_partial.

(** ... hence every execution of the server code that conforms to the table is free of data races between
    all accesses outside the recorded findings: Scheduler.loaded, and the runnerRef fields refCount, expireTimer,
    model, Options, gpus, llama (scheduler side), numParallel, estimated*, modelPath, ... *)
Theorem C15_sched_race_free : forall (cls_of : tid -> N) (tr : trace),
  wf_trace tr -> conforms accesses cls_of tr -> safe_init accesses tr ->
  race_free_on tr (fun s1 s2 => forall e1 e2, nth_error (entries accesses) s1 = Some e1 -> nth_error (entries accesses) s2 = Some e2 ->
                                    waive waived e1 = false /\ waive waived e2 = false).
Proof. intros cls_of tr H1 H2 H3. exact (lockset_sound_except accesses cls_of (waive waived) tr H1 H2 H3 C15_sched_lockset_partial). Qed.
Print Assumptions C15_sched_race_free.

(** the guard is satisfiable by most of the table, and the waiver list is not vacuous either *)
Example C15_partial_nonvacuous :
  Nat.leb 150 (length (filter (fun e => negb (waive waived e)) (entries accesses))) = true /\
  Nat.leb 6 (length (filter (waive waived) (entries accesses))) = true.
Proof. split; vm_compute; reflexivity. Qed.

(** The llmServer (llm/server.go) that all concurrent requests of one model share: its table passes the check
    when the justified orderings of corpus/C15/benign.json are excluded (loadProgress / loadDuration, ordered by
    package server's refMu and by "WaitUntilRunning is called once"), hence no two conflicting plain-field accesses
    of its methods (Completion, Embedding, Tokenize, Detokenize, Ping, WaitUntilRunning, Close, ...) race. *)
Theorem C15_llm_lockset_partial :
  lockset_ok_except (waive Generated_Accesses_llm.waived) Generated_Accesses_llm.accesses = true.
Proof. apply by_loc_ok_sound. vm_compute. reflexivity. Qed.
Print Assumptions C15_llm_lockset_partial.

Theorem C15_llm_race_free : forall (cls_of : tid -> N) (tr : trace),
  wf_trace tr -> conforms Generated_Accesses_llm.accesses cls_of tr -> safe_init Generated_Accesses_llm.accesses tr ->
  race_free_on tr (fun s1 s2 => forall e1 e2,
     nth_error (entries Generated_Accesses_llm.accesses) s1 = Some e1 -> nth_error (entries Generated_Accesses_llm.accesses) s2 = Some e2 ->
     waive Generated_Accesses_llm.waived e1 = false /\ waive Generated_Accesses_llm.waived e2 = false).
Proof.
  intros cls_of tr H1 H2 H3.
  exact (lockset_sound_except Generated_Accesses_llm.accesses cls_of (waive Generated_Accesses_llm.waived) tr H1 H2 H3 C15_llm_lockset_partial).
Qed.
Print Assumptions C15_llm_race_free.

Example C15_llm_nonvacuous :
  Nat.leb 50 (length (filter (fun e => negb (waive Generated_Accesses_llm.waived e)) (entries Generated_Accesses_llm.accesses))) = true.
Proof. vm_compute. reflexivity. Qed.

(** Ordering by a reference count instead of a mutex (scheduleRunner reads runner.llama, unload writes it): if the
    use at i lies inside a reference (after observing its grant, before its release is posted) and the teardown at j
    respects the reference (before every grant of it, or after consuming its release) then the two are ordered.
    The hypothesis [guarded] is the scheduler's reference-count invariant: C01_no_close_in_use and
    C01_no_grant_closed (coq/Sched/Properties_C01.v) for the repaired scheduler. *)
Theorem C15_refcount_read_ordered : forall tr gsig rsig i j h w oi oj,
  wf_trace tr -> nth_error tr i = Some (h, oi) -> nth_error tr j = Some (w, oj) ->
  inside tr gsig rsig i h -> guarded tr gsig rsig j w -> hb tr i j \/ hb tr j i.
Proof. intros tr gsig rsig i j h w oi oj (_ & _ & Hwp). exact (refcount_ordered tr gsig rsig i j h w oi oj Hwp). Qed.
Print Assumptions C15_refcount_read_ordered.

Example C15_refcount_nonvacuous : wf_trace ex_tr /\ hb ex_tr 2 6.
Proof. split; [exact ex_wf | exact ex_ordered]. Qed.

(** a concrete conforming two-thread trace with a hand-off, to show the hypotheses of the sound theorem are
    satisfiable: thread 1 locks, forks thread 2 handing the lock over, thread 2 writes and unlocks, thread 3
    locks and reads; the two accesses are ordered *)
Example C15_handoff_trace_ordered :
  let l := (7%N, 2%N) in let x := (7%N, 22%N) in
  let tr := [(1%N, Acq l); (1%N, Fork 2%N [l]); (2%N, Acc Wr x 0); (2%N, Rel l); (3%N, Acq l); (3%N, Acc Rd x 1)] in
  wf_trace tr /\ hb tr 2 5.
Proof.
  cbv zeta. split.
  - split; [|split].
    + eexists. vm_compute. reflexivity.
    + intros i t c g H. destruct i as [|[|i]].
      * discriminate.
      * inversion H; subst. split; [discriminate|]. intros j e Hj He.
        destruct j as [|[|j]]; [| | lia]; cbn in He; inversion He; subst; discriminate.
      * cbn in H. do 4 (destruct i as [|i]; [discriminate|]). destruct i; discriminate.
    + intros q t c H. destruct q as [|[|[|[|[|[|q]]]]]]; cbn in H; try discriminate. destruct q; discriminate.
  - eapply hb_trans; [eapply (hb_po _ 2 3); [auto | reflexivity | reflexivity]|].
    eapply hb_trans; [eapply (hb_sw _ 3 4); [auto | reflexivity | reflexivity]|].
    eapply (hb_po _ 4 5); [auto | reflexivity | reflexivity].
Qed.

(** /api/ps: with the walk of the map and the teardown (unload + delete) each atomic under loadedMu, no
    sequence of publications and teardowns - of any length, in any order the scheduler's discipline allows -
    leads to a state whose snapshot contains a torn-down runner *)
Theorem C15_ps_no_torn_view : forall l, disciplined init_st l -> torn (PsView.run init_st l) = false.
Proof. exact no_torn_view. Qed.
Print Assumptions C15_ps_no_torn_view.

(** without the lock in the handler (the unrepaired tree) a walk can fall between unload() and delete() *)
Theorem C15_ps_unlocked_torn : torn (PsView.run init_st split_witness) = true.
Proof. exact split_torn. Qed.
Print Assumptions C15_ps_unlocked_torn.

(** the last step is a stale teardown: it deletes by path whatever is there (runner 9), as processCompleted does *)
Example C15_ps_nonvacuous :
  disciplined init_st [Publish 1%N 7%N; Publish 2%N 8%N; Teardown 1%N 7%N; Publish 1%N 9%N; Teardown 1%N 7%N] /\
  snapshot (PsView.run init_st [Publish 1%N 7%N; Publish 2%N 8%N; Teardown 1%N 7%N; Publish 1%N 9%N]) = [9%N; 8%N].
Proof.
  split; [|reflexivity]. cbn. repeat split; try reflexivity; intros p' H;
    repeat (destruct H as [H|H]; [inversion H; subst; reflexivity|]); try destruct H.
Qed.

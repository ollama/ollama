(** The running-models view (`GET /api/ps`) never shows a torn-down runner.

    Model of the critical sections of server/sched.go and server/routes.go that touch the `loaded` map, at the
    granularity at which the (repaired) code holds `loadedMu`:

      Publish p r    load():               s.loaded[p] = r                 (r freshly created, open)
      Teardown p r   processCompleted():   r.unload(); delete(s.loaded, r.modelPath)   -- ONE loadedMu section
      snapshot       PsHandler():          walk of the map under loadedMu (a function of the state, not an action)

    and, for the unrepaired handler (no lock), the same teardown split in its two halves [Close r] and
    [Delete p], between which an unlocked walk can run.  The atomic system keeps "every runner in the map is
    open"; the split system does not. *)
From Coq Require Import List NArith Bool.
Import ListNotations.

Definition rid := N.
Definition path := N.

Record st := mkSt {
  loaded : list (path * rid);   (* the map, as an association list (first match wins) *)
  closed : list rid             (* runners whose unload() has run *)
}.

Definition init_st : st := mkSt [] [].

Definition memN (x : N) (l : list N) : bool := existsb (N.eqb x) l.
Definition del (p : path) (m : list (path * rid)) : list (path * rid) := filter (fun e => negb (N.eqb (fst e) p)) m.
Definition path_of (r : rid) (m : list (path * rid)) : option path :=
  match find (fun e => N.eqb (snd e) r) m with Some e => Some (fst e) | None => None end.

Inductive act :=
| Publish (p : path) (r : rid)     (* atomic, under loadedMu *)
| Teardown (p : path) (r : rid)    (* atomic, under loadedMu: close r, delete loaded[p] (by path, whatever is there) *)
| Close (r : rid)                  (* first half of a non-atomic teardown *)
| Delete (p : path).               (* second half *)

Definition step (s : st) (a : act) : st :=
  match a with
  | Publish p r => mkSt ((p, r) :: del p (loaded s)) (closed s)
  | Teardown p r => mkSt (del p (loaded s)) (r :: closed s)
  | Close r => mkSt (loaded s) (r :: closed s)
  | Delete p => mkSt (del p (loaded s)) (closed s)
  end.

Definition run (s : st) (l : list act) : st := fold_left step l s.

Definition snapshot (s : st) : list rid := map snd (loaded s).
Definition torn (s : st) : bool := existsb (fun r => memN r (closed s)) (snapshot s).

(** the scheduler's discipline: a runner is created fresh (never closed before it is published), and a
    teardown names the path under which the runner is stored, if it is stored at all *)
Fixpoint disciplined (s : st) (l : list act) : Prop :=
  match l with
  | [] => True
  | a :: l' =>
      (match a with
       | Publish _ r => memN r (closed s) = false
       | Teardown p r => forall p', In (p', r) (loaded s) -> p' = p
       | Close _ | Delete _ => False   (* the repaired code has no split teardown visible to a locked walk *)
       end) /\ disciplined (step s a) l'
  end.

Definition inv (s : st) : Prop := forall p r, In (p, r) (loaded s) -> memN r (closed s) = false.

Lemma in_del p q r m : In (q, r) (del p m) -> In (q, r) m /\ q <> p.
Proof.
  unfold del. rewrite filter_In. cbn. intros [H1 H2]. split; [assumption|].
  apply negb_true_iff in H2. apply N.eqb_neq in H2. assumption.
Qed.

Lemma inv_step s a l : inv s -> disciplined s (a :: l) -> inv (step s a).
Proof.
  intros Hi [Hd _] q r Hin. destruct a as [p r0 | p r0 | r0 | p]; cbn in *; try contradiction.
  - destruct Hin as [Heq | Hin].
    + inversion Heq; subst. assumption.
    + apply in_del in Hin. apply (Hi q r). apply Hin.
  - apply in_del in Hin. destruct Hin as [Hin Hne].
    destruct (N.eqb r r0) eqn:E.
    + apply N.eqb_eq in E; subst r0. exfalso. apply Hne. apply (Hd q Hin).
    + cbn. apply (Hi q r Hin).
Qed.

Lemma inv_run l : forall s, inv s -> disciplined s l -> inv (run s l).
Proof.
  induction l as [|a l IH]; intros s Hi Hd; cbn; [assumption|].
  apply IH; [exact (inv_step _ _ _ Hi Hd) | exact (proj2 Hd)].
Qed.

Lemma inv_not_torn s : inv s -> torn s = false.
Proof.
  intros Hi. unfold torn, snapshot.
  destruct (existsb (fun r => memN r (closed s)) (map snd (loaded s))) eqn:E; [|reflexivity].
  apply existsb_exists in E. destruct E as [r [Hin Hc]]. apply in_map_iff in Hin.
  destruct Hin as [[p r'] [Heq Hin]]. cbn in Heq; subst r'. rewrite (Hi p r Hin) in Hc. discriminate.
Qed.

Lemma no_torn_view l : disciplined init_st l -> torn (run init_st l) = false.
Proof.
  intros Hd. apply inv_not_torn. apply inv_run; [|assumption]. intros p r H; destruct H.
Qed.

(** the unrepaired handler: a walk between the two halves of a teardown sees a closed runner *)
Definition split_witness : list act := [Publish 1%N 7%N; Close 7%N].
Lemma split_torn : torn (run init_st split_witness) = true.
Proof. reflexivity. Qed.

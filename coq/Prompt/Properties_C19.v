(** C19 - Chat prompt keeps newest messages that fit, system messages, each image once.

    Everything is quantified over the conversation [msgs] (any roles, contents, images), the context length
    [numctx], the token counter [count], the model kind ([mllama], [projcount]) and the template style: the
    renderer [render] is an arbitrary function from message lists to strings in the main theorems; the
    prompt-string statements are for the modelled template families with arbitrary literal texts.

    [scan_all ... msgs = Ok n]: the backwards scan of chatPrompt ends with the retained run [msgs[n:]].
    [fits ... msgs k]: the template's rendering of [system messages of msgs[:k]] ++ msgs[k:] (plus image tokens)
    does not exceed the context length - what chatPrompt measures for the suffix start [k].  *)
From Coq Require Import List NArith ZArith Bool Arith Lia.
From V Require Import Common.Bytes Prompt.Model Prompt.Proofs Prompt.ProofsImg Prompt.ProofsRender.
Import ListNotations.
Open Scope N_scope.

(** a prompt is built for every non-empty conversation (for mllama: unless a message carries several images,
    in which case the request is rejected with errTooManyImages) *)
Theorem C19_prompt_built :
  forall render count mllama projcount numctx msgs,
    msgs <> [] -> (mllama = false \/ forall m, In m msgs -> (length (images m) <= 1)%nat) ->
    exists p imgs, chat_prompt render count mllama projcount numctx msgs = Ok (p, imgs).
Proof.
  intros render count mllama projcount numctx msgs Hne Hok. unfold chat_prompt.
  pose proof (scan_all_spec render count mllama projcount numctx msgs) as S.
  destruct (scan_all _ _ _ _ _ msgs) as [n| |]; [eexists _, _; reflexivity | | contradiction].
  exfalso. destruct S as (j & (Hm & m & Hn & Hl)%too_many_true). destruct Hok as [Hf|Hall]; [congruence|].
  apply nth_error_In, Hall in Hn. lia.
Qed.
Print Assumptions C19_prompt_built.

(** the prompt and the image list are those of the retained start computed by the scan *)
Theorem C19_prompt_of_start :
  forall render count mllama projcount numctx msgs p imgs,
    chat_prompt render count mllama projcount numctx msgs = Ok (p, imgs) <->
    exists n, scan_all render count mllama projcount numctx msgs = Ok n /\
              p = render (final_list mllama msgs n) /\ imgs = final_images msgs n.
Proof.
  intros render count mllama projcount numctx msgs p imgs. split; [apply chat_prompt_inv|].
  intros (n & Hn & -> & ->). unfold chat_prompt. rewrite Hn. reflexivity.
Qed.
Print Assumptions C19_prompt_of_start.

(** the latest message is always the last message handed to the template: same role and images, unchanged if it
    has no images, and its content still ends the rewritten content when it holds no "[img]" placeholder *)
Theorem C19_latest_retained :
  forall render count mllama projcount numctx msgs n,
    scan_all render count mllama projcount numctx msgs = Ok n ->
    exists pre x x',
      nth_error msgs (length msgs - 1) = Some x /\
      final_list mllama msgs n = pre ++ [x'] /\
      role x' = role x /\ images x' = images x /\
      (images x = [] -> x' = x) /\
      (containsb (content x) s_img = false -> Suffix (content x) (content x')).
Proof.
  intros render count mllama projcount numctx msgs n H. apply scan_all_ok in H as (Hlt & _).
  destruct (final_list_last mllama msgs n Hlt) as (pre & x & id & Hx & ->).
  exists pre, x, (rewrite_msg mllama id x). split; [exact Hx|]. split; [reflexivity|].
  split; [apply rewrite_msg_role|]. split; [apply rewrite_msg_images|].
  split; [apply rewrite_msg_noimg | apply rewrite_msg_keeps_content].
Qed.
Print Assumptions C19_latest_retained.

(** the retained messages are the run msgs[n:]: every later suffix start fits, the next earlier one does not;
    if fitting is monotone in the suffix start this is the longest fitting suffix; only the latest message is
    retained if nothing more fits *)
Theorem C19_retained_run :
  forall render count mllama projcount numctx msgs n,
    scan_all render count mllama projcount numctx msgs = Ok n ->
    (n < length msgs)%nat /\
    (forall k, (n <= k)%nat -> (k < length msgs - 1)%nat -> fits render count mllama projcount numctx msgs k = true) /\
    (n = O \/ fits render count mllama projcount numctx msgs (n - 1) = false) /\
    ((forall k, (S k < length msgs - 1)%nat ->
        fits render count mllama projcount numctx msgs k = true -> fits render count mllama projcount numctx msgs (S k) = true) ->
     forall k, (k < length msgs - 1)%nat -> fits render count mllama projcount numctx msgs k = true -> (n <= k)%nat) /\
    ((2 <= length msgs)%nat -> fits render count mllama projcount numctx msgs (length msgs - 2) = false -> n = (length msgs - 1)%nat).
Proof.
  intros render count mllama projcount numctx msgs n H. apply scan_all_ok in H. pose proof H as (H1 & H2 & H3 & _).
  split; [exact H1|]. split; [exact H2|]. split; [exact H3|]. split.
  - apply run_start_longest, H.
  - intros _. apply run_start_only_latest, H.
Qed.
Print Assumptions C19_retained_run.

(** every system message that precedes the retained run is handed to the template, ahead of the run, in the
    original order (the list is: system messages of msgs[:n], then the rewritten msgs[n:]); this and the three
    statements after it are true of any cut [n], the scan's result is one such *)
Theorem C19_system_kept :
  forall render count mllama projcount numctx msgs n,
    scan_all render count mllama projcount numctx msgs = Ok n ->
    final_list mllama msgs n = filter is_system (firstn n msgs) ++ rewrite_all mllama 0 (skipn n msgs) /\
    forall j m, (j < n)%nat -> nth_error msgs j = Some m -> is_system m = true ->
      In m (filter is_system (firstn n msgs)).
Proof.
  intros _ _ mllama _ _ msgs n _. split; [reflexivity|]. intros j m. apply system_before_kept.
Qed.
Print Assumptions C19_system_kept.

(** the retained messages keep their original order, roles and images; only contents of messages with images
    are rewritten *)
Theorem C19_order :
  forall render count mllama projcount numctx msgs n,
    scan_all render count mllama projcount numctx msgs = Ok n ->
    map role (final_list mllama msgs n) = map role (filter is_system (firstn n msgs)) ++ map role (skipn n msgs) /\
    map images (retained mllama msgs n) = map images (skipn n msgs) /\
    length (retained mllama msgs n) = length (skipn n msgs) /\
    (forall j m, nth_error (skipn n msgs) j = Some m ->
       nth_error (retained mllama msgs n) j = Some (rewrite_msg mllama (nimages (firstn j (skipn n msgs))) m)) /\
    ((forall m, In m (skipn n msgs) -> images m = []) -> retained mllama msgs n = skipn n msgs).
Proof.
  intros _ _ mllama _ _ msgs n _. unfold final_list, retained, sysmsgs.
  split; [rewrite map_app, map_role_rewrite_all; reflexivity|].
  split; [apply map_images_rewrite_all|]. split; [apply rewrite_all_length|]. split.
  - intros j m Hj. rewrite (rewrite_all_nth mllama 0 _ j m Hj). reflexivity.
  - apply rewrite_all_noimg.
Qed.
Print Assumptions C19_order.

(** the image list is exactly the images of the retained messages in order, numbered 0..k-1; nothing of a
    dropped message is sent *)
Theorem C19_images_sent :
  forall render count mllama projcount numctx msgs n,
    scan_all render count mllama projcount numctx msgs = Ok n ->
    let sent := concat (map images (skipn n msgs)) in
    map snd (final_images msgs n) = sent /\
    map fst (final_images msgs n) = map N.of_nat (seq 0 (length sent)) /\
    (forall k id d, nth_error (final_images msgs n) k = Some (id, d) -> id = N.of_nat k /\ nth_error sent k = Some d).
Proof.
  intros _ _ _ _ _ msgs n _ sent. unfold final_images. fold sent. split; [apply number_snd|]. split.
  - rewrite number_fst. reflexivity.
  - intros k id d. rewrite number_nth. destruct (nth_error sent k); intros [= <- <-]. split; reflexivity.
Qed.
Print Assumptions C19_images_sent.

(** for retained contents free of the literal "[img-": the tag of image index i occurs exactly once in the
    retained messages if i is an index of the image list and never otherwise, and it occurs in the message
    that carries that image ([occ t s] = number of positions of s at which t starts) *)
Theorem C19_images_once :
  forall render count mllama projcount numctx msgs n,
    scan_all render count mllama projcount numctx msgs = Ok n ->
    free_of_tags (skipn n msgs) ->
    (forall i, occ_total (tag i) (retained mllama msgs n) = if i <? nimages (skipn n msgs) then 1%nat else 0%nat) /\
    (forall i j m m', nth_error (skipn n msgs) j = Some m -> nth_error (retained mllama msgs n) j = Some m' ->
       occ (tag i) (content m') = in_range (nimages (firstn j (skipn n msgs))) i (nimg m)) /\
    nimages (skipn n msgs) = N.of_nat (length (final_images msgs n)).
Proof.
  intros _ _ mllama _ _ msgs n _ Hfree. unfold retained. split; [|split].
  - intros i. rewrite rewrite_all_occ_total by exact Hfree. apply in_range_from_0.
  - intros i j m m' Hj Hj'. apply (rewrite_all_occ_nth mllama 0 _ j m m' i); [|assumption..].
    eapply Hfree, nth_error_In, Hj.
  - unfold final_images. rewrite nimages_concat. rewrite <- (map_length snd (number 0 _)), number_snd. reflexivity.
Qed.
Print Assumptions C19_images_once.

(** templates that range over .Messages print the contents of everything they are handed, in order *)
Theorem C19_range_prompt_ordered :
  forall pre mid post fin count mllama projcount numctx msgs p imgs,
    chat_prompt (render_style (Range pre mid post fin)) count mllama projcount numctx msgs = Ok (p, imgs) ->
    exists n, scan_all (render_style (Range pre mid post fin)) count mllama projcount numctx msgs = Ok n /\
      ordered_in (map content (final_list mllama msgs n)) p.
Proof.
  intros pre mid post fin count mllama projcount numctx msgs p imgs H.
  apply chat_prompt_inv in H as (n & Hn & -> & _). exists n. split; [exact Hn | apply range_ordered].
Qed.
Print Assumptions C19_range_prompt_ordered.

Theorem C19_range_prompt_contains :
  forall pre mid post fin count mllama projcount numctx msgs p imgs,
    chat_prompt (render_style (Range pre mid post fin)) count mllama projcount numctx msgs = Ok (p, imgs) ->
    exists n, scan_all (render_style (Range pre mid post fin)) count mllama projcount numctx msgs = Ok n /\
      (forall j m, (j < n)%nat -> nth_error msgs j = Some m -> is_system m = true -> Infix (content m) p) /\
      (forall j m, nth_error (skipn n msgs) j = Some m ->
         Infix (content (rewrite_msg mllama (nimages (firstn j (skipn n msgs))) m)) p).
Proof.
  intros pre mid post fin count mllama projcount numctx msgs p imgs H.
  destruct (prompt_shows _ _ _ _ _ _ _ _ _ (range_shows pre mid post fin) H) as (n & Hn & Hsys & Hrun).
  exists n. split; [exact Hn|]. split.
  - intros j m Hj Hm Hs. exact (Hsys j m Hj Hm Hs I).
  - intros j m Hj. exact (Hrun j m Hj I).
Qed.
Print Assumptions C19_range_prompt_contains.

(** templates that print .System and the user/assistant messages of .Messages *)
Theorem C19_sysrange_prompt_contains :
  forall a b c d e f g count mllama projcount numctx msgs p imgs,
    chat_prompt (render_style (SysRange a b c d e f g)) count mllama projcount numctx msgs = Ok (p, imgs) ->
    exists n, scan_all (render_style (SysRange a b c d e f g)) count mllama projcount numctx msgs = Ok n /\
      (forall j m, (j < n)%nat -> nth_error msgs j = Some m -> is_system m = true -> Infix (content m) p) /\
      (forall j m, nth_error (skipn n msgs) j = Some m -> std_role (role m) ->
         Infix (content (rewrite_msg mllama (nimages (firstn j (skipn n msgs))) m)) p).
Proof.
  intros a b c d e f g count mllama projcount numctx msgs p imgs H.
  destruct (prompt_shows _ _ _ _ _ _ _ _ _ (sysrange_shows a b c d e f g) H) as (n & Hn & Hsys & Hrun).
  exists n. split; [exact Hn|]. split.
  - intros j m Hj Hm Hs. apply (Hsys j m Hj Hm Hs), std_role_system, Hs.
  - intros j m Hj Hr. apply (Hrun j m Hj). rewrite rewrite_msg_role. exact Hr.
Qed.
Print Assumptions C19_sysrange_prompt_contains.

(** legacy System/Prompt/Response templates: the full statement is false (known finding
    C19-legacy-flow-overwrite), it holds when every message handed to the template has a standard role and a
    non-empty content *)
Definition C19_legacy_contains_full : Prop :=
  forall respif a b c d e f l m,
    In m l -> std_role (role m) -> Infix (content m) (render_style (Legacy respif a b c d e f) l).

Theorem C19_legacy_contains_refuted : ~ C19_legacy_contains_full.
Proof.
  intros H. apply legacy_loses. apply (H false [] [] [] [] [] [] legacy_witness (mkMsg s_system [83] [])); [left; reflexivity | left; reflexivity].
Qed.
Print Assumptions C19_legacy_contains_refuted.

Theorem C19_legacy_contains_partial :
  forall respif a b c d e f l m,
    (forall x, In x l -> std_role (role x) /\ content x <> []) ->
    In m l -> Infix (content m) (render_style (Legacy respif a b c d e f) l).
Proof. intros respif a b c d e f l m Hg. apply legacy_contains, Forall_forall, Hg. Qed.
Print Assumptions C19_legacy_contains_partial.

(** the code before fixes/C19-system-at-stop.patch ([chat_prompt_unrepaired]) drops the system message at which
    the scan stops; the repaired code keeps it *)
Definition C19_system_kept_unrepaired_full : Prop :=
  forall pre mid post fin count mllama projcount numctx msgs p imgs n j m,
    chat_prompt_unrepaired (render_style (Range pre mid post fin)) count mllama projcount numctx msgs = Ok (p, imgs) ->
    scan_all (render_style (Range pre mid post fin)) count mllama projcount numctx msgs = Ok n ->
    (j < n)%nat -> nth_error msgs j = Some m -> is_system m = true -> Infix (content m) p.

(** {{range .Messages}}<{{.Role}}>{{.Content}}\n{{end}} *)
Definition ex_style : style := Range [60] [62] [10] [].

(** [system "S S S S", user "hi"] *)
Definition unrepaired_witness : list msg :=
  [mkMsg s_system [83;32;83;32;83;32;83] []; mkMsg s_user [104;105] []].

Lemma unrepaired_drops :
  let render := render_style ex_style in
  scan_all render count_fields false false 2 unrepaired_witness = Ok 1%nat /\
  (exists p imgs, chat_prompt_unrepaired render count_fields false false 2 unrepaired_witness = Ok (p, imgs) /\
                  ~ Infix [83;32;83;32;83;32;83] p) /\
  (exists p imgs, chat_prompt render count_fields false false 2 unrepaired_witness = Ok (p, imgs) /\
                  Infix [83;32;83;32;83;32;83] p).
Proof.
  cbv zeta. split; [vm_compute; reflexivity|]. split.
  - eexists _, _. split; [vm_compute; reflexivity|]. apply containsb_false. vm_compute. reflexivity.
  - eexists _, _. split; [vm_compute; reflexivity|]. apply containsb_spec. vm_compute. reflexivity.
Qed.

Theorem C19_system_kept_unrepaired_refuted : ~ C19_system_kept_unrepaired_full.
Proof.
  intros H. destruct unrepaired_drops as (Hn & (p & imgs & Hp & Hno) & _).
  apply Hno. exact (H [60] [62] [10] [] count_fields false false 2%Z unrepaired_witness p imgs 1%nat O _ Hp Hn (le_n 1) eq_refl eq_refl).
Qed.
Print Assumptions C19_system_kept_unrepaired_refuted.

Definition ex_msgs : list msg :=
  [ mkMsg s_user [111;108;100;32;111;108;100;32;111;108;100] [7];      (* "old old old", one image: dropped *)
    mkMsg s_system [83;32;83] [];                                       (* "S S" *)
    mkMsg s_assistant [97;32;91;105;109;103;93] [8;9];                  (* "a [img]", two images *)
    mkMsg s_user [104;105] [] ].                                        (* "hi" *)

(** the scan stops at index 0: the older user message and its image are dropped, the run msgs[1:] is retained;
    the prompt is "<system>S S\n<assistant>[img-1]a [img-0]\n<user>hi\n" *)
Example C19_example_run :
  scan_all (render_style ex_style) count_fields false false 6 ex_msgs = Ok 1%nat /\
  chat_prompt (render_style ex_style) count_fields false false 6 ex_msgs =
    Ok ([60;115;121;115;116;101;109;62;83;32;83;10;
         60;97;115;115;105;115;116;97;110;116;62;91;105;109;103;45;49;93;97;32;91;105;109;103;45;48;93;10;
         60;117;115;101;114;62;104;105;10], [(0, 8); (1, 9)]).
Proof. split; vm_compute; reflexivity. Qed.

Example C19_example_free : free_of_tags (skipn 1 ex_msgs).
Proof.
  intros m [<-|[<-|[<-|[]]]]; apply containsb_false; vm_compute; reflexivity.
Qed.

(** fitting is monotone on the example, so its retained run is the longest fitting suffix *)
Example C19_example_monotone :
  forall k, (S k < length ex_msgs - 1)%nat ->
    fits (render_style ex_style) count_fields false false 6 ex_msgs k = true ->
    fits (render_style ex_style) count_fields false false 6 ex_msgs (S k) = true.
Proof.
  intros k Hk. assert (Hc : (k = 0 \/ k = 1)%nat) by (cbn in Hk; lia).
  destruct Hc as [-> | ->]; vm_compute; intros H; first [discriminate | reflexivity].
Qed.

Example C19_example_legacy_guard :
  forall x, In x [mkMsg s_system [83] []; mkMsg s_user [104;105] []] -> std_role (role x) /\ content x <> [].
Proof. intros x [<-|[<-|[]]]; split; try discriminate; [left | right; left]; reflexivity. Qed.

(** rendering [system messages of msgs[:i]] ++ msgs[i:] is the same list for i and i+1 when msgs[i] is a system
    message, so the scan stops at an image-free system message only if it is the one right before the latest
    message (which is never measured) - the situation repaired by fixes/C19-system-at-stop.patch *)
Theorem C19_stop_at_system :
  forall render count mllama projcount numctx msgs n m,
    scan_all render count mllama projcount numctx msgs = Ok (S n) ->
    nth_error msgs n = Some m -> is_system m = true -> images m = [] -> S n = (length msgs - 1)%nat.
Proof.
  intros render count mllama projcount numctx msgs n m H Hn Hs Hi.
  apply scan_all_ok in H as (Hlt & Hall & [Hz|Hnf] & _); [discriminate|].
  rewrite Nat.sub_1_r in Hnf. cbn [pred] in Hnf.
  destruct (Nat.eq_dec (S n) (length msgs - 1)) as [E|E]; [exact E|]. exfalso.
  rewrite (fits_system_eq render count mllama projcount numctx msgs n m Hn Hs Hi), Hall in Hnf by lia. discriminate.
Qed.
Print Assumptions C19_stop_at_system.

Example C19_example_stop_at_system :
  scan_all (render_style ex_style) count_fields false false 2
    [mkMsg s_system [83;32;83;32;83;32;83] []; mkMsg s_user [104;105] []] = Ok 1%nat.
Proof. exact (proj1 unrepaired_drops). Qed.

(** server/routes.go ChatHandler: the conversation is the model's messages followed by the request's (so the latest
    message of the request is the latest message of the conversation), with the model's system prompt in front
    exactly when it is non-empty and the request does not start with a system message *)
Theorem C19_handler_conversation :
  forall system model_msgs req,
    req <> [] ->
    exists pre, chat_msgs system model_msgs req = pre ++ model_msgs ++ req /\
      ((pre = [] /\ (system = [] \/ exists r0 t, req = r0 :: t /\ is_system r0 = true)) \/
       (pre = [mkMsg s_system system []] /\ system <> [] /\ exists r0 t, req = r0 :: t /\ is_system r0 = false)).
Proof.
  intros system model_msgs req Hne. unfold chat_msgs. destruct req as [|r0 t]; [congruence|].
  destruct (is_system r0) eqn:Es; cbn [negb andb].
  - exists []. split; [reflexivity|]. left. split; [reflexivity|]. right. exists r0, t. split; [reflexivity | exact Es].
  - destruct system as [|c s]; cbn [is_nil negb].
    + exists []. split; [reflexivity|]. left. split; [reflexivity|]. left. reflexivity.
    + exists [mkMsg s_system (c :: s) []]. split; [reflexivity|]. right. split; [reflexivity|]. split; [discriminate|]. exists r0, t. split; [reflexivity | exact Es].
Qed.
Print Assumptions C19_handler_conversation.

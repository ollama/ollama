(** Counting the image tags "[img-<id>]" in the rewritten contents.
    [s_img] is the placeholder "[img]", [s_imgdash] the head "[img-" of a tag, [s_image] the mllama marker "<|image|>". *)
From Coq Require Import List NArith ZArith Bool Arith Lia ZifyN.
From V Require Import Common.Bytes Prompt.Model Prompt.Proofs.
Import ListNotations.
Open Scope N_scope.

Fixpoint occ (t s : str) : nat :=
  match s with
  | [] => O
  | _ :: s' => ((if prefixb t s then 1 else 0) + occ t s')%nat
  end.

Lemma occ_pos_infix t s : occ t s <> O -> Infix t s.
Proof.
  induction s as [|c s IH]; cbn [occ]; [congruence|].
  destruct (prefixb t (c :: s)) eqn:E.
  - intros _. apply prefixb_spec in E as [r Hr]. exists [], r. exact Hr.
  - intros H. destruct (IH H) as (a & b & Hab). exists (c :: a), b. rewrite Hab. reflexivity.
Qed.

Lemma occ_zero t s : ~ Infix t s -> occ t s = O.
Proof. intros H. destruct (occ t s) eqn:E; [reflexivity|]. exfalso. apply H, occ_pos_infix. congruence. Qed.

Lemma prefixb_app_same p x y : prefixb (p ++ x) (p ++ y) = prefixb x y.
Proof. induction p as [|c p IH]; cbn; [reflexivity|]. rewrite N.eqb_refl. exact IH. Qed.

Lemma prefixb_app_skip c t' a z : ~ In c t' -> prefixb t' (a ++ c :: z) = prefixb t' a.
Proof.
  revert a; induction t' as [|e t' IH]; intros a Hc; [destruct a; reflexivity|].
  assert (Hec : e <> c) by (intros ->; apply Hc; left; reflexivity).
  assert (Hc' : ~ In c t') by (intros H; apply Hc; right; exact H).
  destruct a as [|f a]; cbn.
  - replace (e =? c) with false by (symmetry; apply N.eqb_neq; exact Hec). reflexivity.
  - rewrite IH by exact Hc'. reflexivity.
Qed.

Lemma occ_skip c t' x b : ~ In c x -> occ (c :: t') (x ++ b) = occ (c :: t') b.
Proof.
  induction x as [|d x IH]; intros H; [reflexivity|]. cbn [app occ prefixb].
  replace (c =? d) with false.
  - cbn. apply IH. intros Hx. apply H. right. exact Hx.
  - symmetry. apply N.eqb_neq. intros ->. apply H. left. reflexivity.
Qed.

(** occurrences of [c :: t'] neither reach into a block [c :: x] nor start inside it *)
Lemma occ_app_head c t' x a b :
  ~ In c t' -> ~ In c x ->
  occ (c :: t') (a ++ c :: (x ++ b)) =
  (occ (c :: t') a + (if prefixb (c :: t') (c :: (x ++ b)) then 1 else 0) + occ (c :: t') b)%nat.
Proof.
  intros Ht Hx. induction a as [|d a IH].
  - cbn [app occ]. rewrite (occ_skip c t' x b Hx). lia.
  - cbn [app]. cbn [occ]. rewrite IH.
    assert (E : prefixb (c :: t') (d :: a ++ c :: (x ++ b)) = prefixb (c :: t') (d :: a)).
    { cbn [prefixb]. rewrite (prefixb_app_skip c t' a (x ++ b) Ht). reflexivity. }
    rewrite E. lia.
Qed.

(** [itoa] is injective because [dval] inverts it *)
Definition dval (l : str) : N := fold_left (fun a d => a * 10 + (d - 48)) l 0.
Definition digit (d : N) : Prop := 48 <= d /\ d <= 57.

Lemma itoa_aux_app f n acc : itoa_aux f n acc = itoa_aux f n [] ++ acc.
Proof.
  revert n acc; induction f as [|f IH]; intros n acc; cbn [itoa_aux]; [reflexivity|].
  destruct (n <? 10); [reflexivity|].
  rewrite (IH (n / 10) ((48 + n mod 10) :: acc)), (IH (n / 10) [48 + n mod 10]), <- app_assoc. reflexivity.
Qed.

(** every round divides by 10 >= 2, so as many rounds as [n] has bits are enough *)
Lemma dval_itoa_aux f n : n < 2 ^ N.of_nat f -> dval (itoa_aux f n []) = n.
Proof.
  revert n; induction f as [|f IH]; intros n Hn.
  - cbn in Hn. cbn. lia.
  - cbn [itoa_aux]. destruct (N.ltb_spec n 10) as [E|E].
    + unfold dval. cbn [fold_left]. rewrite (N.mod_small n 10 E). lia.
    + rewrite itoa_aux_app. unfold dval. rewrite fold_left_app. cbn [fold_left]. fold (dval (itoa_aux f (n / 10) [])).
      rewrite IH.
      * pose proof (N.div_mod' n 10). lia.
      * rewrite Nat2N.inj_succ, N.pow_succ_r' in Hn. apply N.div_lt_upper_bound; lia.
Qed.

Lemma pos_size_bound p : N.pos p < 2 ^ N.of_nat (Pos.size_nat p).
Proof.
  induction p as [p IH|p IH|]; cbn [Pos.size_nat]; try rewrite Nat2N.inj_succ, N.pow_succ_r'; try lia.
Qed.

Lemma itoa_fuel n : n < 2 ^ N.of_nat (S (N.size_nat n)).
Proof.
  destruct n as [|p]; [reflexivity|]. pose proof (pos_size_bound p).
  cbn [N.size_nat]. rewrite Nat2N.inj_succ, N.pow_succ_r'. lia.
Qed.

Lemma dval_itoa n : dval (itoa n) = n.
Proof. apply dval_itoa_aux, itoa_fuel. Qed.

Lemma itoa_inj i j : itoa i = itoa j -> i = j.
Proof. intros H. rewrite <- (dval_itoa i), <- (dval_itoa j), H. reflexivity. Qed.

Lemma itoa_aux_digits f n acc : Forall digit acc -> Forall digit (itoa_aux f n acc).
Proof.
  revert n acc; induction f as [|f IH]; intros n acc Hacc; cbn [itoa_aux]; [exact Hacc|].
  assert (Hd : Forall digit ((48 + n mod 10) :: acc)).
  { constructor; [|exact Hacc]. pose proof (N.mod_upper_bound n 10). unfold digit. lia. }
  destruct (n <? 10); [exact Hd | apply IH, Hd].
Qed.

Lemma itoa_digits n : Forall digit (itoa n).
Proof. apply itoa_aux_digits. constructor. Qed.

Lemma digits_sep c di dj b :
  ~ digit c -> Forall digit di -> Forall digit dj -> prefixb (di ++ [c]) (dj ++ c :: b) = eqb_str di dj.
Proof.
  intros Hc. revert dj; induction di as [|d di IH]; intros dj Hi Hj.
  - destruct dj as [|e dj]; cbn [app prefixb eqb_str].
    + rewrite N.eqb_refl. reflexivity.
    + inversion Hj as [|? ? He _]; subst.
      replace (c =? e) with false by (symmetry; apply N.eqb_neq; intros ->; exact (Hc He)). reflexivity.
  - inversion Hi as [|? ? Hd Hi']; subst. destruct dj as [|e dj]; cbn [app prefixb eqb_str].
    + replace (d =? c) with false by (symmetry; apply N.eqb_neq; intros ->; exact (Hc Hd)). reflexivity.
    + inversion Hj as [|? ? He Hj']; subst. rewrite (IH dj Hi' Hj'). reflexivity.
Qed.

(** '[' stands at the head of a tag, and of the placeholder, and nowhere else in them *)
Definition tag_tail (i : N) : str := tl s_imgdash ++ itoa i ++ [93].

Lemma tag_head i : tag i = 91 :: tag_tail i.
Proof. reflexivity. Qed.

Lemma tag_tail_no_bracket i : ~ In 91 (tag_tail i).
Proof.
  unfold tag_tail. intros H. cbn [tl s_imgdash app In] in H.
  repeat (destruct H as [H|H]; [discriminate|]).
  apply in_app_or in H as [H|H].
  - pose proof (itoa_digits i) as Hd. rewrite Forall_forall in Hd. apply Hd in H. unfold digit in H. lia.
  - cbn in H. destruct H as [H|[]]. discriminate.
Qed.

Lemma tag_prefix i j b : prefixb (tag i) (tag j ++ b) = (i =? j).
Proof.
  unfold tag. rewrite <- !app_assoc, prefixb_app_same. cbn [app].
  rewrite digits_sep by (try apply itoa_digits; unfold digit; lia).
  destruct (i =? j) eqn:E.
  - apply N.eqb_eq in E. subst. apply eqb_str_spec. reflexivity.
  - destruct (eqb_str (itoa i) (itoa j)) eqn:E2; [|reflexivity].
    apply eqb_str_spec, itoa_inj in E2. apply N.eqb_neq in E. contradiction.
Qed.

Lemma occ_around_tag i j a b :
  occ (tag i) (a ++ tag j ++ b) = (occ (tag i) a + (if (i =? j)%N then 1 else 0) + occ (tag i) b)%nat.
Proof.
  rewrite <- (tag_prefix i j b), !tag_head. apply occ_app_head; apply tag_tail_no_bracket.
Qed.

Lemma occ_around_placeholder i a b :
  occ (tag i) (a ++ s_img ++ b) = (occ (tag i) a + occ (tag i) b)%nat.
Proof.
  rewrite <- (Nat.add_0_r (occ (tag i) a)), tag_head.
  (* "[img]" and "[img-" differ at the fifth byte: no tag starts at the placeholder *)
  apply (occ_app_head 91 (tag_tail i) (tl s_img) a b (tag_tail_no_bracket i)).
  cbn. intros H. repeat (destruct H as [H|H]; [discriminate|]). exact H.
Qed.

Definition is_tags (p : str) : Prop := exists js, p = concat (map tag js).

Lemma occ_tags_app i p r : is_tags p -> occ (tag i) (p ++ r) = (occ (tag i) p + occ (tag i) r)%nat.
Proof.
  intros [js ->]. induction js as [|j js IH]; [reflexivity|]. cbn [map concat]. rewrite <- app_assoc.
  pose proof (occ_around_tag i j [] (concat (map tag js) ++ r)) as H1.
  pose proof (occ_around_tag i j [] (concat (map tag js))) as H2.
  cbn [app] in H1, H2. rewrite H1, H2, IH. cbn [occ]. lia.
Qed.

Lemma is_tags_snoc p j : is_tags p -> is_tags (p ++ tag j).
Proof. intros [js ->]. exists (js ++ [j]). rewrite map_app, concat_app. cbn. rewrite app_nil_r. reflexivity. Qed.

Lemma replace_first_split s old new :
  containsb s old = true -> exists a b, s = a ++ old ++ b /\ replace_first s old new = a ++ new ++ b.
Proof.
  unfold containsb, replace_first. destruct (index_of s old) as [k|] eqn:E; [|discriminate]. intros _.
  apply index_of_some in E as (a & b & -> & -> & _). exists a, b. split; [reflexivity|].
  rewrite firstn_app, firstn_all, Nat.sub_diag. cbn [firstn]. rewrite app_nil_r.
  do 2 f_equal. rewrite app_assoc, <- app_length. rewrite skipn_app, Nat.sub_diag. cbn [skipn].
  rewrite skipn_all. reflexivity.
Qed.

Definition in_range (id i k : N) : nat := if (id <=? i) && (i <? id + k) then 1%nat else 0%nat.

Lemma in_range_0 id i : in_range id i 0 = O.
Proof. unfold in_range. rewrite N.add_0_r. destruct (N.leb_spec id i), (N.ltb_spec i id); try reflexivity. lia. Qed.

Lemma in_range_from_0 i k : in_range 0 i k = if i <? k then 1%nat else 0%nat.
Proof. destruct i; reflexivity. Qed.

Lemma in_range_succ id i k : in_range id i (N.succ k) = ((if (i =? id)%N then 1 else 0) + in_range (id + 1) i k)%nat.
Proof.
  unfold in_range. rewrite <- N.add_1_l, N.add_assoc.
  destruct (N.eqb_spec i id), (N.leb_spec id i), (N.leb_spec (id + 1) i), (N.ltb_spec i (id + 1 + k));
    try reflexivity; exfalso; lia.
Qed.

Lemma in_range_add id i a b : in_range id i (a + b) = (in_range id i a + in_range (id + a) i b)%nat.
Proof.
  unfold in_range. rewrite N.add_assoc.
  destruct (N.leb_spec id i), (N.ltb_spec i (id + a)), (N.leb_spec (id + a) i), (N.ltb_spec i (id + a + b));
    try reflexivity; exfalso; lia.
Qed.

(** invariant of the image loop: the prefix stays a concatenation of tags *)
Lemma place_images_occ i imgs : forall id prefix prompt prefix' prompt',
  place_images imgs id prefix prompt = (prefix', prompt') ->
  is_tags prefix ->
  is_tags prefix' /\
  (occ (tag i) prefix' + occ (tag i) prompt' =
   occ (tag i) prefix + occ (tag i) prompt + in_range id i (N.of_nat (length imgs)))%nat.
Proof.
  induction imgs as [|d imgs IH]; intros id prefix prompt prefix' prompt' H Htags; cbn [place_images] in H.
  - injection H as <- <-. split; [exact Htags|]. cbn [length N.of_nat]. rewrite in_range_0. lia.
  - cbn [length]. rewrite Nat2N.inj_succ, in_range_succ. destruct (containsb prompt s_img) eqn:Ec.
    + destruct (replace_first_split prompt s_img (tag id) Ec) as (a & b & -> & Hrep). rewrite Hrep in H.
      apply IH in H as (Ht & Ho); [|exact Htags]. split; [exact Ht|].
      rewrite occ_around_tag in Ho. rewrite occ_around_placeholder. lia.
    + apply IH in H as (Ht & Ho); [|apply is_tags_snoc, Htags]. split; [exact Ht|].
      rewrite <- (app_nil_r (tag id)), occ_around_tag in Ho. cbn [occ] in Ho. lia.
Qed.

Lemma s_image_no_bracket : ~ In 91 s_image.
Proof. cbn. intros H. repeat (destruct H as [H|H]; [discriminate|]). exact H. Qed.

Lemma tag_infix_dash i s : Infix (tag i) s -> Infix s_imgdash s.
Proof. intros (a & b & ->). exists a, (itoa i ++ [93] ++ b). unfold tag. rewrite <- !app_assoc. reflexivity. Qed.

Lemma rewrite_msg_occ mllama id m i :
  ~ Infix s_imgdash (content m) ->
  occ (tag i) (content (rewrite_msg mllama id m)) = in_range id i (nimg m).
Proof.
  intros Hfree. unfold rewrite_msg. destruct (place_images (images m) id [] (content m)) as [prefix prompt] eqn:E.
  apply (place_images_occ i) in E as (Ht & Ho); [|exists []; reflexivity]. cbn [content].
  rewrite (occ_tags_app i _ _ Ht), tag_head.
  rewrite occ_skip by (destruct (_ && _); [apply s_image_no_bracket | intros []]).
  rewrite (occ_zero (tag i) (content m)) in Ho by (intros H; apply Hfree, (tag_infix_dash i), H).
  exact Ho.
Qed.

Definition free_of_tags (l : list msg) : Prop := forall m, In m l -> ~ Infix s_imgdash (content m).

Lemma rewrite_all_occ_nth mllama id l j m m' i :
  ~ Infix s_imgdash (content m) -> nth_error l j = Some m -> nth_error (rewrite_all mllama id l) j = Some m' ->
  occ (tag i) (content m') = in_range (id + nimages (firstn j l)) i (nimg m).
Proof.
  intros Hfree Hn Hn'. rewrite (rewrite_all_nth mllama id l j m Hn) in Hn'. injection Hn' as <-.
  apply rewrite_msg_occ, Hfree.
Qed.

Definition occ_total (t : str) (l : list msg) : nat := list_sum (map (fun m => occ t (content m)) l).

Lemma occ_total_cons t m l : occ_total t (m :: l) = (occ t (content m) + occ_total t l)%nat.
Proof. reflexivity. Qed.

Lemma rewrite_all_occ_total mllama i l : forall id,
  free_of_tags l -> occ_total (tag i) (rewrite_all mllama id l) = in_range id i (nimages l).
Proof.
  induction l as [|m t IH]; intros id Hfree.
  - symmetry. apply in_range_0.
  - cbn [rewrite_all]. rewrite occ_total_cons, nimages_cons, in_range_add.
    rewrite IH by (intros x Hx; apply Hfree; right; exact Hx).
    rewrite rewrite_msg_occ by (apply Hfree; left; reflexivity). reflexivity.
Qed.

(** Lemmas about the model of chatPrompt; the renderer and the token counter are arbitrary. *)
From Coq Require Import List NArith ZArith Bool Arith Lia.
From V Require Import Common.Bytes Prompt.Model.
Import ListNotations.
Open Scope N_scope.

Lemma too_many_true mllama msgs j :
  too_many mllama msgs j = true -> mllama = true /\ exists m, nth_error msgs j = Some m /\ (1 < length (images m))%nat.
Proof.
  unfold too_many, nimg. destruct (nth_error msgs j) as [m|]; [|discriminate].
  intros [-> Hc]%andb_true_iff. apply N.ltb_lt in Hc. split; [reflexivity|]. exists m. split; [reflexivity | lia].
Qed.

Section Scan.
  Variable render : list msg -> str.
  Variable count : str -> N.
  Variable mllama : bool.
  Variable projcount : bool.
  Variable numctx : Z.

  Notation fitsb := (fits render count mllama projcount numctx).
  Notation scanf := (scan render count mllama projcount numctx).
  Notation scan_allf := (scan_all render count mllama projcount numctx).

  Lemma scan_spec msgs k :
    match scanf msgs k with
    | Ok n => (n <= k)%nat /\
              (forall j, (n <= j)%nat -> (j < k)%nat -> fitsb msgs j = true) /\
              (n = O \/ fitsb msgs (n - 1) = false) /\
              (forall j, (n - 1 <= j)%nat -> (j < k)%nat -> too_many mllama msgs j = false)
    | ErrTooManyImages => exists j, too_many mllama msgs j = true
    | PanicEmpty => False
    end.
  Proof.
    induction k as [|i IH]; cbn [scan].
    - split; [reflexivity|]. split; [intros j _ Hj; inversion Hj|]. split; [left; reflexivity | intros j _ Hj; inversion Hj].
    - destruct (too_many mllama msgs i) eqn:Etm; [exists i; exact Etm|].
      destruct (fitsb msgs i) eqn:Ef.
      + destruct (scanf msgs i) as [n| |]; [|exact IH..].
        destruct IH as (Hle & Hfit & Hstop & Htm). split; [apply le_S, Hle|].
        split; [|split; [exact Hstop|]]; intros j H1 H2; destruct (Nat.eq_dec j i) as [->|Hne]; try assumption.
        * apply Hfit; lia.
        * apply Htm; lia.
      + split; [reflexivity|]. split; [intros j H1 H2; lia|]. split; [right; rewrite Nat.sub_1_r; exact Ef|].
        intros j H1 H2. replace j with i by lia. exact Etm.
  Qed.

  (** the latest message, at [length msgs - 1], is tested for images but never measured ([if i == n { continue }]) *)
  Definition run_start (msgs : list msg) (n : nat) : Prop :=
    (n < length msgs)%nat /\
    (forall k, (n <= k)%nat -> (k < length msgs - 1)%nat -> fitsb msgs k = true) /\
    (n = O \/ fitsb msgs (n - 1) = false) /\
    (forall k, (n - 1 <= k)%nat -> (k < length msgs)%nat -> too_many mllama msgs k = false).

  Lemma scan_all_spec msgs :
    match scan_allf msgs with
    | Ok n => run_start msgs n
    | ErrTooManyImages => exists j, too_many mllama msgs j = true
    | PanicEmpty => msgs = []
    end.
  Proof.
    unfold scan_all. destruct msgs as [|m0 t]; [reflexivity|]. set (msgs := m0 :: t).
    assert (Hlen : (1 <= length msgs)%nat) by apply le_n_S, Nat.le_0_l.
    destruct (too_many mllama msgs (length msgs - 1)) eqn:Etm; [eexists; exact Etm|].
    pose proof (scan_spec msgs (length msgs - 1)) as H.
    destruct (scanf msgs (length msgs - 1)) as [n| |]; [|exact H|destruct H].
    destruct H as (Hle & Hfit & Hstop & Htm). split; [lia|]. split; [exact Hfit|].
    split; [exact Hstop|]. intros k H1 H2.
    destruct (Nat.eq_dec k (length msgs - 1)) as [->|Hne]; [exact Etm | apply Htm; lia].
  Qed.

  Lemma scan_all_ok msgs n : scan_allf msgs = Ok n -> run_start msgs n.
  Proof. intros H. pose proof (scan_all_spec msgs) as S. rewrite H in S. exact S. Qed.

  Lemma chat_prompt_inv msgs p imgs :
    chat_prompt render count mllama projcount numctx msgs = Ok (p, imgs) ->
    exists n, scan_allf msgs = Ok n /\ p = render (final_list mllama msgs n) /\ imgs = final_images msgs n.
  Proof.
    unfold chat_prompt. destruct (scan_allf msgs) as [n| |]; try discriminate.
    intros [= <- <-]. exists n. repeat split.
  Qed.

  Lemma chat_prompt_ok msgs p imgs :
    chat_prompt render count mllama projcount numctx msgs = Ok (p, imgs) ->
    exists n, run_start msgs n /\ p = render (final_list mllama msgs n) /\ imgs = final_images msgs n.
  Proof. intros (n & Hn%scan_all_ok & H)%chat_prompt_inv. exists n. split; assumption. Qed.

  Lemma run_start_longest msgs n :
    run_start msgs n ->
    (forall k, (S k < length msgs - 1)%nat -> fitsb msgs k = true -> fitsb msgs (S k) = true) ->
    forall k, (k < length msgs - 1)%nat -> fitsb msgs k = true -> (n <= k)%nat.
  Proof.
    intros (Hlt & _ & [->|Hnf] & _) Hmono k Hk Hf; [apply Nat.le_0_l|].
    destruct (le_lt_dec n k) as [Hle|Hgt]; [exact Hle|]. exfalso.
    (* fitting climbs from k up to n - 1 *)
    assert (Hup : forall j, (k <= j)%nat -> (j < n)%nat -> fitsb msgs j = true).
    { induction 1 as [|j _ IH]; intros Hj; [exact Hf | apply Hmono; [|apply IH]; lia]. }
    rewrite Hup in Hnf by lia. discriminate.
  Qed.

  Lemma run_start_only_latest msgs n :
    run_start msgs n -> fitsb msgs (length msgs - 2) = false -> n = (length msgs - 1)%nat.
  Proof.
    intros (Hlt & Hall & _) Hnf.
    destruct (Nat.eq_dec n (length msgs - 1)) as [->|Hne]; [reflexivity|]. exfalso.
    rewrite Hall in Hnf by lia. discriminate.
  Qed.
End Scan.

Lemma nth_error_firstn_lt {A} (l : list A) n j : (j < n)%nat -> nth_error (firstn n l) j = nth_error l j.
Proof.
  revert n j; induction l as [|x l IH]; intros [|n] [|j] H; cbn; try reflexivity; try lia.
  apply IH. lia.
Qed.

Lemma nth_error_cut {A} (l : list A) i x :
  nth_error l i = Some x -> firstn (S i) l = firstn i l ++ [x] /\ skipn i l = x :: skipn (S i) l.
Proof.
  revert i; induction l as [|y l IH]; intros [|i] H; cbn in *; try discriminate.
  - injection H as ->. split; reflexivity.
  - destruct (IH i H) as [-> Hs]. split; [reflexivity | exact Hs].
Qed.

Lemma system_before_kept msgs n j m :
  (j < n)%nat -> nth_error msgs j = Some m -> is_system m = true -> In m (sysmsgs (firstn n msgs)).
Proof.
  intros Hj Hn Hs. apply filter_In. split; [|exact Hs].
  eapply nth_error_In. rewrite nth_error_firstn_lt; eassumption.
Qed.

Lemma candidate_system_eq msgs i m :
  nth_error msgs i = Some m -> is_system m = true -> candidate msgs i = candidate msgs (S i).
Proof.
  intros Hn Hs. unfold candidate, sysmsgs. apply nth_error_cut in Hn as [-> ->]. rewrite filter_app.
  cbn [filter]. rewrite Hs, <- app_assoc. reflexivity.
Qed.

Lemma nimages_cons m l : nimages (m :: l) = nimg m + nimages l.
Proof. reflexivity. Qed.

Lemma nimages_app a b : nimages (a ++ b) = nimages a + nimages b.
Proof. induction a as [|m a IH]; [reflexivity|]. cbn [app]. rewrite !nimages_cons, IH. lia. Qed.

Lemma nimages_concat l : nimages l = N.of_nat (length (concat (map images l))).
Proof. induction l as [|m t IH]; [reflexivity|]. rewrite nimages_cons. cbn [map concat]. rewrite app_length, IH. unfold nimg. lia. Qed.

Lemma fits_system_eq render count mllama projcount numctx msgs i m :
  nth_error msgs i = Some m -> is_system m = true -> images m = [] ->
  fits render count mllama projcount numctx msgs i = fits render count mllama projcount numctx msgs (S i).
Proof.
  intros Hn Hs Hi. unfold fits, ctxlen. rewrite (candidate_system_eq msgs i m Hn Hs).
  apply nth_error_cut in Hn as [_ ->]. rewrite nimages_cons. unfold nimg. rewrite Hi. reflexivity.
Qed.

Lemma rewrite_msg_role mllama id m : role (rewrite_msg mllama id m) = role m.
Proof. unfold rewrite_msg. destruct (place_images _ _ _ _). reflexivity. Qed.

Lemma rewrite_msg_images mllama id m : images (rewrite_msg mllama id m) = images m.
Proof. unfold rewrite_msg. destruct (place_images _ _ _ _). reflexivity. Qed.

Lemma rewrite_msg_noimg mllama id m : images m = [] -> rewrite_msg mllama id m = m.
Proof.
  intros H. unfold rewrite_msg. rewrite H. cbn. rewrite andb_false_r. cbn. destruct m; cbn in *. subst. reflexivity.
Qed.

Lemma place_images_plain imgs : forall id prefix prompt,
  containsb prompt s_img = false -> snd (place_images imgs id prefix prompt) = prompt.
Proof.
  induction imgs as [|d imgs IH]; intros id prefix prompt H; cbn [place_images]; [reflexivity|].
  rewrite H. apply IH, H.
Qed.

Lemma rewrite_msg_keeps_content mllama id m :
  containsb (content m) s_img = false -> Suffix (content m) (content (rewrite_msg mllama id m)).
Proof.
  intros H. unfold rewrite_msg. pose proof (place_images_plain (images m) id [] (content m) H) as Hp.
  destruct (place_images (images m) id [] (content m)) as [prefix prompt]. cbn [snd] in Hp. subst prompt.
  cbn [content]. eexists. rewrite app_assoc. reflexivity.
Qed.

Lemma rewrite_all_length mllama id l : length (rewrite_all mllama id l) = length l.
Proof. revert id; induction l as [|m t IH]; intros id; cbn; [reflexivity | f_equal; apply IH]. Qed.

Lemma rewrite_all_nth mllama id l j m :
  nth_error l j = Some m ->
  nth_error (rewrite_all mllama id l) j = Some (rewrite_msg mllama (id + nimages (firstn j l)) m).
Proof.
  revert id j; induction l as [|x t IH]; intros id [|j] H; cbn [nth_error rewrite_all firstn] in *; try discriminate.
  - injection H as ->. f_equal. f_equal. change (nimages []) with 0. lia.
  - rewrite (IH _ _ H). f_equal. f_equal. rewrite nimages_cons. lia.
Qed.

Lemma rewrite_all_app mllama id a b :
  rewrite_all mllama id (a ++ b) = rewrite_all mllama id a ++ rewrite_all mllama (id + nimages a) b.
Proof.
  revert id; induction a as [|m a IH]; intros id; cbn [app rewrite_all].
  - f_equal. change (nimages []) with 0. lia.
  - f_equal. rewrite IH. f_equal. f_equal. rewrite nimages_cons. lia.
Qed.

Lemma rewrite_all_noimg mllama id l : (forall m, In m l -> images m = []) -> rewrite_all mllama id l = l.
Proof.
  revert id; induction l as [|m t IH]; intros id H; cbn; [reflexivity|].
  rewrite rewrite_msg_noimg by (apply H; left; reflexivity).
  f_equal. apply IH. intros x Hx. apply H. right. exact Hx.
Qed.

Lemma map_role_rewrite_all mllama id l : map role (rewrite_all mllama id l) = map role l.
Proof. revert id; induction l as [|m t IH]; intros id; cbn; [reflexivity|]. rewrite rewrite_msg_role, IH. reflexivity. Qed.

Lemma map_images_rewrite_all mllama id l : map images (rewrite_all mllama id l) = map images l.
Proof. revert id; induction l as [|m t IH]; intros id; cbn; [reflexivity|]. rewrite rewrite_msg_images, IH. reflexivity. Qed.

Lemma final_list_last mllama msgs n :
  (n < length msgs)%nat ->
  exists pre x id, nth_error msgs (length msgs - 1) = Some x /\ final_list mllama msgs n = pre ++ [rewrite_msg mllama id x].
Proof.
  intros H. destruct (@exists_last _ msgs) as (front & x & ->); [intros ->; inversion H|].
  rewrite app_length, Nat.add_sub in *. cbn [length] in H.
  unfold final_list, retained. rewrite skipn_app, rewrite_all_app, nth_error_app2, Nat.sub_diag by reflexivity.
  replace (n - length front)%nat with O by lia. rewrite app_assoc. eexists _, x, _. split; reflexivity.
Qed.

Lemma number_fst id l : map fst (number id l) = map (fun k => id + N.of_nat k) (seq 0 (length l)).
Proof.
  revert id; induction l as [|d t IH]; intros id; cbn; [reflexivity|]. f_equal; [lia|].
  rewrite IH, <- seq_shift, map_map. apply map_ext. intros k. lia.
Qed.

Lemma number_snd id l : map snd (number id l) = l.
Proof. revert id; induction l as [|d t IH]; intros id; cbn; [reflexivity|]. f_equal. apply IH. Qed.

Lemma number_nth id l k :
  nth_error (number id l) k = option_map (fun d => (id + N.of_nat k, d)) (nth_error l k).
Proof.
  revert id k; induction l as [|x t IH]; intros id [|k]; cbn [number nth_error option_map]; try reflexivity.
  - f_equal. f_equal. lia.
  - rewrite IH. destruct (nth_error t k); cbn; [|reflexivity]. f_equal. f_equal. lia.
Qed.

Definition shows (P : msg -> Prop) (render : list msg -> str) : Prop :=
  forall l m, In m l -> P m -> Infix (content m) (render l).

Lemma prompt_shows P render count mllama projcount numctx msgs p imgs :
  shows P render ->
  chat_prompt render count mllama projcount numctx msgs = Ok (p, imgs) ->
  exists n, scan_all render count mllama projcount numctx msgs = Ok n /\
    (forall j m, (j < n)%nat -> nth_error msgs j = Some m -> is_system m = true -> P m -> Infix (content m) p) /\
    (forall j m, nth_error (skipn n msgs) j = Some m ->
       let m' := rewrite_msg mllama (nimages (firstn j (skipn n msgs))) m in P m' -> Infix (content m') p).
Proof.
  intros Hsh (n & Hn & -> & _)%chat_prompt_inv. exists n. split; [exact Hn|]. split.
  - intros j m Hj Hm Hs. apply Hsh, in_or_app. left. exact (system_before_kept msgs n j m Hj Hm Hs).
  - intros j m Hj. apply Hsh, in_or_app. right. eapply nth_error_In.
    unfold retained. rewrite (rewrite_all_nth mllama 0 _ j m Hj). reflexivity.
Qed.

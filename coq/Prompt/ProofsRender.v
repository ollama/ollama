(** The modelled template families print what they are handed; the legacy System/Prompt/Response flow only
    under a guard, since it overwrites pending slots when empty-content or unknown-role messages lie in between. *)
From Coq Require Import List NArith Bool.
From V Require Import Common.Bytes Prompt.Model Prompt.Proofs.
Import ListNotations.
Open Scope N_scope.

Fixpoint ordered_in (cs : list str) (s : str) : Prop :=
  match cs with
  | [] => True
  | c :: cs' => exists a b, s = a ++ c ++ b /\ ordered_in cs' b
  end.

Lemma ordered_in_app_l cs x s : ordered_in cs s -> ordered_in cs (x ++ s).
Proof.
  destruct cs as [|c cs]; [trivial|]. intros (a & b & -> & H). exists (x ++ a), b. split; [|exact H].
  rewrite <- app_assoc. reflexivity.
Qed.

Lemma ordered_in_app_r cs : forall x s, ordered_in cs s -> ordered_in cs (s ++ x).
Proof.
  induction cs as [|c cs IH]; intros x s; [trivial|]. intros (a & b & -> & H). exists a, (b ++ x). split.
  - rewrite <- !app_assoc. reflexivity.
  - apply IH, H.
Qed.

Lemma ordered_in_infix cs : forall s c, ordered_in cs s -> In c cs -> Infix c s.
Proof.
  induction cs as [|c0 cs IH]; intros s c H Hin; [destruct Hin|].
  destruct H as (a & b & -> & H). destruct Hin as [->|Hin].
  - exists a, b. reflexivity.
  - apply Infix_app_l, Infix_app_l. eapply IH; eassumption.
Qed.

Lemma Infix_concat (x : str) l : In x l -> Infix x (concat l).
Proof.
  induction l as [|y l IH]; intros H; [destruct H|]. cbn [concat]. destruct H as [->|H].
  - apply Infix_app_r, Infix_refl.
  - apply Infix_app_l, IH, H.
Qed.

Lemma Infix_nil (s : str) : Infix [] s.
Proof. exists [], s. reflexivity. Qed.

Lemma Infix_mid (p x q : str) : Infix x (p ++ x ++ q).
Proof. exists p, q. reflexivity. Qed.

Lemma nonnil_false {A} (l : list A) : l <> [] -> is_nil l = false.
Proof. destruct l; [congruence | reflexivity]. Qed.

(** {{if .S}}p{{.S}}q{{end}} prints whatever [s] holds *)
Lemma Infix_guarded (x s p q : str) : Infix x s -> Infix x (if is_nil s then [] else p ++ s ++ q).
Proof. destruct s; [trivial|]. intros H. apply Infix_app_l, Infix_app_r, H. Qed.

Lemma collate_cons m t :
  collate (m :: t) = match collate t with
                     | h :: r => if eqb_str (role m) (role h)
                                 then mkMsg (role m) (content m ++ s_nn ++ content h) (images m) :: r
                                 else m :: h :: r
                     | [] => [m]
                     end.
Proof. reflexivity. Qed.

Lemma collate_nil_inv l : collate l = [] -> l = [].
Proof.
  destruct l as [|m t]; [reflexivity|]. rewrite collate_cons. destruct (collate t) as [|h r]; [discriminate|].
  destruct (eqb_str (role m) (role h)); discriminate.
Qed.

Lemma collate_contains l m :
  In m l -> exists h, In h (collate l) /\ role h = role m /\ Infix (content m) (content h).
Proof.
  induction l as [|x t IH]; intros H; [destruct H|]. rewrite collate_cons. destruct H as [->|H].
  - destruct (collate t) as [|h r].
    + exists m. split; [left; reflexivity|]. split; [reflexivity | apply Infix_refl].
    + destruct (eqb_str (role m) (role h)).
      * eexists. split; [left; reflexivity|]. split; [reflexivity|]. cbn [content]. apply Infix_app_r, Infix_refl.
      * exists m. split; [left; reflexivity|]. split; [reflexivity | apply Infix_refl].
  - destruct (IH H) as (h0 & Hin & Hr & Hi). destruct (collate t) as [|h r]; [destruct Hin|].
    destruct (eqb_str (role x) (role h)) eqn:E.
    + destruct Hin as [<-|Hin].
      * eexists. split; [left; reflexivity|]. cbn [role content]. split.
        -- apply eqb_str_spec in E. congruence.
        -- apply Infix_app_l, Infix_app_l, Hi.
      * exists h0. split; [right; exact Hin|]. split; assumption.
    + exists h0. split; [right; exact Hin|]. split; assumption.
Qed.

(** [prev]: the role before [l], [None] at the start *)
Fixpoint alt (prev : option str) (l : list msg) : Prop :=
  match l with
  | [] => True
  | m :: t => prev <> Some (role m) /\ alt (Some (role m)) t
  end.

Lemma alt_weaken p q l : (forall m t, l = m :: t -> q <> Some (role m)) -> alt p l -> alt q l.
Proof. destruct l as [|m t]; [trivial|]. intros H [_ Ht]. split; [eapply H; reflexivity | exact Ht]. Qed.

Lemma collate_alt l : alt None (collate l).
Proof.
  induction l as [|m t IH]; [exact I|]. rewrite collate_cons. destruct (collate t) as [|h r].
  - split; [discriminate | exact I].
  - destruct IH as [_ Hr]. destruct (eqb_str (role m) (role h)) eqn:E.
    + apply eqb_str_spec in E. split; [discriminate|]. cbn [role]. rewrite E. exact Hr.
    + split; [discriminate|]. split; [|exact Hr]. intros [= Heq]. apply eqb_str_spec in Heq. congruence.
Qed.

Section RangeFamily.
  Variables pre mid post fin : str.
  Notation rm := (range_msg pre mid post).

  (** a merge prepends to the content of the head of [collate t]: the induction starts the string there *)
  Lemma range_shape l : forall h r,
    collate l = h :: r -> ordered_in (map content l) (content h ++ post ++ concat (map rm r)).
  Proof.
    induction l as [|m t IH]; intros h r E; [discriminate|]. rewrite collate_cons in E.
    destruct (collate t) as [|h0 r0] eqn:Et.
    - apply collate_nil_inv in Et. subst t. injection E as <- <-.
      exists [], (post ++ concat (map rm [])). split; [reflexivity | exact I].
    - specialize (IH h0 r0 eq_refl). destruct (eqb_str (role m) (role h0)); injection E as <- <-.
      + cbn [content map ordered_in]. exists [], (s_nn ++ content h0 ++ post ++ concat (map rm r0)). split.
        * rewrite <- !app_assoc. reflexivity.
        * apply ordered_in_app_l, IH.
      + cbn [map ordered_in concat]. exists [], (post ++ rm h0 ++ concat (map rm r0)). split; [reflexivity|].
        apply ordered_in_app_l. unfold range_msg at 1. rewrite <- !app_assoc. do 3 apply ordered_in_app_l. exact IH.
  Qed.

  Lemma range_ordered l : ordered_in (map content l) (render_range pre mid post fin l).
  Proof.
    unfold render_range. destruct (collate l) as [|h r] eqn:E.
    - apply collate_nil_inv in E. subst l. exact I.
    - cbn [map concat]. apply ordered_in_app_r. unfold range_msg at 1. rewrite <- !app_assoc.
      do 3 apply ordered_in_app_l. apply range_shape, E.
  Qed.

  Lemma range_shows : shows (fun _ => True) (render_range pre mid post fin).
  Proof. intros l m H _. eapply ordered_in_infix; [apply range_ordered | apply in_map, H]. Qed.
End RangeFamily.

Lemma join_nn_contains (x : str) l : In x l -> Infix x (join_nn l).
Proof.
  induction l as [|y l IH]; intros H; [destruct H|]. destruct l as [|z l].
  - destruct H as [->|[]]. apply Infix_refl.
  - change (join_nn (y :: z :: l)) with (y ++ s_nn ++ join_nn (z :: l)). destruct H as [->|H].
    + apply Infix_app_r, Infix_refl.
    + apply Infix_app_l, Infix_app_l, IH, H.
Qed.

Definition std_role (r : str) : Prop := r = s_system \/ r = s_user \/ r = s_assistant.

Lemma std_role_system m : is_system m = true -> std_role (role m).
Proof. unfold is_system. intros H. apply eqb_str_spec in H. left. exact H. Qed.

Lemma sysrange_shows a b c d e f g : shows (fun m => std_role (role m)) (render_sysrange a b c d e f g).
Proof.
  intros l m Hin Hr. unfold render_sysrange. destruct Hr as [Hr|Hr].
  - (* system: printed through .System *)
    apply Infix_app_r, Infix_guarded, join_nn_contains, in_map, filter_In. split; [exact Hin|].
    unfold is_system. rewrite Hr. reflexivity.
  - (* user, assistant: through their collated message *)
    apply Infix_app_l, Infix_app_r.
    destruct (collate_contains l m Hin) as (h & Hh & Hrole & Hi).
    eapply Infix_trans; [exact Hi|]. eapply Infix_trans; [|apply Infix_concat, in_map, Hh].
    unfold sysrange_msg. rewrite Hrole. destruct Hr as [->| ->]; cbn; apply Infix_mid.
Qed.

Lemma legacy_step_system ex sy pr rs buf m :
  role m = s_system ->
  legacy_step ex (sy, pr, rs, buf) m =
  (content m, [], [], if is_nil pr && is_nil rs then buf else buf ++ ex sy pr rs).
Proof. intros Hr. unfold legacy_step. rewrite Hr. destruct pr, rs; reflexivity. Qed.

Lemma legacy_step_user ex sy pr rs buf m :
  role m = s_user ->
  legacy_step ex (sy, pr, rs, buf) m =
  (if is_nil rs then sy else [], content m, [], if is_nil rs then buf else buf ++ ex sy pr rs).
Proof. intros Hr. unfold legacy_step. rewrite Hr. destruct rs; reflexivity. Qed.

Lemma legacy_step_assistant ex sy pr rs buf m :
  role m = s_assistant -> legacy_step ex (sy, pr, rs, buf) m = (sy, pr, content m, buf).
Proof. intros Hr. unfold legacy_step. rewrite Hr. reflexivity. Qed.

Section LegacyFamily.
  Variable respif : bool.
  Variables a b c d e f : str.
  Notation ex := (legacy_exec respif a b c d e f).

  Lemma exec_shows final sy pr rs x : x = sy \/ x = pr \/ x = rs -> Infix x (ex final sy pr rs).
  Proof.
    unfold legacy_exec. intros [->|[->| ->]].
    - apply Infix_app_r, Infix_guarded, Infix_refl.
    - apply Infix_app_l, Infix_app_r, Infix_guarded, Infix_refl.
    - do 2 apply Infix_app_l. destruct rs; [apply Infix_nil|]. cbn [is_nil]. rewrite andb_false_r. apply Infix_mid.
  Qed.

  Definition holds (st : lstate) (x : str) : Prop :=
    let '(sy, pr, rs, buf) := st in Infix x buf \/ x = sy \/ x = pr \/ x = rs.

  (** a slot that is filled while the later slots are empty was filled by the previous message [prev] *)
  Definition slots_inv (prev : option str) (st : lstate) : Prop :=
    let '(sy, pr, rs, _) := st in
    (prev <> Some s_assistant -> rs = []) /\
    (prev <> Some s_user -> rs = [] -> pr = []) /\
    (prev <> Some s_system -> pr = [] -> rs = [] -> sy = []).

  Definition legacy_ok (m : msg) : Prop := std_role (role m) /\ content m <> [].

  Lemma legacy_step_inv prev st m :
    prev <> Some (role m) -> legacy_ok m -> slots_inv prev st ->
    let st' := legacy_step (ex false) st m in
    slots_inv (Some (role m)) st' /\ holds st' (content m) /\ forall x, x <> [] -> holds st x -> holds st' x.
  Proof.
    intros Hprev [Hr Hc] Hinv. destruct st as [[[sy pr] rs] buf]. destruct Hinv as (Irs & Ipr & Isy).
    (* a flush prints whatever the state holds *)
    assert (Hbuf : forall x, holds (sy, pr, rs, buf) x -> Infix x (buf ++ ex false sy pr rs)).
    { intros x [H|H]; [apply Infix_app_r, H | apply Infix_app_l, exec_shows, H]. }
    cbv zeta. destruct Hr as [Hr|[Hr|Hr]]; rewrite Hr in Hprev |- *.
    - rewrite (legacy_step_system _ _ _ _ _ _ Hr). split; [repeat split; congruence|].
      split; [right; left; reflexivity|]. intros x Hx Hs.
      destruct pr, rs; cbn [is_nil andb]; try (left; apply Hbuf, Hs).
      (* no flush: only the system slot is overwritten, and it was empty *)
      destruct Hs as [Hs|[->|[->| ->]]]; [left; exact Hs | | contradiction..].
      contradiction Hx. apply Isy; [exact Hprev | reflexivity..].
    - rewrite (legacy_step_user _ _ _ _ _ _ Hr). split; [repeat split; congruence|].
      split; [right; right; left; reflexivity|]. intros x Hx Hs.
      destruct rs; cbn [is_nil]; [|left; apply Hbuf, Hs].
      (* no flush: only the prompt slot is overwritten, and it was empty *)
      destruct Hs as [Hs|[->|[->| ->]]]; [left; exact Hs | right; left; reflexivity | | contradiction].
      contradiction Hx. apply Ipr; [exact Hprev | reflexivity].
    - rewrite (legacy_step_assistant _ _ _ _ _ _ Hr). split; [repeat split; congruence|].
      split; [right; right; right; reflexivity|]. intros x Hx Hs.
      destruct Hs as [Hs|[->|[->| ->]]]; [left; exact Hs | right; left; reflexivity | right; right; left; reflexivity |].
      contradiction Hx. apply Irs, Hprev.
  Qed.

  Lemma legacy_fold_inv cl : forall prev st,
    alt prev cl -> Forall legacy_ok cl -> slots_inv prev st ->
    let st' := fold_left (legacy_step (ex false)) cl st in
    (forall x, x <> [] -> holds st x -> holds st' x) /\ (forall h, In h cl -> holds st' (content h)).
  Proof.
    induction cl as [|m t IH]; intros prev st Halt Hgood Hinv; cbn [fold_left].
    - split; [intros x _ H; exact H | intros h []].
    - destruct Halt as [Hp Ht].
      destruct (legacy_step_inv prev st m Hp (Forall_inv Hgood) Hinv) as (Hinv' & Hnew & Hkeep).
      destruct (IH _ _ Ht (Forall_inv_tail Hgood) Hinv') as [Hkeep' Hall]. split.
      + intros x Hx Hs. apply Hkeep', Hkeep; assumption.
      + intros h [<-|Hh]; [apply Hkeep'; [apply (Forall_inv Hgood) | exact Hnew] | apply Hall, Hh].
  Qed.

  Lemma collate_ok l : Forall legacy_ok l -> Forall legacy_ok (collate l).
  Proof.
    induction 1 as [|m t Hm _ IH]; [constructor|]. rewrite collate_cons.
    destruct IH as [|h r Hh Hgr]; [constructor; [exact Hm | constructor]|].
    destruct (eqb_str (role m) (role h)).
    - constructor; [|exact Hgr]. split; [apply Hm|]. cbn [content].
      destruct Hm as [_ Hc]. destruct (content m); [congruence | discriminate].
    - repeat (constructor; [assumption|]). exact Hgr.
  Qed.

  Lemma legacy_contains l m :
    Forall legacy_ok l -> In m l -> Infix (content m) (render_legacy respif a b c d e f l).
  Proof.
    intros Hg Hin. destruct (collate_contains l m Hin) as (h & Hh & _ & Hi).
    eapply Infix_trans; [exact Hi|]. unfold render_legacy.
    destruct (legacy_fold_inv (collate l) None ([], [], [], []) (collate_alt l) (collate_ok l Hg)) as [_ H];
      [repeat split|].
    specialize (H h Hh). destruct (fold_left _ (collate l) _) as [[[sy pr] rs] buf].
    destruct H as [H|H]; [apply Infix_app_r, H | apply Infix_app_l, exec_shows, H].
  Qed.
End LegacyFamily.

(** [system "S", user "", system "T"] *)
Definition legacy_witness : list msg :=
  [mkMsg s_system [83] []; mkMsg s_user [] []; mkMsg s_system [84] []].

Lemma legacy_loses :
  ~ Infix [83] (render_legacy false [] [] [] [] [] [] legacy_witness).
Proof. apply containsb_false. vm_compute. reflexivity. Qed.

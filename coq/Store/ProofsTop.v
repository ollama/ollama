(** * Store/ProofsTop.v — histories, crashes, start-up prune: the statements behind Properties_C04 / Properties_C12 *)
From Coq Require Import List NArith Bool Arith Lia.
From V Require Import Common.Bytes Store.Fs Store.Ops Store.ProofsAlist Store.ProofsNames Store.ProofsInv Store.ProofsMore Store.ProofsOps.
Import ListNotations.
Open Scope N_scope.

(** what can happen to a store: an operation runs to completion, or the server is killed after the first [k]
    effects of an operation and restarted *)
Inductive event := EvOp (o : op) | EvCrash (o : op) (k : nat).

Definition ev_op (e : event) : op := match e with EvOp o | EvCrash o _ => o end.

Definition op_name (o : op) : option name :=
  match o with
  | OCreate q => Some (cr_name q)
  | OCopy _ dst => Some dst
  | ODelete n => Some n
  | OPull n _ _ => Some n
  | OBlob _ _ | OStartup => None
  end.

Section Top.
  Variable size_of : N -> N.
  Notation Inv := (Inv size_of).
  Notation exec := (exec size_of).
  Notation crash := (crash size_of).
  Notation recover := (recover size_of).
  Notation op_guard := (op_guard size_of).

  Definition ev_step (s : store) (e : event) : store :=
    match e with
    | EvOp o => exec s o
    | EvCrash o k => recover (crash s o k)
    end.
  Definition ev_run (s : store) (es : list event) : store := fold_left ev_step es s.

  Fixpoint guards (s : store) (es : list event) : Prop :=
    match es with
    | [] => True
    | e :: t => op_guard s (ev_op e) = true /\ guards (ev_step s e) t
    end.

  Fixpoint op_guards (s : store) (os : list op) : Prop :=
    match os with
    | [] => True
    | o :: t => op_guard s o = true /\ op_guards (exec s o) t
    end.

  Lemma exec_inv s o : Inv s -> op_guard s o = true -> Inv (exec s o).
  Proof. intros HI Hg. unfold Ops.exec. eapply Rok_inv; [exact HI | apply op_run_ok; assumption]. Qed.

  Lemma effects_ok s o : Inv s -> op_guard s o = true -> ok_trace size_of (op_target s o) s (effects size_of s o).
  Proof. intros HI Hg. apply (op_run_ok size_of s o HI Hg). Qed.

  Lemma exec_effects s o : Inv s -> op_guard s o = true -> exec s o = apply_list s (effects size_of s o).
  Proof. intros HI Hg. apply (op_run_ok size_of s o HI Hg). Qed.

  Lemma crash_inv s o k : Inv s -> op_guard s o = true -> Inv (crash s o k).
  Proof.
    intros HI Hg. unfold Ops.crash. eapply ok_trace_inv; [exact HI | apply ok_trace_firstn, effects_ok; assumption].
  Qed.

  Lemma recover_inv s : Inv s -> Inv (recover s).
  Proof. intros HI. unfold Ops.recover. apply exec_inv; [exact HI | reflexivity]. Qed.

  Lemma target_eqfold s o t n : op_target s o = Some t -> op_name o = Some n -> name_eqfold t n = true.
  Proof.
    destruct o; cbn; try discriminate; intros [= <-] [= <-]; apply get_existing_eqfold.
  Qed.

  Lemma prefix_frame s o k n :
    Inv s -> op_guard s o = true -> op_target s o <> Some n ->
    mget n (crash s o k) = mget n s /\
    (forall m l, listed s n m -> In l (all_layers m) -> bget (dhex (ldg l)) (crash s o k) = bget (dhex (ldg l)) s).
  Proof.
    intros HI Hg Hn. assert (Hok := ok_trace_firstn size_of _ _ _ k (effects_ok s o HI Hg)). unfold Ops.crash. split.
    - eapply ok_trace_mans; eassumption.
    - intros m l Hl Hin. eapply ok_trace_blob; eassumption.
  Qed.

  Lemma exec_frame s o n :
    Inv s -> op_guard s o = true -> op_target s o <> Some n ->
    mget n (exec s o) = mget n s /\
    (forall m l, listed s n m -> In l (all_layers m) -> bget (dhex (ldg l)) (exec s o) = bget (dhex (ldg l)) s).
  Proof.
    intros HI Hg. rewrite (exec_effects s o HI Hg), <- (firstn_all (effects size_of s o)). apply prefix_frame; assumption.
  Qed.

  Lemma recover_frame s n :
    Inv s ->
    mget n (recover s) = mget n s /\
    (forall m l, listed s n m -> In l (all_layers m) -> bget (dhex (ldg l)) (recover s) = bget (dhex (ldg l)) s).
  Proof.
    intros HI. unfold Ops.recover. apply (exec_frame s OStartup n HI eq_refl). cbn. discriminate.
  Qed.

  Lemma recover_listed s n m : Inv s -> (listed (recover s) n m <-> listed s n m).
  Proof.
    intros HI. unfold Ops.recover, Ops.exec. apply (Rok_listed size_of None s _ n m); [|discriminate].
    apply (op_run_ok size_of s OStartup HI eq_refl).
  Qed.

  Lemma ev_step_inv s e : Inv s -> op_guard s (ev_op e) = true -> Inv (ev_step s e).
  Proof.
    intros HI Hg. destruct e as [o|o k]; cbn in *; [apply exec_inv; assumption | apply recover_inv, crash_inv; assumption].
  Qed.

  Lemma ev_run_inv es : forall s, Inv s -> guards s es -> Inv (ev_run s es).
  Proof.
    induction es as [|e es IH]; intros s HI Hg; cbn in *; [exact HI|].
    destruct Hg as [H1 H2]. apply IH; [apply ev_step_inv; assumption | exact H2].
  Qed.

  Lemma exec_all_ind (P : store -> Prop) (Q : op -> Prop) :
    (forall s o, Inv s -> op_guard s o = true -> Q o -> P s -> P (exec s o)) ->
    forall os s, Inv s -> op_guards s os -> (forall o, In o os -> Q o) -> P s -> P (exec_all size_of s os).
  Proof.
    intros Hstep. induction os as [|o os IH]; intros s HI Hg HQ HP; cbn in *; [exact HP|].
    destruct Hg as [H1 H2]. apply IH; [apply exec_inv; assumption | exact H2 | auto | apply Hstep; auto].
  Qed.

  Lemma exec_all_inv os : forall s, Inv s -> op_guards s os -> Inv (exec_all size_of s os).
  Proof. intros s HI Hg. apply (exec_all_ind Inv (fun _ => True)); auto. intros; apply exec_inv; assumption. Qed.

  Lemma history_inv os : op_guards empty_store os -> Inv (exec_all size_of empty_store os).
  Proof. apply exec_all_inv, Inv_empty. Qed.

  Lemma rm_unused_mans r d : mans (rs (rm_unused r d)) = mans (rs r) /\ debris (rs (rm_unused r d)) = debris (rs r).
  Proof.
    unfold rm_unused. destruct (referenced (rs r) d); [auto|]. destruct (bget (dhex d) (rs r)); auto.
  Qed.

  Lemma rm_unused_blob r d h :
    bget h (rs (rm_unused r d)) = if (dhex d =? h) && negb (referenced (rs r) d) then None else bget h (rs r).
  Proof.
    unfold rm_unused. destruct (referenced (rs r) d) eqn:Er; cbn [negb]; [rewrite andb_false_r; reflexivity|]. rewrite andb_true_r.
    destruct (dhex d =? h) eqn:Eh.
    - apply N.eqb_eq in Eh. subst h. destruct (bget (dhex d) (rs r)) eqn:Eb; [|exact Eb]. unfold bget; cbn. apply bget_adel_same.
    - apply N.eqb_neq in Eh. destruct (bget (dhex d) (rs r)); [|reflexivity]. unfold bget; cbn. apply bget_adel_other. congruence.
  Qed.

  Lemma delete_unused_spec dm : forall r,
    mans (rs (delete_unused r dm)) = mans (rs r) /\ debris (rs (delete_unused r dm)) = debris (rs r) /\
    forall h, bget h (rs (delete_unused r dm)) =
              if existsb (fun d => (dhex d =? h) && negb (referenced (rs r) d)) dm then None else bget h (rs r).
  Proof.
    induction dm as [|d dm IH]; intros r; rewrite delete_unused_fold; cbn [fold_left existsb]; [auto|].
    rewrite <- delete_unused_fold. destruct (IH (rm_unused r d)) as [H1 [H2 H3]]. destruct (rm_unused_mans r d) as [Hm Hd].
    split; [congruence|]. split; [congruence|]. intros h. rewrite H3, rm_unused_blob.
    assert (He : existsb (fun d0 => (dhex d0 =? h) && negb (referenced (rs (rm_unused r d)) d0)) dm =
                 existsb (fun d0 => (dhex d0 =? h) && negb (referenced (rs r) d0)) dm).
    { clear - Hm. revert Hm. generalize (rs (rm_unused r d)) as s1. intros s1 Hm. induction dm as [|x dm IHd]; cbn; [reflexivity|].
      rewrite (referenced_mans (rs r) s1 x Hm), IHd. reflexivity. }
    rewrite He.
    destruct ((dhex d =? h) && negb (referenced (rs r) d)) eqn:Ey;
      destruct (existsb (fun d0 => (dhex d0 =? h) && negb (referenced (rs r) d0)) dm) eqn:Ex; cbn [orb]; reflexivity.
  Qed.

  Lemma rm_debris_all ds : forall r,
    debris (rs r) = ds ->
    let r' := fold_left (fun r d => emit r (ERmDebris d)) ds r in
    debris (rs r') = [] /\ mans (rs r') = mans (rs r) /\ blobs (rs r') = blobs (rs r).
  Proof.
    induction ds as [|d ds IH]; intros r Hd; cbn; [auto|].
    assert (Hd' : debris (rs (emit r (ERmDebris d))) = ds).
    { cbn. rewrite Hd. cbn. rewrite (proj2 (dfile_eqb_spec d d) eq_refl). reflexivity. }
    destruct (IH _ Hd') as [H1 [H2 H3]]. cbn in H2, H3. auto.
  Qed.

  Lemma fix_blobs_mans r : mans (rs (fix_blobs r)) = mans (rs r).
  Proof.
    unfold fix_blobs. generalize (debris (rs r)) as ds. intros ds. revert r.
    induction ds as [|d ds IH]; intros r; cbn [fold_left]; [reflexivity|]. rewrite IH. destruct d; reflexivity.
  Qed.

  Lemma existsb_keys (f : digest -> bool) h bl :
    existsb (fun d => (dhex d =? h) && f d) (map (fun p : N * N => MkDigest true (fst p)) bl) =
    match aget N.eqb h bl with Some _ => f (MkDigest true h) | None => false end.
  Proof.
    induction bl as [|[k v] t IH]; cbn; [reflexivity|]. rewrite IH, (N.eqb_sym h k). destruct (N.eqb_spec k h) as [->|Hn]; [|reflexivity].
    cbn. destruct (aget N.eqb h t); [apply orb_diag | apply orb_false_r].
  Qed.

  (** PruneLayers with every manifest readable *)
  Lemma startup_rest_spec r :
    has_unreadable (rs r) = false ->
    debris (rs (startup_rest r)) = [] /\ mans (rs (startup_rest r)) = mans (rs r) /\
    (forall h, bget h (rs (startup_rest r)) = if referenced (rs r) (MkDigest true h) then bget h (rs r) else None).
  Proof.
    intros Hu. unfold startup_rest. rewrite Hu.
    destruct (rm_debris_all (debris (rs r)) r eq_refl) as [Hd [Hm Hb]].
    set (r1 := fold_left (fun r d => emit r (ERmDebris d)) (debris (rs r)) r) in *.
    destruct (delete_unused_spec (map (fun p : N * N => MkDigest true (fst p)) (blobs (rs r))) r1) as [Hm2 [Hd2 Hb2]].
    split; [congruence|]. split; [congruence|]. intros h. rewrite Hb2, existsb_keys, (referenced_mans _ _ _ Hm). unfold bget. rewrite Hb.
    destruct (aget N.eqb h (blobs (rs r))), (referenced (rs r) (MkDigest true h)); reflexivity.
  Qed.

  Lemma startup_exact s :
    Inv s -> has_unreadable s = false ->
    let s' := recover s in
    debris s' = [] /\ mans s' = mans s /\ (forall h, (exists c, bget h s' = Some c) <-> referenced_hex s' h = true).
  Proof.
    intros HI Hu s'. assert (HI' : Inv s') by (apply recover_inv, HI).
    assert (Hm0 := fix_blobs_mans (init s)). cbn [init rs] in Hm0.
    destruct (startup_rest_spec (fix_blobs (init s))) as [Hd [Hm Hb]]; [rewrite (has_unreadable_mans _ _ Hm0); exact Hu|].
    fold (op_startup s) in Hd, Hm, Hb. change (rs (startup_rest (fix_blobs (init s)))) with s' in Hd, Hm, Hb.
    split; [exact Hd|]. split; [congruence|]. intros h. split.
    - intros [c Hc]. rewrite Hb in Hc. destruct (referenced _ (MkDigest true h)) eqn:Er; [|discriminate].
      apply referenced_to_hex in Er. rewrite (referenced_hex_mans _ _ h Hm). exact Er.
    - intros Hr. exists h. apply (referenced_hex_present size_of _ _ HI' Hr).
  Qed.
End Top.

(** * Store/ProofsRedo2.v — the manifest update of an operation ([op_mid]), the manifests at every crash point, and the
    repetition of an interrupted operation *)
From Coq Require Import List NArith Bool Arith Lia.
From V Require Import Common.Bytes Store.Fs Store.Ops Store.ProofsAlist Store.ProofsNames Store.ProofsInv Store.ProofsMore Store.ProofsOps Store.ProofsTop Store.ProofsRedo.
Import ListNotations.
Open Scope N_scope.

Definition oname_eqb (a b : option name) : bool :=
  match a, b with Some x, Some y => name_eqb x y | None, None => true | _, _ => false end.

Lemma Forall_firstn {A} (P : A -> Prop) k l : Forall P l -> Forall P (firstn k l).
Proof. intros H. rewrite <- (firstn_skipn k l) in H. apply Forall_app in H. apply H. Qed.

Lemma apply_mans_congr es : forall s s', mans s = mans s' -> mans (apply_list s es) = mans (apply_list s' es).
Proof.
  induction es as [|e es IH]; intros s s' H; [exact H|]. rewrite !apply_list_cons. apply IH.
  destruct e; cbn; rewrite H; reflexivity.
Qed.

Lemma split_mans s es1 mid es2 :
  Forall blob_only es1 -> Forall blob_only es2 -> mans (apply_list s (es1 ++ mid ++ es2)) = mans (apply_list s mid).
Proof.
  intros H1 H2. rewrite app_assoc, apply_list_app, (blob_only_apply_mans es2), apply_list_app by exact H2.
  apply apply_mans_congr, blob_only_apply_mans, H1.
Qed.

Lemma split_prefix_mans s es1 mid es2 k :
  Forall blob_only es1 -> Forall blob_only es2 ->
  exists j, mans (apply_list s (firstn k (es1 ++ mid ++ es2))) = mans (apply_list s (firstn j mid)).
Proof.
  intros H1 H2. rewrite !firstn_app. exists (k - length es1)%nat.
  apply split_mans; apply Forall_firstn; assumption.
Qed.

Lemma mget_write t ms mns n :
  aget name_eqb n (aset name_eqb t ms (aset name_eqb t Unreadable mns)) = if name_eqb n t then Some ms else aget name_eqb n mns.
Proof.
  destruct (name_eqb n t) eqn:E.
  - apply name_eqb_spec in E. subst n. apply mget_aset_same.
  - assert (n <> t) by (intros ->; rewrite name_eqb_refl in E; discriminate). rewrite !mget_aset_other by assumption. reflexivity.
Qed.

Section Redo2.
  Variable size_of : N -> N.
  Notation Inv := (Inv size_of).
  Notation exec := (exec size_of).
  Notation crash := (crash size_of).
  Notation recover := (recover size_of).
  Notation op_guard := (op_guard size_of).
  Notation pull_total := (pull_total size_of).

  (** the one manifest update of an operation *)
  Definition op_mid (s : store) (o : op) : list effect :=
    match o with
    | OCreate q =>
        match snd (create_build size_of (layer_from_layer size_of) false s q) with
        | Some (m, _) => [ETruncMan (get_existing (readable_names s) (cr_name q)); EWriteMan (get_existing (readable_names s) (cr_name q)) (Readable m)]
        | None => []
        end
    | OCopy a b =>
        if name_eqb (get_existing (readable_names s) a) (get_existing (readable_names s) b) then []
        else match mget (get_existing (readable_names s) a) s with
             | Some ms => [ETruncMan (get_existing (readable_names s) b); EWriteMan (get_existing (readable_names s) b) ms]
             | None => []
             end
    | ODelete n =>
        match mget (get_existing (readable_names s) n) s with
        | Some (Readable _) => [ERmMan (get_existing (readable_names s) n)]
        | _ => []
        end
    | OPull n (Some v) ord =>
        match snd (op_run size_of s o) with
        | ROk => [ETruncMan (get_existing (readable_names s) n); EWriteMan (get_existing (readable_names s) n) (Readable (sv_manifest v))]
        | _ => []
        end
    | _ => []
    end.

  Lemma op_mid_eq s o : op_mid s o = mid_of size_of s o.
  Proof. reflexivity. Qed.

  Theorem op_run_mid s o :
    Inv s -> op_guard s o = true -> Mid size_of (op_target s o) s (op_mid s o) (fst (op_run size_of s o)).
  Proof. rewrite op_mid_eq. apply op_run_shape. Qed.

  Lemma op_run_split s o :
    Inv s -> op_guard s o = true ->
    exists es1 es2, Forall blob_only es1 /\ Forall blob_only es2 /\
      effects size_of s o = es1 ++ op_mid s o ++ es2 /\ exec s o = apply_list s (es1 ++ op_mid s o ++ es2).
  Proof.
    intros HI Hg. destruct (Mid_split size_of _ _ _ _ (op_run_mid s o HI Hg)) as [es1 [es2 [E [H1 H2]]]].
    exists es1, es2. unfold effects, Ops.exec. rewrite E, emits_rt, emits_rs. auto.
  Qed.

  Lemma exec_mans s o : Inv s -> op_guard s o = true -> mans (exec s o) = mans (apply_list s (op_mid s o)).
  Proof. intros HI Hg. destruct (op_run_split s o HI Hg) as [es1 [es2 [H1 [H2 [_ ->]]]]]. apply split_mans; assumption. Qed.

  Lemma op_mid_cases s o :
    op_mid s o = [] \/
    exists t, op_target s o = Some t /\ (op_mid s o = [ERmMan t] \/ exists ms, op_mid s o = [ETruncMan t; EWriteMan t ms]).
  Proof.
    destruct o as [d c|q|a b|n|n [v|] ord|]; cbn [op_mid op_target]; auto.
    - destruct (snd (create_build _ _ _ s q)) as [[m cl]|]; [right|auto]. eauto 7.
    - destruct (name_eqb _ _); [auto|]. destruct (mget _ s); [right|auto]. eauto 7.
    - destruct (mget _ s) as [[m|]|]; [right|auto|auto]. eauto 7.
    - destruct (snd (op_run _ s _)); [right|auto|auto]. eauto 7.
  Qed.

  Inductive crash_kind (s : store) (o : op) (c : store) : Prop :=
  | CkStart : mans c = mans s -> crash_kind s o c
  | CkTorn t ms : op_mid s o = [ETruncMan t; EWriteMan t ms] -> mans c = aset name_eqb t Unreadable (mans s) -> crash_kind s o c
  | CkEnd : mans c = mans (exec s o) -> crash_kind s o c.

  Lemma crash_kinds s o k : Inv s -> op_guard s o = true -> crash_kind s o (crash s o k).
  Proof.
    intros HI Hg. assert (Hend := exec_mans s o HI Hg). destruct (op_run_split s o HI Hg) as [es1 [es2 [H1 [H2 [E _]]]]].
    unfold Ops.crash. rewrite E. destruct (split_prefix_mans s es1 (op_mid s o) es2 k H1 H2) as [j Hj].
    destruct (op_mid_cases s o) as [Em | [t [_ [Em | [ms Em]]]]]; rewrite Em in *.
    - apply CkStart. rewrite Hj, firstn_nil. reflexivity.
    - destruct j as [|j]; [apply CkStart; exact Hj | apply CkEnd]. rewrite Hend, Hj. destruct j; reflexivity.
    - destruct j as [|[|j]]; [apply CkStart; exact Hj | apply (CkTorn s o _ t ms Em); exact Hj | apply CkEnd].
      rewrite Hend, Hj. destruct j; reflexivity.
  Qed.

  Lemma nowrite_mans s o k : Inv s -> op_guard s o = true -> op_mid s o = [] -> mans (crash s o k) = mans s.
  Proof.
    intros HI Hg E0. destruct (crash_kinds s o k HI Hg) as [Hm|t ms Em _|Hm]; [exact Hm | congruence|].
    rewrite Hm, (exec_mans s o HI Hg), E0. reflexivity.
  Qed.

  (** only a copy writes a manifest it has read, and it has read it *)
  Lemma op_mid_readable s o t ms : has_unreadable s = false -> op_mid s o = [ETruncMan t; EWriteMan t ms] -> ms <> Unreadable.
  Proof.
    intros Hu Em ->. destruct o as [d c|q|a b|n|n [v|] ord|]; cbn [op_mid] in Em; try discriminate.
    - destruct (snd (create_build _ _ _ s q)) as [[m cl]|]; discriminate.
    - destruct (name_eqb _ _); [discriminate|]. destruct (mget _ s) as [[m|]|] eqn:Ea; try discriminate. exact (has_unreadable_mget s _ Hu Ea).
    - destruct (mget _ s) as [[m|]|]; discriminate.
    - destruct (snd (op_run _ s _)); discriminate.
  Qed.

  (** the repeated create builds the same manifest if its source is what it was *)
  Definition base_same (s s1 : store) (q : create_req) : bool :=
    match cr_base q with
    | BFiles d _ _ _ => Bool.eqb (is_some (bget (dhex d) s1)) (is_some (bget (dhex d) s))
    | BFrom src => negb (name_eqb src (get_existing (readable_names s) (cr_name q)))
    end.

  Lemma build_same s s1 q :
    Inv s -> Inv s1 -> base_same s s1 q = true ->
    (forall x, x <> get_existing (readable_names s) (cr_name q) -> mget x s1 = mget x s) ->
    snd (create_build size_of (layer_from_layer size_of) false s1 q) = snd (create_build size_of (layer_from_layer size_of) false s q).
  Proof.
    intros HI HI1 Hb Hframe. rewrite !(create_build_snd size_of). f_equal. unfold base_same in Hb.
    destruct (cr_base q) as [d parts fail det|src].
    - cbn [pure_base].
      destruct (bget (dhex d) s1) as [c1|] eqn:E1, (bget (dhex d) s) as [c0|] eqn:E0; cbn in Hb; try discriminate; [|reflexivity].
      rewrite (bget_intact size_of s1 _ _ HI1 E1), (bget_intact size_of s _ _ HI E0). reflexivity.
    - apply negb_true_iff in Hb.
      assert (Hsrc : src <> get_existing (readable_names s) (cr_name q)) by (intros ->; rewrite name_eqb_refl in Hb; discriminate).
      rewrite !(base_from_pure size_of) by assumption. rewrite (Hframe src Hsrc). reflexivity.
  Qed.

  (** at a torn crash point the repeated request must canonicalise to the same target (getExistingName does not see the
      torn file); a create must find its base as before and meet its guard again; a pull must get every layer again *)
  Definition redo_guard (s : store) (o : op) (k : nat) : bool :=
    let c := crash s o k in
    let s1 := recover c in
    (if has_unreadable c then oname_eqb (op_target s1 o) (op_target s o) else true) &&
    match o with
    | ODelete _ | OCopy _ _ => true
    | OCreate q => base_same s s1 q && op_guard s1 o
    | OPull _ (Some v) _ => (length (sv_contents v) =? length (all_layers (sv_manifest v)))%nat && forallb is_some (sv_contents v)
    | OPull _ None _ => true
    | OBlob _ _ | OStartup => false
    end.

  Lemma frame_s1 s o k x :
    Inv s -> op_guard s o = true -> op_target s o <> Some x -> mget x (recover (crash s o k)) = mget x s.
  Proof.
    intros HI Hg Hn. destruct (prefix_frame size_of s o k x HI Hg Hn) as [P1 _].
    destruct (recover_frame size_of (crash s o k) x (crash_inv size_of s o k HI Hg)) as [R1 _]. congruence.
  Qed.

  (** [s2]: any store with the manifests of the crash store (the restarted store, or that after the upload was repeated) *)
  Lemma redo_write s o k s2 t ms :
    Inv s -> op_guard s o = true -> mans s2 = mans (crash s o k) -> op_target s o = Some t ->
    op_mid s o = [ETruncMan t; EWriteMan t ms] -> mans (exec s2 o) = mans (apply_list s2 [ETruncMan t; EWriteMan t ms]) ->
    (forall n0, mget n0 (exec s2 o) = mget n0 (exec s o)).
  Proof.
    intros HI Hg Hm Ht Em E2 x. unfold mget. rewrite E2, (exec_mans s o HI Hg), Em. cbn [apply_list fold_left apply_effect mans].
    rewrite !mget_write. destruct (name_eqb x t) eqn:Ex; [reflexivity|]. rewrite Hm.
    apply (prefix_frame size_of s o k x HI Hg). rewrite Ht. intros [= ->]. rewrite name_eqb_refl in Ex. discriminate.
  Qed.

  (* at the start the stored names are the same; at the end the target is stored; in between the torn manifest is not
     seen, which is what the guard is about *)
  Lemma target_stable s o k s2 t m n :
    Inv s -> op_guard s o = true -> Inv s2 -> mans s2 = mans (crash s o k) ->
    op_mid s o = [ETruncMan t; EWriteMan t (Readable m)] -> t = get_existing (readable_names s) n ->
    (if has_unreadable (crash s o k) then name_eqb (get_existing (readable_names s2) n) t else true) = true ->
    get_existing (readable_names s2) n = t.
  Proof.
    intros HI Hg HI2 Hm2 Em Ht Htorn. destruct (crash_kinds s o k HI Hg) as [Hm|t' ms' _ Hm|Hm].
    - rewrite (readable_names_mans s s2) by congruence. symmetry. exact Ht.
    - rewrite (has_unreadable_torn _ _ _ Hm) in Htorn. apply name_eqb_spec, Htorn.
    - apply (ge_stable size_of s2 t m n HI2); [|rewrite Ht; apply get_existing_eqfold].
      unfold listed. rewrite Hm2, Hm, (exec_mans s o HI Hg), Em. apply (In_aset name_eqb name_eqb_spec). left; auto.
  Qed.

  Lemma redo_create_on s q k s2 :
    Inv s -> op_guard s (OCreate q) = true ->
    Inv s2 -> mans s2 = mans (crash s (OCreate q) k) ->
    (if has_unreadable (crash s (OCreate q) k) then oname_eqb (op_target s2 (OCreate q)) (op_target s (OCreate q)) else true) = true ->
    base_same s s2 q = true ->
    (forall n0, mget n0 (exec s2 (OCreate q)) = mget n0 (exec s (OCreate q))) /\
    snd (op_run size_of s2 (OCreate q)) = snd (op_run size_of s (OCreate q)).
  Proof.
    intros HI Hg HI2 Hm2 Htorn Hbs. set (tgt := get_existing (readable_names s) (cr_name q)) in *.
    assert (Hbuild : snd (create_build size_of (layer_from_layer size_of) false s2 q) = snd (create_build size_of (layer_from_layer size_of) false s q)).
    { apply (build_same s s2 q HI HI2 Hbs). intros x Hx. rewrite (mget_mans _ _ x Hm2).
      apply (prefix_frame size_of s (OCreate q) k x HI Hg). intros [= E]. apply Hx. symmetry. exact E. }
    split; [|rewrite !(create_result size_of), Hbuild; reflexivity].
    assert (E2 := exec_create_mans size_of s2 q HI2). rewrite Hbuild in E2.
    destruct (snd (create_build size_of (layer_from_layer size_of) false s q)) as [[m cl]|] eqn:Ecb.
    - assert (Em : op_mid s (OCreate q) = [ETruncMan tgt; EWriteMan tgt (Readable m)]) by (cbn [op_mid]; rewrite Ecb; reflexivity).
      rewrite (target_stable s (OCreate q) k s2 tgt m (cr_name q) HI Hg HI2 Hm2 Em eq_refl Htorn) in E2.
      apply (redo_write s (OCreate q) k s2 tgt (Readable m) HI Hg Hm2 eq_refl Em E2).
    - intros x. unfold mget. rewrite E2, Hm2, (nowrite_mans s (OCreate q) k HI Hg), (exec_mans s _ HI Hg); cbn [op_mid]; rewrite Ecb; reflexivity.
  Qed.

  (** create from files: the client uploads the file again, then repeats the create *)
  Lemma redo_upload_create s q k d parts fail det :
    Inv s -> op_guard s (OCreate q) = true ->
    cr_base q = BFiles d parts fail det -> is_some (bget (dhex d) s) = true ->
    let s1 := recover (crash s (OCreate q) k) in
    let s2 := exec s1 (OBlob d (dhex d)) in
    (if has_unreadable (crash s (OCreate q) k) then oname_eqb (op_target s1 (OCreate q)) (op_target s (OCreate q)) else true) = true ->
    (forall n0, mget n0 (exec s2 (OCreate q)) = mget n0 (exec s (OCreate q))) /\
    snd (op_run size_of s2 (OCreate q)) = snd (op_run size_of s (OCreate q)).
  Proof.
    intros HI Hg Hb Hp s1 s2 Htorn.
    assert (HIc : Inv (crash s (OCreate q) k)) by (apply crash_inv; assumption).
    assert (HI1 : Inv s1) by (apply recover_inv, HIc).
    assert (HI2 : Inv s2) by (apply exec_inv; [exact HI1 | reflexivity]).
    assert (Hm2 : mans s2 = mans s1) by apply (Bok_mans size_of _ _ (op_blob_bok size_of s1 d (dhex d))).
    assert (Hpres : is_some (bget (dhex d) s2) = true).
    { unfold s2, Ops.exec. cbn [op_run]. unfold op_blob. destruct (bget (dhex d) s1) eqn:E1; [cbn; rewrite E1; reflexivity|].
      destruct (new_layer size_of (init s1) 0 (dhex d)) as [r1 l] eqn:En.
      destruct (new_layer_present size_of (init s1) 0 (dhex d) r1 l HI1 En) as [_ [Hpr _]]. cbn in Hpr. cbn [fst]. rewrite Hpr. reflexivity. }
    apply (redo_create_on s q k s2 HI Hg HI2).
    - rewrite Hm2. apply (recover_mans size_of).
    - cbn [op_target] in *. rewrite (readable_names_mans s1 s2 Hm2). exact Htorn.
    - unfold base_same. rewrite Hb, Hpres, Hp. reflexivity.
  Qed.

  (** the manifest update and the answer only depend on the manifests at the start (and, for a create, on its base) *)
  Definition congr_side (s1 s2 : store) (o : op) : Prop :=
    match o with
    | OCreate q => base_same s1 s2 q = true \/ (exists src, cr_base q = BFrom src)
    | OPull _ (Some v) _ => pull_total v
    | OBlob _ _ | OStartup => False
    | _ => True
    end.

  Lemma op_mid_congr s1 s2 o :
    Inv s1 -> Inv s2 -> mans s2 = mans s1 -> congr_side s1 s2 o ->
    op_mid s2 o = op_mid s1 o /\ snd (op_run size_of s2 o) = snd (op_run size_of s1 o).
  Proof.
    intros HI1 HI2 Hm Hside. assert (Hrn := readable_names_mans s1 s2 Hm).
    destruct o as [d c|q|a b|n|n [v|] ord|]; try contradiction; cbn [op_mid].
    - assert (Hb : snd (create_build size_of (layer_from_layer size_of) false s2 q) = snd (create_build size_of (layer_from_layer size_of) false s1 q)).
      { destruct Hside as [Hbs|[src Hsrc]].
        - apply (build_same s1 s2 q HI1 HI2 Hbs). intros x _. apply (mget_mans _ _ x Hm).
        - rewrite !(create_build_snd size_of), Hsrc, !(base_from_pure size_of) by assumption. rewrite (mget_mans _ _ src Hm). reflexivity. }
      rewrite !(create_result size_of), Hb, Hrn. auto.
    - cbn [op_run]. unfold op_copy, op_copy_gen. rewrite Hrn, (mget_mans _ _ _ Hm).
      split; [reflexivity|]. destruct (name_eqb _ _); [reflexivity|]. destruct (mget _ s1); reflexivity.
    - cbn [op_run]. unfold op_delete, op_delete_gen. rewrite Hrn, (mget_mans _ _ _ Hm).
      split; [reflexivity|]. destruct (mget _ s1) as [[m|]|]; reflexivity.
    - rewrite !(pull_answer size_of) by assumption. rewrite Hrn. auto.
    - auto.
  Qed.

  Lemma exec_mans_congr s1 s2 o :
    Inv s1 -> Inv s2 -> op_guard s1 o = true -> op_guard s2 o = true -> mans s2 = mans s1 -> congr_side s1 s2 o ->
    (forall n0, mget n0 (exec s2 o) = mget n0 (exec s1 o)) /\ snd (op_run size_of s2 o) = snd (op_run size_of s1 o).
  Proof.
    intros HI1 HI2 Hg1 Hg2 Hm Hside. destruct (op_mid_congr s1 s2 o HI1 HI2 Hm Hside) as [Em Ea]. split; [|exact Ea].
    intros x. unfold mget. rewrite !exec_mans, Em by assumption. rewrite (apply_mans_congr _ s2 s1 Hm). reflexivity.
  Qed.

  Lemma redo_nowrite s o k :
    Inv s -> op_guard s o = true -> op_guard (recover (crash s o k)) o = true -> op_mid s o = [] -> congr_side s (recover (crash s o k)) o ->
    (forall n0, mget n0 (exec (recover (crash s o k)) o) = mget n0 (exec s o)) /\ snd (op_run size_of (recover (crash s o k)) o) = snd (op_run size_of s o).
  Proof.
    intros HI Hg Hg1 E0 Hside. assert (HIc : Inv (crash s o k)) by (apply crash_inv; assumption).
    apply exec_mans_congr; try assumption; [apply recover_inv, HIc|]. rewrite (recover_mans size_of). apply nowrite_mans; assumption.
  Qed.

  Lemma redo_copy s a b k :
    Inv s -> has_unreadable s = false ->
    let s1 := recover (crash s (OCopy a b) k) in
    (if has_unreadable (crash s (OCopy a b) k) then oname_eqb (op_target s1 (OCopy a b)) (op_target s (OCopy a b)) else true) = true ->
    (forall n0, mget n0 (exec s1 (OCopy a b)) = mget n0 (exec s (OCopy a b))) /\ snd (op_run size_of s1 (OCopy a b)) = snd (op_run size_of s (OCopy a b)).
  Proof.
    intros HI Hu s1 Htorn. set (o := OCopy a b) in *. assert (Hg : op_guard s o = true) by reflexivity.
    set (sa := get_existing (readable_names s) a). set (sb := get_existing (readable_names s) b).
    assert (Hnw : op_mid s o = [] -> (forall n0, mget n0 (exec s1 o) = mget n0 (exec s o)) /\ snd (op_run size_of s1 o) = snd (op_run size_of s o))
      by (intros E0; apply redo_nowrite; [exact HI | exact Hg | reflexivity | exact E0 | exact I]).
    destruct (name_eqb sa sb) eqn:Eab; [apply Hnw; cbn [op_mid o]; fold sa sb; rewrite Eab; reflexivity|].
    destruct (mget sa s) as [[m|]|] eqn:Ea; [|destruct (has_unreadable_mget s sa Hu Ea)|apply Hnw; cbn [op_mid o]; fold sa sb; rewrite Eab, Ea; reflexivity].
    (* the copy is made: the source is found again where it was, the target as [target_stable] says *)
    assert (HIc : Inv (crash s o k)) by (apply crash_inv; assumption).
    assert (HI1 : Inv s1) by (apply recover_inv, HIc).
    assert (Hm1 : mans s1 = mans (crash s o k)) by apply (recover_mans size_of).
    assert (Em : op_mid s o = [ETruncMan sb; EWriteMan sb (Readable m)]) by (cbn [op_mid o]; fold sa sb; rewrite Eab, Ea; reflexivity).
    assert (Hsa1 : mget sa s1 = Some (Readable m)).
    { rewrite <- Ea. apply frame_s1; [exact HI | exact Hg|]. intros [= E]. fold sb in E. rewrite E, name_eqb_refl in Eab. discriminate. }
    assert (Ega : get_existing (readable_names s1) a = sa) by (apply (ge_stable size_of s1 sa m a HI1 (mget_listed _ _ _ Hsa1)), get_existing_eqfold).
    assert (Egb := target_stable s o k s1 sb m b HI Hg HI1 Hm1 Em eq_refl Htorn).
    assert (E1 : op_mid s1 o = op_mid s o /\ snd (op_run size_of s1 o) = snd (op_run size_of s o)).
    { cbn [op_mid op_run o]. unfold op_copy, op_copy_gen. fold sa sb. rewrite Ega, Egb, Eab, Hsa1, Ea. auto. }
    split; [|apply E1]. apply (redo_write s o k s1 sb (Readable m) HI Hg Hm1 eq_refl Em).
    rewrite (exec_mans s1 o HI1 eq_refl), (proj1 E1), Em. reflexivity.
  Qed.

  Lemma redo_delete s n k :
    Inv s -> has_unreadable s = false ->
    let s1 := recover (crash s (ODelete n) k) in
    (forall n0, mget n0 (exec s1 (ODelete n)) = mget n0 (exec s (ODelete n))) /\
    (snd (op_run size_of s1 (ODelete n)) = snd (op_run size_of s (ODelete n)) \/
     snd (op_run size_of s1 (ODelete n)) = RNotFound /\ snd (op_run size_of s (ODelete n)) = ROk).
  Proof.
    intros HI Hu s1. set (o := ODelete n) in *. assert (Hg : op_guard s o = true) by reflexivity.
    assert (HIc : Inv (crash s o k)) by (apply crash_inv; assumption).
    assert (HI1 : Inv s1) by (apply recover_inv, HIc).
    assert (Hm1 : mans s1 = mans (crash s o k)) by apply (recover_mans size_of).
    set (tgt := get_existing (readable_names s) n).
    destruct (mget tgt s) as [[m|]|] eqn:Et.
    2,3: destruct (redo_nowrite s o k HI Hg eq_refl) as [A B]; [cbn [op_mid o]; fold tgt; rewrite Et; reflexivity | exact I | auto].
    destruct (crash_kinds s o k HI Hg) as [Hm|t ms Em _|Hm].
    - destruct (exec_mans_congr s s1 o HI HI1 Hg eq_refl (eq_trans Hm1 Hm) I) as [A B]. auto.
    - cbn [op_mid o] in Em. fold tgt in Em. rewrite Et in Em. discriminate.
    - (* the delete had removed the manifest: the repeated one finds nothing *)
      rewrite (exec_mans s o HI Hg) in Hm. cbn [op_mid o] in Hm. fold tgt in Hm. rewrite Et, <- Hm1 in Hm. cbn in Hm.
      assert (Hnone : mget (get_existing (readable_names s1) n) s1 = None).
      { destruct (mget (get_existing (readable_names s1) n) s1) as [ms|] eqn:E1; [|reflexivity]. exfalso.
        set (t1 := get_existing (readable_names s1) n) in *.
        apply (aget_In name_eqb name_eqb_spec) in E1. rewrite Hm in E1. apply (In_adel name_eqb name_eqb_spec) in E1 as [Hin Hne].
        destruct ms as [m1|]; [|exact (has_unreadable_false s t1 Hu Hin)].
        apply Hne. apply (inv_case size_of s HI t1 tgt m1 m Hin (mget_listed _ _ _ Et)).
        eapply name_eqfold_trans; [apply get_existing_eqfold | apply name_eqfold_sym, get_existing_eqfold]. }
      split.
      + intros x. unfold mget. rewrite (exec_mans s1 o HI1 eq_refl), (exec_mans s o HI Hg). cbn [op_mid o]. fold tgt. rewrite Hnone, Et. cbn. rewrite Hm. reflexivity.
      + right. cbn [op_run o]. unfold op_delete, op_delete_gen. fold tgt. rewrite Hnone, Et. auto.
  Qed.

  Lemma redo_pull s n v ord k :
    Inv s -> pull_total v ->
    let s1 := recover (crash s (OPull n (Some v) ord) k) in
    (if has_unreadable (crash s (OPull n (Some v) ord) k) then oname_eqb (op_target s1 (OPull n (Some v) ord)) (op_target s (OPull n (Some v) ord)) else true) = true ->
    (forall n0, mget n0 (exec s1 (OPull n (Some v) ord)) = mget n0 (exec s (OPull n (Some v) ord))) /\
    snd (op_run size_of s1 (OPull n (Some v) ord)) = snd (op_run size_of s (OPull n (Some v) ord)).
  Proof.
    intros HI Ht s1 Htorn. set (o := OPull n (Some v) ord) in *. assert (Hg : op_guard s o = true) by apply Ht.
    assert (HIc : Inv (crash s o k)) by (apply crash_inv; assumption).
    assert (HI1 : Inv s1) by (apply recover_inv, HIc).
    assert (Hm1 : mans s1 = mans (crash s o k)) by apply (recover_mans size_of).
    assert (R0 := pull_answer size_of s n v ord HI Ht). assert (R1 := pull_answer size_of s1 n v ord HI1 Ht). fold o in R0, R1.
    split; [|congruence]. set (tgt := get_existing (readable_names s) n).
    assert (Em : op_mid s o = [ETruncMan tgt; EWriteMan tgt (Readable (sv_manifest v))]) by (cbn [op_mid o]; fold o; rewrite R0; reflexivity).
    apply (redo_write s o k s1 tgt _ HI Hg Hm1 eq_refl Em). rewrite (exec_mans s1 o HI1 Hg). cbn [op_mid o]. fold o. rewrite R1.
    rewrite (target_stable s o k s1 tgt _ n HI Hg HI1 Hm1 Em eq_refl Htorn). reflexivity.
  Qed.

  Theorem redo_general s o k :
    Inv s -> op_guard s o = true -> has_unreadable s = false -> redo_guard s o k = true ->
    let s1 := recover (crash s o k) in
    (forall n, mget n (exec s1 o) = mget n (exec s o)) /\
    Inv (exec s1 o) /\ Inv (exec s o) /\
    (snd (op_run size_of s1 o) = snd (op_run size_of s o) \/
     (exists n, o = ODelete n) /\ snd (op_run size_of s1 o) = RNotFound /\ snd (op_run size_of s o) = ROk).
  Proof.
    intros HI Hg Hu Hrg s1.
    assert (HIc : Inv (crash s o k)) by (apply crash_inv; assumption).
    assert (HI1 : Inv s1) by (apply recover_inv, HIc).
    unfold redo_guard in Hrg. fold s1 in Hrg. apply andb_true_iff in Hrg as [Htorn Hrest].
    assert (Hg1 : op_guard s1 o = true).
    { destruct o as [d c|q|a b|n|n sv ord|]; try exact Hg. apply andb_true_iff in Hrest. apply Hrest. }
    assert (Hcore : (forall n0, mget n0 (exec s1 o) = mget n0 (exec s o)) /\
                    (snd (op_run size_of s1 o) = snd (op_run size_of s o) \/
                     (exists n, o = ODelete n) /\ snd (op_run size_of s1 o) = RNotFound /\ snd (op_run size_of s o) = ROk)).
    { destruct o as [d c|q|a b|n|n [v|] ord|]; try discriminate.
      - apply andb_true_iff in Hrest as [Hbs _].
        destruct (redo_create_on s q k s1 HI Hg HI1 (recover_mans size_of _) Htorn Hbs) as [A B]. auto.
      - destruct (redo_copy s a b k HI Hu Htorn) as [A B]. auto.
      - destruct (redo_delete s n k HI Hu) as [A [B|[B C]]]; eauto 6.
      - destruct (redo_pull s n v ord k HI (conj Hg Hrest) Htorn) as [A B]. auto.
      - destruct (redo_nowrite s (OPull n None ord) k HI Hg Hg1 eq_refl I) as [A B]. auto. }
    destruct Hcore as [A B]. split; [exact A|]. split; [apply exec_inv; assumption|]. split; [apply exec_inv; assumption | exact B].
  Qed.

  Lemma redo_ok_guard s o k :
    Inv s -> op_guard s o = true -> redo_ok s o = true -> has_unreadable (crash s o k) = false -> redo_guard s o k = true.
  Proof.
    intros HI Hg Hr Hc. unfold redo_guard. rewrite Hc. cbn [andb].
    destruct o as [d c|q|a b|n|n [v|] ord|]; try discriminate; try reflexivity; [|exact Hr].
    cbn [redo_ok] in Hr. unfold base_same. destruct (cr_base q) as [|src] eqn:Eb; [discriminate|]. rewrite Hr. cbn [andb op_guard].
    apply (create_check_from size_of _ q src); [apply recover_inv, crash_inv; assumption | exact Eb].
  Qed.

  (** the guard is exact at a torn crash point *)
  Theorem redo_torn_exact s o k t ms :
    Inv s -> op_guard s o = true -> has_unreadable s = false ->
    op_mid s o = [ETruncMan t; EWriteMan t ms] ->
    mans (crash s o k) = aset name_eqb t Unreadable (mans s) ->
    op_target (recover (crash s o k)) o <> Some t ->
    op_guard (recover (crash s o k)) o = true ->
    mget t (exec (recover (crash s o k)) o) = Some Unreadable /\ mget t (exec s o) = Some ms /\ ms <> Unreadable.
  Proof.
    intros HI Hg Hu Em Hm Hne Hg1. set (s1 := recover (crash s o k)) in *.
    assert (HIc : Inv (crash s o k)) by (apply crash_inv; assumption).
    assert (HI1 : Inv s1) by (apply recover_inv, HIc).
    split; [|split].
    - destruct (exec_frame size_of s1 o t HI1 Hg1 Hne) as [F _]. rewrite F. unfold mget, s1. rewrite (recover_mans size_of), Hm. apply mget_aset_same.
    - unfold mget. rewrite (exec_mans s o HI Hg), Em. apply mget_aset_same.
    - exact (op_mid_readable s o t ms Hu Em).
  Qed.

  (** restarts that do not prune (OLLAMA_NOPRUNE, or — already part of [recover] — an unreadable manifest somewhere) *)
  Definition recover_np (s : store) : store := startup_noprune s.

  Lemma recover_np_inv s : Inv s -> Inv (recover_np s).
  Proof. intros HI. apply (Bok_inv size_of (init s)); [exact HI | apply fix_blobs_bok, HI]. Qed.

  Lemma recover_np_frame s n m l :
    Inv s -> listed s n m -> In l (all_layers m) -> bget (dhex (ldg l)) (recover_np s) = bget (dhex (ldg l)) s.
  Proof.
    intros HI Hl Hin. unfold recover_np, startup_noprune.
    destruct (Rok_Bok size_of None s _ _ HI (Rok_init size_of None s) (fix_blobs_bok size_of s HI)) as [E Hok]. rewrite E.
    eapply (ok_trace_blob size_of None); try eassumption. discriminate.
  Qed.

  Theorem redo_general_noprune s o k :
    Inv s -> op_guard s o = true -> has_unreadable s = false -> redo_guard s o k = true ->
    (match o with OCreate q => exists src, cr_base q = BFrom src | _ => True end) ->
    let s1 := recover_np (crash s o k) in
    (forall n, mget n (exec s1 o) = mget n (exec s o)) /\
    (snd (op_run size_of s1 o) = snd (op_run size_of s o) \/
     (exists n, o = ODelete n) /\ snd (op_run size_of s1 o) = RNotFound /\ snd (op_run size_of s o) = ROk).
  Proof.
    intros HI Hg Hu Hrg Hfrom s1.
    destruct (redo_general s o k HI Hg Hu Hrg) as [Hm [_ [_ Hres]]].
    set (s0 := recover (crash s o k)) in *.
    assert (HIc : Inv (crash s o k)) by (apply crash_inv; assumption).
    assert (HI0 : Inv s0) by (apply recover_inv, HIc). assert (HI1 : Inv s1) by (apply recover_np_inv, HIc).
    assert (Hmm : mans s1 = mans s0) by (unfold s1, s0; rewrite (recover_mans size_of); apply (fix_blobs_mans (init _))).
    unfold redo_guard in Hrg. fold s0 in Hrg. apply andb_true_iff in Hrg as [_ Hrg].
    assert (Hside : congr_side s0 s1 o /\ op_guard s0 o = true /\ op_guard s1 o = true).
    { destruct o as [d c|q|a b|n|n [v|] ord|]; try discriminate; cbn [congr_side op_guard]; auto.
      - destruct Hfrom as [src Hsrc]. apply andb_true_iff in Hrg as [_ Hg0]. split; [eauto|]. split; [exact Hg0 | eapply create_check_from; eassumption].
      - repeat split; assumption. }
    destruct Hside as [Hside [Hg0 Hg1]].
    destruct (exec_mans_congr s0 s1 o HI0 HI1 Hg0 Hg1 Hmm Hside) as [C1 C2].
    split; [intros n; rewrite C1; apply Hm | rewrite C2; exact Hres].
  Qed.
End Redo2.

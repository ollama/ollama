(** * Properties_C12 — a crash at any point leaves a store in which every resolvable model is intact.
    Theorems only; the proofs are in Store/Proofs*.v.

    Every operation of the model (Store/Ops.v) is a program that emits atomic file-system effects; the server dying
    after the first [k] effects of operation [o] started in store [s] leaves [crash s o k]; the restart runs the
    start-up sequence of server.Serve ([recover]).  [guards]: as in Properties_C04, every operation (completed or
    interrupted) meets its decidable guard in the store it starts in. *)
From Coq Require Import List NArith Bool.
From V Require Import Common.Bytes Store.Fs Store.Ops Store.ProofsAlist Store.ProofsNames Store.ProofsInv Store.ProofsOps Store.ProofsTop Store.ProofsMore Store.ProofsRedo Store.ProofsRedo2 Store.Corr Store.Pull2 Store.ProofsPull2.
Import ListNotations.
Open Scope N_scope.

(** The invariant behind the theorems below, for every reachable store (operations, crashes, restarts in any order). *)
Theorem C12_reachable_inv : forall size_of es,
  guards size_of empty_store es -> Inv size_of (ev_run size_of empty_store es).
Proof. intros size_of es Hg. apply ev_run_inv; [apply Inv_empty | exact Hg]. Qed.
Print Assumptions C12_reachable_inv.

(** For every store reachable by any history of completed operations, crashes (at any effect prefix of any operation)
    and restarts, every operation, every prefix of its effect list: already before the restart, and after it, every
    manifest that decodes has all its layers and its config present, intact and of the recorded size; the manifests of
    the models the operation does not name, and the blobs they use, are exactly as before the operation. *)
Theorem C12_crash_sound : forall size_of es o k,
  guards size_of empty_store es ->
  let s := ev_run size_of empty_store es in
  op_guard size_of s o = true ->
  let c := crash size_of s o k in
  let s' := recover size_of c in
  (forall n m l, (mget n c = Some (Readable m) \/ mget n s' = Some (Readable m)) -> In l (all_layers m) ->
     dcolon (ldg l) = true /\ bget (dhex (ldg l)) s' = Some (dhex (ldg l)) /\ lsz l = size_of (dhex (ldg l))) /\
  (forall n, op_target s o <> Some n ->
     mget n s' = mget n s /\
     forall m l, mget n s = Some (Readable m) -> In l (all_layers m) -> bget (dhex (ldg l)) s' = bget (dhex (ldg l)) s).
Proof.
  intros size_of es o k Hg s Hgo c s'.
  assert (HI : Inv size_of s) by (apply C12_reachable_inv, Hg).
  assert (HIc : Inv size_of c) by (apply crash_inv; assumption).
  assert (HIs : Inv size_of s') by (apply recover_inv, HIc).
  split.
  - intros n m l [Hm|Hm] Hl.
    + apply (inv_layer size_of s' n m l HIs); [apply mget_listed|exact Hl].
      destruct (recover_frame size_of c n HIc) as [H1 _]. fold s' in H1. rewrite H1. exact Hm.
    + apply (inv_layer size_of s' n m l HIs (mget_listed _ _ _ Hm) Hl).
  - intros n Hn. destruct (prefix_frame size_of s o k n HI Hgo Hn) as [P1 P2]. fold c in P1, P2.
    destruct (recover_frame size_of c n HIc) as [R1 R2]. fold s' in R1, R2.
    split; [congruence|]. intros m l Hm Hl.
    rewrite (R2 m l); [apply (P2 m l); [apply mget_listed, Hm | exact Hl] | | exact Hl].
    apply mget_listed. rewrite P1. exact Hm.
Qed.
Print Assumptions C12_crash_sound.

(** Repeating the interrupted operation after the restart: it answers as the uninterrupted run would have (a
    delete may answer "not found": it already took effect) and leaves the same manifests — hence, both stores
    satisfying the invariant, the same models with the same, intact blobs; they differ at most in unreferenced blobs.
    Proved for the crash points that leave no torn manifest ([has_unreadable (crash s o k) = false]) and operations
    that do not read their own target ([redo_ok]: a create FROM the name it creates is excluded, as is a create from
    files, whose upload has to be repeated first, and a pull needs every layer to be downloadable again). *)
Theorem C12_idempotent_redo_partial : forall size_of es o k,
  guards size_of empty_store es ->
  let s := ev_run size_of empty_store es in
  op_guard size_of s o = true -> redo_ok s o = true ->
  has_unreadable s = false -> has_unreadable (crash size_of s o k) = false ->
  let s1 := recover size_of (crash size_of s o k) in
  (forall n, mget n (exec size_of s1 o) = mget n (exec size_of s o)) /\
  Inv size_of (exec size_of s1 o) /\ Inv size_of (exec size_of s o) /\
  (snd (op_run size_of s1 o) = snd (op_run size_of s o) \/
   (exists n, o = ODelete n) /\ snd (op_run size_of s1 o) = RNotFound /\ snd (op_run size_of s o) = ROk).
Proof.
  intros size_of es o k Hg s Hgo Hr Hu Hc. assert (HI : Inv size_of s) by (apply C12_reachable_inv, Hg).
  apply (redo_general size_of s o k HI Hgo Hu), redo_ok_guard; assumption.
Qed.
Print Assumptions C12_idempotent_redo_partial.

(** The general form, every crash point included.  [redo_guard s o k] (decidable) says: (a) if the crash point leaves
    a torn manifest, the repeated request canonicalises to the same target name as the interrupted one — the torn file is
    invisible to getExistingName, so this is a condition on the letter case of the request and of the other stored
    names; (b) a create finds its base as before (its source model is not its own target / its uploaded blob is there
    again) and meets [create_check] on the restarted store; a pull can download every layer again.  Covers delete, copy,
    create FROM, create from files, pull, at clean and at torn crash points. *)
Theorem C12_idempotent_redo_guarded : forall size_of es o k,
  guards size_of empty_store es ->
  let s := ev_run size_of empty_store es in
  op_guard size_of s o = true -> has_unreadable s = false -> redo_guard size_of s o k = true ->
  let s1 := recover size_of (crash size_of s o k) in
  (forall n, mget n (exec size_of s1 o) = mget n (exec size_of s o)) /\
  Inv size_of (exec size_of s1 o) /\ Inv size_of (exec size_of s o) /\
  (snd (op_run size_of s1 o) = snd (op_run size_of s o) \/
   (exists n, o = ODelete n) /\ snd (op_run size_of s1 o) = RNotFound /\ snd (op_run size_of s o) = ROk).
Proof.
  intros size_of es o k Hg s. apply (redo_general size_of). apply C12_reachable_inv, Hg.
Qed.
Print Assumptions C12_idempotent_redo_guarded.

(** ... and part (a) of the guard is exact: at a torn crash point, if the repetition canonicalises to another name it
    leaves the torn manifest where the uninterrupted run has the new one. *)
Theorem C12_redo_torn_exact : forall size_of es o k t ms,
  guards size_of empty_store es ->
  let s := ev_run size_of empty_store es in
  op_guard size_of s o = true -> has_unreadable s = false ->
  op_mid size_of s o = [ETruncMan t; EWriteMan t ms] ->
  mans (crash size_of s o k) = aset name_eqb t Unreadable (mans s) ->
  let s1 := recover size_of (crash size_of s o k) in
  op_target s1 o <> Some t -> op_guard size_of s1 o = true ->
  mget t (exec size_of s1 o) = Some Unreadable /\ mget t (exec size_of s o) = Some ms /\ ms <> Unreadable.
Proof.
  intros size_of es o k t ms Hg s. apply (redo_torn_exact size_of). apply C12_reachable_inv, Hg.
Qed.
Print Assumptions C12_redo_torn_exact.

(** the manifests of a crash store are those of the start, those of the end, or those of the start with the one
    target manifest torn; a delete never leaves a torn manifest *)
Theorem C12_crash_kinds : forall size_of es o k,
  guards size_of empty_store es ->
  let s := ev_run size_of empty_store es in
  op_guard size_of s o = true -> crash_kind size_of s o (crash size_of s o k).
Proof.
  intros size_of es o k Hg s. apply (crash_kinds size_of). apply C12_reachable_inv, Hg.
Qed.
Print Assumptions C12_crash_kinds.

(** create from files as the client performs it — the file is uploaded again (POST /api/blobs), then the create is
    repeated — for every crash point of the create whose torn-manifest condition (a) holds *)
Theorem C12_redo_upload_create : forall size_of es q k d parts fail det,
  guards size_of empty_store es ->
  let s := ev_run size_of empty_store es in
  op_guard size_of s (OCreate q) = true -> has_unreadable s = false ->
  cr_base q = BFiles d parts fail det -> dcolon d = true -> is_some (bget (dhex d) s) = true ->
  let s1 := recover size_of (crash size_of s (OCreate q) k) in
  let s2 := exec size_of s1 (OBlob d (dhex d)) in
  (if has_unreadable (crash size_of s (OCreate q) k) then oname_eqb (op_target s1 (OCreate q)) (op_target s (OCreate q)) else true) = true ->
  (forall n, mget n (exec size_of s2 (OCreate q)) = mget n (exec size_of s (OCreate q))) /\
  snd (op_run size_of s2 (OCreate q)) = snd (op_run size_of s (OCreate q)).
Proof.
  intros size_of es q k d parts fail det Hg s Hgo _ Hb _. apply (redo_upload_create size_of s q k d parts fail det (C12_reachable_inv size_of es Hg) Hgo Hb).
Qed.
Print Assumptions C12_redo_upload_create.

(** Restarts that do not prune: OLLAMA_NOPRUNE (start-up = fixBlobs only; [recover_np]), or an unreadable manifest
    somewhere in the store (then [recover] itself skips pruning).  Part records and -partial files then survive the
    restart and the repeated pull resumes from them (Ops.download: record complete / incomplete / torn).  The crash
    theorem and the redo theorem hold for the non-pruning restart as well. *)
Theorem C12_crash_sound_noprune : forall size_of es o k,
  guards size_of empty_store es ->
  let s := ev_run size_of empty_store es in
  op_guard size_of s o = true ->
  let c := crash size_of s o k in
  let s' := recover_np c in
  Inv size_of s' /\ mans s' = mans c /\
  (forall n, op_target s o <> Some n ->
     mget n s' = mget n s /\
     forall m l, mget n s = Some (Readable m) -> In l (all_layers m) -> bget (dhex (ldg l)) s' = bget (dhex (ldg l)) s).
Proof.
  intros size_of es o k Hg s Hgo c s'.
  assert (HI : Inv size_of s) by (apply C12_reachable_inv, Hg).
  assert (HIc : Inv size_of c) by (apply crash_inv; assumption).
  split; [apply recover_np_inv, HIc|]. split; [apply (fix_blobs_mans (init c))|].
  intros n Hn. destruct (prefix_frame size_of s o k n HI Hgo Hn) as [P1 P2]. fold c in P1, P2.
  split; [unfold mget in *; unfold s', recover_np, startup_noprune; rewrite (fix_blobs_mans (init c)); exact P1|].
  intros m l Hm Hl. unfold s'. rewrite (recover_np_frame size_of c n m l HIc); [apply (P2 m l); [apply mget_listed, Hm | exact Hl] | | exact Hl].
  apply mget_listed. rewrite P1. exact Hm.
Qed.
Print Assumptions C12_crash_sound_noprune.

Theorem C12_idempotent_redo_noprune : forall size_of es o k,
  guards size_of empty_store es ->
  let s := ev_run size_of empty_store es in
  op_guard size_of s o = true -> has_unreadable s = false -> redo_guard size_of s o k = true ->
  (match o with OCreate q => exists src, cr_base q = BFrom src | _ => True end) ->
  let s1 := recover_np (crash size_of s o k) in
  (forall n, mget n (exec size_of s1 o) = mget n (exec size_of s o)) /\
  (snd (op_run size_of s1 o) = snd (op_run size_of s o) \/
   (exists n, o = ODelete n) /\ snd (op_run size_of s1 o) = RNotFound /\ snd (op_run size_of s o) = ROk).
Proof.
  intros size_of es o k Hg s. apply (redo_general_noprune size_of). apply C12_reachable_inv, Hg.
Qed.
Print Assumptions C12_idempotent_redo_noprune.

(** A part record is rewritten in place (writePart: open with O_TRUNC, then encode).  Unrepaired, a pull that finds an
    empty (torn) record fails in Prepare and changes nothing — so every repetition fails, for as long as nothing prunes;
    repaired (fixes/C12-torn-part-record.patch: unreadable records are discarded, the download starts over) it succeeds. *)
Definition pr_store : store := MkStore [] [] [DPartial 1; DPartRec 1 0 PRTorn].
Definition pr_layer : layer := MkLayer 0 (MkDigest true 1) 11.

Theorem C12_torn_part_record_legacy_refuted :
  download_gen (fun c => c + 10) true (init pr_store) pr_layer (Some 1) = (init pr_store, None) /\
  (let (r, res) := download (fun c => c + 10) (init pr_store) pr_layer (Some 1) in
   res = Some false /\ bget 1 (rs r) = Some 1 /\ debris (rs r) = []).
Proof. split; vm_compute; auto. Qed.
Print Assumptions C12_torn_part_record_legacy_refuted.

(** The full statement — for every crash point — is false of the faithful model: manifests are written in place
    (create-truncate, then write), a kill between the two leaves an unreadable manifest that getExistingName does
    not see; repeating the operation under a name that differs in letter case writes a second manifest. *)
Definition C12_idempotent_redo_full : Prop := forall size_of es o k,
  guards size_of empty_store es ->
  let s := ev_run size_of empty_store es in
  op_guard size_of s o = true -> redo_ok s o = true -> has_unreadable s = false ->
  let s1 := recover size_of (crash size_of s o k) in
  forall n, mget n (exec size_of s1 o) = mget n (exec size_of s o).

Definition rd_a : name := MkName s_default_host s_default_ns [97] [116].   (* a:t *)
Definition rd_A : name := MkName s_default_host s_default_ns [65] [116].   (* A:t *)
Definition rd_b : name := MkName s_default_host s_default_ns [98] [116].   (* b:t *)
Definition rd_sz (c : N) : N := c + 10.
Definition rd_es : list event :=
  [ EvOp (OBlob (MkDigest true 1) 1)
  ; EvOp (OCreate (MkCreate rd_a (BFiles (MkDigest true 1) [(0, None)] false []) None None [] None None 30))
  ; EvOp (OCopy rd_a rd_b) ].
Definition rd_o2 : op := OCreate (MkCreate rd_A (BFrom rd_b) None (Some 2) [] None None 31).  (* re-create a:t as A:t FROM b:t *)

Theorem C12_idempotent_redo_refuted : ~ C12_idempotent_redo_full.
Proof.
  intros H. specialize (H rd_sz rd_es rd_o2 5%nat).
  assert (Hg : guards rd_sz empty_store rd_es) by (vm_compute; repeat split).
  specialize (H Hg eq_refl eq_refl eq_refl rd_A). vm_compute in H. discriminate.
Qed.
Print Assumptions C12_idempotent_redo_refuted.

Definition rd_o3 : op := OCreate (MkCreate rd_a (BFrom rd_b) None (Some 2) [] None None 31).  (* re-create a:t, spelled as stored, FROM b:t *)

Example C12_example_redo_guard :
  let s := ev_run rd_sz empty_store rd_es in
  (* torn crash point, request spelled as the stored name: covered *)
  has_unreadable (crash rd_sz s rd_o3 5) = true /\ redo_guard rd_sz s rd_o3 5 = true /\
  (* torn crash point, request in another letter case: excluded, and it really differs *)
  redo_guard rd_sz s rd_o2 5 = false /\ redo_guard rd_sz s rd_o2 4 = true /\ redo_guard rd_sz s rd_o2 6 = true /\
  (* copy at its torn point *)
  redo_guard rd_sz s (OCopy rd_b rd_a) 1 = true /\ has_unreadable (crash rd_sz s (OCopy rd_b rd_a) 1) = true.
Proof. vm_compute. repeat split. Qed.

Example C12_example_guards : guards rd_sz empty_store (rd_es ++ [EvCrash rd_o2 5; EvOp rd_o2; EvCrash (ODelete rd_b) 1; EvOp OStartup]).
Proof. vm_compute. repeat split. Qed.

Example C12_example_partial_hyps :
  let s := ev_run rd_sz empty_store rd_es in
  redo_ok s rd_o2 = true /\ has_unreadable s = false /\
  has_unreadable (crash rd_sz s rd_o2 4) = false /\ has_unreadable (crash rd_sz s rd_o2 5) = true /\ has_unreadable (crash rd_sz s rd_o2 6) = false /\
  length (effects rd_sz s rd_o2) = 6%nat.
Proof. vm_compute. repeat split. Qed.

(** * The new pull path (Registry.Pull of server/internal/client/ollama over blob.DiskCache; Store/Pull2.v)

    A layer is assembled from chunks in a scratch file [sha256-<h>.chunked]; every chunk that was fetched and verified
    is recorded in the cache (a small blob) and skipped by later attempts; the scratch file takes the blob's name only
    in the commit step, after the whole file hashed to the layer's digest.  [good] is the invariant of the extended
    store: blob files hold what their name says or are empty (just created); every manifest that can be read has all
    its layers present, intact and of the recorded size; a chunk whose record exists is in the scratch file of its
    layer (or the layer is committed); no manifest uses a record as a layer; no old-version blob names are left.
    [guard2] describes an honest registry (sizes as announced, every layer announced in at least one chunk). *)

Lemma C12_pull2_good_empty : forall size_of sv, good size_of sv (MkSt2 empty_store []).
Proof.
  intros. split.
  - intros h c H. discriminate.
  - intros n m H. discriminate.
  - intros h cs i c Ha Hn Hrec. discriminate.
  - intros k Hk. reflexivity.
  - intros d [].
Qed.

(** Killed after any number of its effects, then restarted with or without pruning: every manifest that can be read
    has all its layers, and the invariant holds again (so this composes with further pulls, crashes and restarts). *)
Theorem C12_pull2_crash_sound : forall size_of emp sv s n k np,
  size_of emp = 0 -> guard2 size_of sv = true -> good size_of sv s ->
  let c := restart2 size_of np (crash2 size_of emp s n sv k) in
  good size_of sv c /\
  forall n' m, mget n' (base c) = Some (Readable m) -> man_okb size_of (base c) m = true.
Proof.
  intros size_of emp sv s n k np He Hg Hgd c.
  assert (Hc : good size_of sv c).
  { apply restart2_good; try assumption. destruct (pull2_ok size_of emp He sv Hg s n Hgd) as [[_ H] _]. apply H. }
  split; [exact Hc | apply (g_c _ _ _ Hc)].
Qed.
Print Assumptions C12_pull2_crash_sound.

(** The manifest is linked only after every layer is committed: at whatever point the pull is killed, if the name
    already resolves to the manifest that is being pulled, all its layers are blobs of the right content and size. *)
Theorem C12_pull2_commit_before_link : forall size_of emp sv s n k,
  size_of emp = 0 -> guard2 size_of sv = true -> good size_of sv s ->
  let c := crash2 size_of emp s n sv k in
  forall n', mget n' (base c) = Some (Readable (s2_man sv)) -> man_okb size_of (base c) (s2_man sv) = true.
Proof.
  intros size_of emp sv s n k He Hg Hgd c n' Hm.
  destruct (pull2_ok size_of emp He sv Hg s n Hgd) as [[_ H] _]. apply (g_c _ _ _ (H k) n' _ Hm).
Qed.
Print Assumptions C12_pull2_commit_before_link.

(** Repeating the pull after a crash at any point and either kind of restart succeeds when the registry serves every
    chunk: the name resolves to the served manifest and every layer is committed — in particular when every chunk
    was already recorded before the crash (then the repeated pull fetches nothing and still commits). *)
Theorem C12_pull2_redo : forall size_of emp sv s n k np,
  size_of emp = 0 -> guard2 size_of sv = true -> good size_of sv s -> honest sv = true ->
  let c := restart2 size_of np (crash2 size_of emp s n sv k) in
  let f := exec2 size_of emp c n sv in
  snd (pull2 size_of emp c n sv) = ROk /\
  listed_as f (link_name (base c) n) (s2_man sv) = true /\
  good size_of sv f /\
  forall n' m, mget n' (base f) = Some (Readable m) -> man_okb size_of (base f) m = true.
Proof.
  intros size_of emp sv s n k np He Hg Hgd Hh c f.
  destruct (C12_pull2_crash_sound size_of emp sv s n k np He Hg Hgd) as [Hc _]. fold c in Hc.
  destruct (pull2_ok size_of emp He sv Hg c n Hc) as [HR [H1 H2]].
  assert (Hf : good size_of sv f) by (apply (Rok2_now _ _ _ HR)).
  split; [apply H2, Hh|]. split; [apply H1, H2, Hh|]. split; [exact Hf | apply (g_c _ _ _ Hf)].
Qed.
Print Assumptions C12_pull2_redo.

(** Not vacuous, and the commit in the repeated pull is what the theorem is about: two layers (one in two chunks),
    killed after the last chunk record of the first layer was written and before its commit; restart without pruning. *)
Definition p2_sz (c : N) : N := match c with 9 => 0 | _ => c + 10 end.
Definition p2_l1 := MkLayer MT_MODEL (MkDigest true 1) 11.
Definition p2_cfg := MkLayer 8 (MkDigest true 2) 12.
Definition p2_sv := MkServed2 (MkManifest p2_cfg [p2_l1]) 3 [(1, [MkChunk 4 true; MkChunk 5 true]); (2, [MkChunk 6 true])].
Definition p2_n := MkName [104] [110] [109] [116].
Definition p2_s0 := MkSt2 empty_store [].

Example C12_pull2_example :
  guard2 p2_sz p2_sv = true /\ honest p2_sv = true /\
  length (effects2 p2_sz 9 p2_s0 p2_n p2_sv) = 15%nat /\
  let c := restart2 p2_sz true (crash2 p2_sz 9 p2_s0 p2_n p2_sv 6) in
  written c 1 = [1%nat; 0%nat] /\ has_rec p2_sz c 4 = true /\ has_rec p2_sz c 5 = true /\ bget 1 (base c) = None /\
  effects2 p2_sz 9 c p2_n p2_sv =
    [XCommit 1; XPut 2 0; XSetBlob 6 9; XSetBlob 6 6; XCommit 2; XSetBlob 3 9; XSetBlob 3 3;
     XBase (ETruncMan p2_n); XBase (EWriteMan p2_n (Readable (s2_man p2_sv)))].
Proof. vm_compute. repeat split. Qed.

(** the variant that skips the commit of a layer for which nothing had to be fetched links a manifest whose first layer
    exists only as a scratch file *)
Definition do_layer_lazy (size_of : N -> N) (emp : N) (sv : served2) (r : run2) (l : layer) : run2 * bool :=
  let h := dhex (ldg l) in
  if has_blob size_of (rs2 r) h (lsz l) then (r, true)
  else
    let fresh := match written (rs2 r) h with [] => true | _ => false end in
    let (r1, failed) := do_chunks size_of emp fresh r h (chunks_of sv h) 0%nat false in
    if failed then (r1, false)
    else if Nat.eqb (length (rt2 r1)) (length (rt2 r)) then (r1, true)
    else if covers (written (rs2 r1) h) (length (chunks_of sv h)) then (emit2 r1 (XCommit h), true)
    else (r1, false).

Example C12_pull2_lazy_commit_refuted :
  let c := restart2 p2_sz true (crash2 p2_sz 9 p2_s0 p2_n p2_sv 6) in
  let (r1, ok1) := do_layer_lazy p2_sz 9 p2_sv (init2 c) p2_l1 in
  let (r2, ok2) := do_layer_lazy p2_sz 9 p2_sv r1 p2_cfg in
  ok1 && ok2 = true /\ man_okb p2_sz (base (rs2 r2)) (s2_man p2_sv) = false.
Proof. vm_compute. split; reflexivity. Qed.

(** "... and leaves the store as an uninterrupted run would": in full, for the new pull path *)
Definition C12_pull2_redo_same_full : Prop := forall size_of emp sv s n k np,
  size_of emp = 0 -> guard2 size_of sv = true -> good size_of sv s -> honest sv = true ->
  let c := restart2 size_of np (crash2 size_of emp s n sv k) in
  forall n0, mget n0 (base (exec2 size_of emp c n sv)) = mget n0 (base (exec2 size_of emp s n sv)).

(** It does not hold: DiskCache.Link replaces a manifest of other content by remove, create, write.  When the name is
    stored in another letter case than the request spells it (h/n/m:t stored, h/N/M:t pulled) the uninterrupted pull
    rewrites the stored file; killed between the remove and the create, the repeated pull finds no file to match
    and links the name as the request spells it.  The model resolves either way (names are compared case-insensitively);
    what differs is the spelling under which it is listed.  Known finding C12-pull2-relink-respelled. *)
Definition p2_N := MkName [104] [78] [77] [116].
Definition p2_s1 := MkSt2 (MkStore [(p2_n, Readable (MkManifest (MkLayer 8 (MkDigest true 21) 31) [MkLayer MT_MODEL (MkDigest true 20) 30]))]
                                   [(20, 20); (21, 21)] []) [].

Theorem C12_pull2_redo_same_refuted : ~ C12_pull2_redo_same_full.
Proof.
  intros H. specialize (H p2_sz 9 p2_sv p2_s1 p2_N 14%nat false eq_refl eq_refl).
  assert (Hg : good p2_sz p2_sv p2_s1) by (apply good_b_sound; vm_compute; reflexivity).
  specialize (H Hg eq_refl p2_n). vm_compute in H. discriminate.
Qed.
Print Assumptions C12_pull2_redo_same_refuted.

(** What holds: both runs list the served manifest, the uninterrupted one under the name as it is stored before, the
    repeated one under the name as it is stored after the crash and the restart; these are the same name unless the
    crash fell between Link's remove and create while the request spells the name in another letter case than the
    store does (decidable: [link_name] on the two stores). *)
Theorem C12_pull2_redo_same_partial : forall size_of emp sv s n k np,
  size_of emp = 0 -> guard2 size_of sv = true -> good size_of sv s -> honest sv = true ->
  let c := restart2 size_of np (crash2 size_of emp s n sv k) in
  link_name (base c) n = link_name (base s) n ->
  listed_as (exec2 size_of emp c n sv) (link_name (base s) n) (s2_man sv) = true /\
  listed_as (exec2 size_of emp s n sv) (link_name (base s) n) (s2_man sv) = true.
Proof.
  intros size_of emp sv s n k np He Hg Hgd Hh c En. split.
  - rewrite <- En. apply (C12_pull2_redo size_of emp sv s n k np He Hg Hgd Hh).
  - destruct (pull2_ok size_of emp He sv Hg s n Hgd) as [_ [H1 H2]]. apply H1, H2, Hh.
Qed.
Print Assumptions C12_pull2_redo_same_partial.

(** Chunk records that outlived their layer (an old handler removed the blob; the records are blobs of their own): the
    scratch file is empty when the pull opens it, no record counts (Chunker.Fresh), every chunk is fetched again and
    the pull succeeds with all layers committed. *)
Example C12_pull2_stale_records :
  let s := MkSt2 (MkStore [] [(4, 4); (5, 5); (6, 6); (3, 3)] []) [] in
  has_rec p2_sz s 4 = true /\ has_rec p2_sz s 5 = true /\ has_rec p2_sz s 6 = true /\
  snd (pull2 p2_sz 9 s p2_n p2_sv) = ROk /\
  man_okb p2_sz (base (exec2 p2_sz 9 s p2_n p2_sv)) (s2_man p2_sv) = true /\
  effects2 p2_sz 9 s p2_n p2_sv =
    [XPut 1 0; XPut 1 1; XCommit 1; XPut 2 0; XCommit 2; XBase (ETruncMan p2_n); XBase (EWriteMan p2_n (Readable (s2_man p2_sv)))].
Proof. vm_compute. repeat split. Qed.

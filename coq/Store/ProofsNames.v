(** * Store/ProofsNames.v — case folding, the string order, and getExistingName *)
From Coq Require Import List NArith Bool Arith Lia Permutation.
From V Require Import Common.Bytes Store.Fs Store.Ops Store.ProofsAlist.
Import ListNotations.
Open Scope N_scope.

Lemma eqfold_spec a b : eqfold a b = true <-> foldstr a = foldstr b.
Proof. unfold eqfold. apply eqb_str_spec. Qed.

Lemma eqfold_refl a : eqfold a a = true.
Proof. apply eqfold_spec; reflexivity. Qed.

Lemma eqfold_sym a b : eqfold a b = eqfold b a.
Proof.
  destruct (eqfold a b) eqn:E1, (eqfold b a) eqn:E2; try reflexivity.
  - apply eqfold_spec in E1. symmetry in E1. apply eqfold_spec in E1. congruence.
  - apply eqfold_spec in E2. symmetry in E2. apply eqfold_spec in E2. congruence.
Qed.

Lemma eqfold_length a b : eqfold a b = true -> length a = length b.
Proof. intros H. apply eqfold_spec in H. apply (f_equal (@length N)) in H. unfold foldstr in H. rewrite !map_length in H. exact H. Qed.

Lemma name_eqfold_spec a b : name_eqfold a b = true <-> nfold a = nfold b.
Proof. unfold name_eqfold. apply name_eqb_spec. Qed.

Lemma name_eqfold_refl a : name_eqfold a a = true.
Proof. apply name_eqfold_spec; reflexivity. Qed.

Lemma name_eqfold_sym a b : name_eqfold a b = true -> name_eqfold b a = true.
Proof. rewrite !name_eqfold_spec. congruence. Qed.

Lemma name_eqfold_trans a b c : name_eqfold a b = true -> name_eqfold b c = true -> name_eqfold a c = true.
Proof. rewrite !name_eqfold_spec. congruence. Qed.

Lemma name_eqfold_parts a b :
  name_eqfold a b = true <->
  eqfold (nhost a) (nhost b) = true /\ eqfold (nns a) (nns b) = true /\ eqfold (nmodel a) (nmodel b) = true /\ eqfold (ntag a) (ntag b) = true.
Proof.
  unfold name_eqfold, name_eqb, nfold, eqfold. cbn. rewrite !andb_true_iff. tauto.
Qed.

Lemma ltb_str_irrefl a : ltb_str a a = false.
Proof. induction a as [|x a IH]; cbn; [reflexivity|]. rewrite N.ltb_irrefl. exact IH. Qed.

Lemma ltb_str_trans a b c : ltb_str a b = true -> ltb_str b c = true -> ltb_str a c = true.
Proof.
  revert b c; induction a as [|x a IH]; intros [|y b] [|z c]; cbn; try congruence; try reflexivity.
  destruct (x <? y) eqn:Exy; [|destruct (y <? x) eqn:Eyx; [discriminate|]].
  - intros _. destruct (y <? z) eqn:Eyz; [|destruct (z <? y) eqn:Ezy; [discriminate|]].
    + intros _. apply N.ltb_lt in Exy, Eyz. assert (H : (x <? z) = true) by (apply N.ltb_lt; lia). rewrite H. reflexivity.
    + intros _. apply N.ltb_lt in Exy. apply N.ltb_ge in Eyz, Ezy. assert (y = z) by lia. subst z.
      assert (H : (x <? y) = true) by (apply N.ltb_lt; lia). rewrite H. reflexivity.
  - apply N.ltb_ge in Exy, Eyx. assert (x = y) by lia. subst y. intros Hab.
    destruct (x <? z) eqn:Exz; [reflexivity|]. destruct (z <? x) eqn:Ezx; [discriminate|]. intros Hbc. eapply IH; eassumption.
Qed.

Lemma ltb_str_total a b : ltb_str a b = false -> ltb_str b a = false -> a = b.
Proof.
  revert b; induction a as [|x a IH]; intros [|y b]; cbn; try congruence.
  destruct (x <? y) eqn:Exy; [discriminate|]. destruct (y <? x) eqn:Eyx; [discriminate|].
  apply N.ltb_ge in Exy, Eyx. assert (x = y) by lia. subst y. intros H1 H2. f_equal. apply IH; assumption.
Qed.

Lemma app_inj_length {A} (a a' b b' : list A) : length a = length a' -> a ++ b = a' ++ b' -> a = a' /\ b = b'.
Proof.
  revert a'; induction a as [|x a IH]; intros [|x' a']; cbn; try discriminate.
  - auto.
  - intros [= Hl] [= -> H]. apply IH in H as [-> ->]; auto.
Qed.

Lemma nstring_inj a b : name_eqfold a b = true -> nstring a = nstring b -> a = b.
Proof.
  intros Hf Hs. apply name_eqfold_parts in Hf as [H1 [H2 [H3 H4]]].
  apply eqfold_length in H1, H2, H3, H4. destruct a as [h n m t], b as [h' n' m' t']; cbn in *.
  unfold nstring in Hs; cbn in Hs.
  apply app_inj_length in Hs as [-> Hs]; [|exact H1]. cbn in Hs. injection Hs as Hs.
  apply app_inj_length in Hs as [-> Hs]; [|exact H2]. cbn in Hs. injection Hs as Hs.
  apply app_inj_length in Hs as [-> Hs]; [|exact H3]. cbn in Hs. injection Hs as Hs. subst. reflexivity.
Qed.

Lemma prefix_len_le e n : (prefix_len e n <= 4)%nat.
Proof. unfold prefix_len. repeat match goal with |- context [if ?b then _ else _] => destruct b end; repeat constructor. Qed.

Lemma prefix_len_4 e n : prefix_len e n = 4%nat <-> name_eqfold e n = true.
Proof.
  rewrite name_eqfold_parts. unfold prefix_len.
  destruct (eqfold (nhost e) (nhost n)), (eqfold (nns e) (nns n)), (eqfold (nmodel e) (nmodel n)), (eqfold (ntag e) (ntag n));
    split; intros H; try discriminate; try lia; try tauto; try (destruct H as [? [? [? ?]]]; discriminate).
Qed.

Lemma merge_4 e n : merge_parts 4 e n = e.
Proof. destruct e; reflexivity. Qed.

Lemma merge_0 e n : merge_parts 0 e n = n.
Proof. destruct n; reflexivity. Qed.

Lemma merge_eqfold e n : name_eqfold (merge_parts (prefix_len e n) e n) n = true.
Proof.
  apply name_eqfold_parts. unfold prefix_len, merge_parts.
  destruct (eqfold (nhost e) (nhost n)) eqn:E1; cbn; [|repeat split; apply eqfold_refl].
  destruct (eqfold (nns e) (nns n)) eqn:E2; cbn; [|repeat split; try apply eqfold_refl; exact E1].
  destruct (eqfold (nmodel e) (nmodel n)) eqn:E3; cbn; [|repeat split; try apply eqfold_refl; assumption].
  destruct (eqfold (ntag e) (ntag n)) eqn:E4; cbn; repeat split; try apply eqfold_refl; assumption.
Qed.

Definition cand (n e : name) : nat * name := (prefix_len e n, merge_parts (prefix_len e n) e n).
Definition betterp (x y : nat * name) : bool := better (fst x) (snd x) (fst y) (snd y).

Lemma gen_step_cand n acc e : gen_step n acc e = if betterp (cand n e) acc then cand n e else acc.
Proof. reflexivity. Qed.

Lemma betterp_spec x y :
  betterp x y = true <->
  (fst y < fst x)%nat \/ (fst x = fst y /\ (0 < fst x)%nat /\ ltb_str (nstring (snd x)) (nstring (snd y)) = true).
Proof. unfold betterp, better. rewrite orb_true_iff, !andb_true_iff, !Nat.ltb_lt, Nat.eqb_eq. tauto. Qed.

Lemma betterp_irrefl x : betterp x x = false.
Proof. apply not_true_iff_false. rewrite betterp_spec, ltb_str_irrefl. intros [H|[_ [_ H]]]; [lia | discriminate]. Qed.

Lemma betterp_trans x y z : betterp x y = true -> betterp y z = true -> betterp x z = true.
Proof.
  intros H1 H2. apply betterp_spec in H1, H2. apply betterp_spec.
  destruct H1 as [H1|[E1 [P1 L1]]], H2 as [H2|[E2 [P2 L2]]]; [left; lia | left; lia | left; lia | right].
  split; [congruence|]. split; [exact P1 | eapply ltb_str_trans; eassumption].
Qed.

Definition valid (n : name) (x : nat * name) : Prop := name_eqfold (snd x) n = true /\ (fst x = 0%nat -> snd x = n).

Lemma valid_cand n e : valid n (cand n e).
Proof.
  split; [apply merge_eqfold|]. cbn. intros ->. apply merge_0.
Qed.

Lemma valid_start n : valid n (0%nat, n).
Proof. split; [apply name_eqfold_refl | reflexivity]. Qed.

Lemma tie_eq n x y : valid n x -> valid n y -> betterp x y = false -> betterp y x = false -> snd x = snd y.
Proof.
  intros [Hx Hx0] [Hy Hy0] H1 H2. apply not_true_iff_false in H1, H2. rewrite betterp_spec in H1, H2.
  assert (Hk : fst x = fst y) by lia. destruct (fst x) as [|k] eqn:Ek; [rewrite Hx0, Hy0 by congruence; reflexivity|].
  apply nstring_inj; [eapply name_eqfold_trans; [exact Hx | apply name_eqfold_sym, Hy]|].
  apply ltb_str_total; apply not_true_iff_false; intros L; [apply H1 | apply H2]; right; (split; [congruence|]); (split; [lia | exact L]).
Qed.

Definition members (n : name) (acc : nat * name) (l : list name) : list (nat * name) := acc :: map (cand n) l.

(* the accumulator is a maximum of what was seen so far: irreflexivity and transitivity of [betterp] are all it takes *)
Lemma fold_max_from n l : forall acc seen,
  In acc seen -> (forall x, In x seen -> betterp x acc = false) ->
  In (fold_left (gen_step n) l acc) (seen ++ map (cand n) l) /\
  forall x, In x (seen ++ map (cand n) l) -> betterp x (fold_left (gen_step n) l acc) = false.
Proof.
  induction l as [|e l IH]; intros acc seen Hin Hmax; cbn [fold_left map]; [rewrite app_nil_r; auto|].
  replace (seen ++ cand n e :: map (cand n) l) with ((seen ++ [cand n e]) ++ map (cand n) l) by (rewrite <- app_assoc; reflexivity).
  apply IH; rewrite gen_step_cand; destruct (betterp (cand n e) acc) eqn:Eb.
  - apply in_or_app. right. left. reflexivity.
  - apply in_or_app. left. exact Hin.
  - intros x Hx. apply in_app_or in Hx as [Hx|[<-|[]]]; [|apply betterp_irrefl].
    destruct (betterp x (cand n e)) eqn:E; [|reflexivity]. rewrite <- (Hmax x Hx). symmetry. eapply betterp_trans; eassumption.
  - intros x Hx. apply in_app_or in Hx as [Hx|[<-|[]]]; [apply Hmax, Hx | exact Eb].
Qed.

Lemma fold_max n l acc :
  let r := fold_left (gen_step n) l acc in
  In r (members n acc l) /\ (forall x, In x (members n acc l) -> betterp x r = false).
Proof. apply (fold_max_from n l acc [acc]); [left; reflexivity | intros x [<-|[]]; apply betterp_irrefl]. Qed.

Lemma members_valid n acc l : valid n acc -> forall x, In x (members n acc l) -> valid n x.
Proof.
  intros Hv x [<-|Hx]; [exact Hv|]. apply in_map_iff in Hx as [e [<- _]]. apply valid_cand.
Qed.

Lemma get_existing_eqfold ex n : name_eqfold (get_existing ex n) n = true.
Proof.
  unfold get_existing. destruct (fold_max n ex (0%nat, n)) as [Hin _].
  apply (members_valid n _ ex (valid_start n)) in Hin. apply Hin.
Qed.

Lemma get_existing_stored ex n e :
  In e ex -> name_eqfold e n = true -> In (get_existing ex n) ex.
Proof.
  intros He Hf. unfold get_existing.
  destruct (fold_max n ex (0%nat, n)) as [Hin Hmax]. cbn in Hin, Hmax.
  set (r := fold_left (gen_step n) ex (0%nat, n)) in *.
  assert (Hc : betterp (cand n e) r = false) by (apply Hmax; right; apply in_map; exact He).
  assert (Hk : fst (cand n e) = 4%nat) by (apply prefix_len_4; exact Hf).
  assert (Hr : fst r = 4%nat).
  { unfold betterp, better in Hc. rewrite Hk in Hc. apply orb_false_iff in Hc as [Hc _]. apply Nat.ltb_ge in Hc.
    destruct Hin as [Hr|Hr]; [rewrite <- Hr in Hc; cbn in Hc; lia|].
    apply in_map_iff in Hr as [e' [Hr _]]. rewrite <- Hr in *. cbn in *. pose proof (prefix_len_le e' n). lia. }
  destruct Hin as [Hr'|Hr']; [rewrite <- Hr' in Hr; discriminate|].
  apply in_map_iff in Hr' as [e' [Hr' He']]. rewrite <- Hr' in *. cbn in Hr. cbn. rewrite Hr, merge_4. exact He'.
Qed.

Lemma get_existing_perm ex ex' n : Permutation ex ex' -> get_existing ex n = get_existing ex' n.
Proof.
  intros Hp. unfold get_existing.
  destruct (fold_max n ex (0%nat, n)) as [Hin Hmax], (fold_max n ex' (0%nat, n)) as [Hin' Hmax']. cbn in *.
  set (r := fold_left (gen_step n) ex (0%nat, n)) in *. set (r' := fold_left (gen_step n) ex' (0%nat, n)) in *.
  assert (Hm : forall x, In x (members n (0%nat, n) ex) <-> In x (members n (0%nat, n) ex')).
  { intros x. unfold members. cbn. split; (intros [H|H]; [left; exact H | right]).
    - eapply Permutation_in; [apply Permutation_map, Hp | exact H].
    - eapply Permutation_in; [apply Permutation_map, Permutation_sym, Hp | exact H]. }
  apply (tie_eq n).
  - apply (members_valid n _ ex (valid_start n)), Hin.
  - apply (members_valid n _ ex' (valid_start n)), Hin'.
  - apply Hmax'. apply Hm. exact Hin.
  - apply Hmax. apply Hm. exact Hin'.
Qed.

Lemma get_existing_exact ex n :
  In n ex -> (forall a b, In a ex -> In b ex -> name_eqfold a b = true -> a = b) -> get_existing ex n = n.
Proof.
  intros Hin Hu. apply Hu; [eapply get_existing_stored; [exact Hin | apply name_eqfold_refl] | exact Hin | apply get_existing_eqfold].
Qed.

Lemma get_existing_fresh ex n e :
  (forall x, In x ex -> name_eqfold x n = false) -> In e ex -> name_eqfold e (get_existing ex n) = false.
Proof.
  intros Hnone He. destruct (name_eqfold e (get_existing ex n)) eqn:E; [|reflexivity].
  specialize (Hnone e He). rewrite (name_eqfold_trans _ _ _ E (get_existing_eqfold ex n)) in Hnone. discriminate.
Qed.

(** the unrepaired function: the answer depends on the map order, and an exactly stored name can be missed *)
Definition w_host : str := [104].                      (* "h" *)
Definition w_e1 : name := MkName w_host [110;115] [77;111;100;101;108] [116].          (* h/ns/Model:t *)
Definition w_e2 : name := MkName w_host [110;115;50] [109;111;100;101;108] [116;50].   (* h/ns2/model:t2 *)
Definition w_n : name := MkName w_host [110;115] [109;111;100;101;108] [116].          (* h/ns/model:t *)

Lemma legacy_order_dependent :
  get_existing_legacy [w_e1; w_e2] w_n <> get_existing_legacy [w_e2; w_e1] w_n.
Proof. vm_compute. discriminate. Qed.

Lemma legacy_misses_stored_name :
  In w_e1 [w_e1; w_e2] /\ get_existing_legacy [w_e1; w_e2] w_e1 = w_n /\ ~ In w_n [w_e1; w_e2].
Proof.
  split; [left; reflexivity|]. split; [vm_compute; reflexivity|].
  intros [H|[H|[]]]; vm_compute in H; discriminate.
Qed.

Lemma repaired_on_witness :
  get_existing [w_e1; w_e2] w_n = w_e1 /\ get_existing [w_e2; w_e1] w_n = w_e1 /\ get_existing [w_e1; w_e2] w_e1 = w_e1.
Proof. vm_compute. auto. Qed.

(** * Store/ProofsShow.v — histories of completed operations: no manifest is ever unreadable, every listed model can be shown *)
From Coq Require Import List NArith Bool Arith Lia.
From V Require Import Common.Bytes Store.Fs Store.Ops Store.ProofsAlist Store.ProofsNames Store.ProofsInv Store.ProofsMore Store.ProofsOps Store.ProofsTop Store.ProofsRedo2.
Import ListNotations.
Open Scope N_scope.

Section Show.
  Variable size_of : N -> N.
  (** [wf mt c]: content [c] decodes as what media type [mt] holds (a GGUF for model / adapter / projector, a template
      that parses, JSON for params / messages / config; any text for system / license).  The handlers check this before
      they store a layer (ggml.Decode, template.Parse, their own JSON encoder); the theorem takes it as a guard on the
      requests. *)
  Variable wf : N -> N -> bool.
  Notation Inv := (Inv size_of).
  Notation exec := (exec size_of).
  Notation nl := (nl size_of).
  Notation lfl := (layer_from_layer size_of).

  Definition layer_wf (l : layer) : Prop := wf (lmt l) (dhex (ldg l)) = true.
  Definition man_wf (m : manifest) : Prop := Forall layer_wf (all_layers m).

  (** what GET /api/show needs of a manifest *)
  Definition showable (s : store) (m : manifest) : Prop :=
    man_ok size_of s m /\ has_model_b m = true /\ man_wf m.

  Definition base_wf (b : base) : bool :=
    match b with
    | BFiles d parts _ det =>
        forallb (fun p : N * option N => match snd p with None => wf (fst p) (dhex d) | Some c => wf (fst p) c end) parts
        && forallb (fun p : N * N => wf (fst p) (snd p)) det
    | BFrom _ => true
    end.
  Definition opt_wf (mt : N) (oc : option N) : bool := match oc with Some c => wf mt c | None => true end.
  Definition create_wf (q : create_req) : bool :=
    base_wf (cr_base q)
    && match cr_template q with Some (valid, c) => implb valid (wf MT_TEMPLATE c) | None => true end
    && opt_wf MT_SYSTEM (cr_system q) && forallb (wf MT_LICENSE) (cr_license q)
    && opt_wf MT_PARAMS (cr_params q) && opt_wf MT_MESSAGES (cr_messages q) && wf MT_CONFIG (cr_config q).
  Definition op_wf (o : op) : bool :=
    match o with
    | OCreate q => create_wf q
    | OPull _ (Some v) _ => forallb (fun l => wf (lmt l) (dhex (ldg l))) (all_layers (sv_manifest v))
    | _ => true
    end.
  Definition ops_wf (os : list op) : bool := forallb op_wf os.

  Lemma listed_effects (P : manifest -> Prop) es : forall s,
    (forall n m, listed s n m -> P m) -> (forall n m, In (EWriteMan n (Readable m)) es -> P m) ->
    forall n m, listed (apply_list s es) n m -> P m.
  Proof.
    induction es as [|e es IH]; intros s H Hw; [exact H|]. rewrite apply_list_cons. apply IH; [|intros n m Hi; apply (Hw n m); right; exact Hi].
    intros n m Hl. unfold listed in Hl. destruct e as [d|d|h c|h c|h|n'|n' ms|n'|h c|h|h i st|h i]; cbn in Hl; try (apply (H n m Hl)).
    - apply (In_aset name_eqb name_eqb_spec) in Hl as [[_ [=]]|[_ Hl]]. apply (H n m Hl).
    - apply (In_aset name_eqb name_eqb_spec) in Hl as [[-> <-]|[_ Hl]]; [apply (Hw n' m); left; reflexivity | apply (H n m Hl)].
    - apply (In_adel name_eqb name_eqb_spec) in Hl as [Hl _]. apply (H n m Hl).
  Qed.

  (** the manifests an operation writes: the one a create builds, a copy of a listed one, the one a pull is served *)
  Lemma exec_keeps (P : manifest -> Prop) s o :
    Inv s -> op_guard size_of s o = true -> (forall n m, listed s n m -> P m) ->
    (forall q m cl, o = OCreate q -> snd (create_build size_of lfl false s q) = Some (m, cl) -> P m) ->
    (forall n v ord, o = OPull n (Some v) ord -> P (sv_manifest v)) ->
    forall n m, listed (exec s o) n m -> P m.
  Proof.
    intros HI Hg Hs Hc Hp n m. unfold listed. rewrite (exec_mans size_of s o HI Hg). apply listed_effects; [exact Hs|]. clear n m.
    intros n m Hin. destruct o as [d c|q|a b|nn|nn [v|] ord|]; cbn [op_mid] in Hin; try destruct Hin.
    - destruct (snd (create_build size_of lfl false s q)) as [[m' cl]|] eqn:Eb; [|destruct Hin].
      destruct Hin as [Hin|[Hin|[]]]; [discriminate|]. injection Hin as _ <-. apply (Hc q m' cl eq_refl Eb).
    - destruct (name_eqb _ _); [destruct Hin|]. destruct (mget (get_existing (readable_names s) a) s) as [ms|] eqn:Ea; [|destruct Hin].
      destruct Hin as [Hin|[Hin|[]]]; [discriminate|]. injection Hin as _ ->. apply (Hs _ m (mget_listed _ _ _ Ea)).
    - destruct (mget _ s) as [[mo|]|]; [|destruct Hin|destruct Hin]. destruct Hin as [Hin|[]]. discriminate.
    - destruct (snd (op_run size_of s (OPull nn (Some v) ord))); [|destruct Hin|destruct Hin].
      destruct Hin as [Hin|[Hin|[]]]; [discriminate|]. injection Hin as _ <-. apply (Hp nn v ord eq_refl).
  Qed.

  Lemma create_build_wf s q m cl :
    Inv s -> (forall n m', listed s n m' -> man_wf m') -> create_wf q = true ->
    snd (create_build size_of lfl false s q) = Some (m, cl) -> man_wf m.
  Proof.
    intros HI Hs Hq. unfold create_wf in Hq. repeat (apply andb_true_iff in Hq as [Hq ?]).
    rename H into Hcfg, H0 into Hmsg, H1 into Hpar, H2 into Hlic, H3 into Hsys, H4 into Htpl.
    rewrite (create_build_snd size_of).
    assert (Hopt : forall mt oc, opt_wf mt oc = true -> forall c, oc = Some c -> layer_wf (nl mt c)) by (intros mt oc H c ->; exact H).
    destruct (pure_base size_of s (cr_base q)) as [layers|] eqn:Ep; cbn [pure_build]; [|discriminate].
    assert (Hbase : Forall layer_wf layers).
    { destruct (cr_base q) as [d parts fail det|src].
      - cbn [pure_base] in Ep. destruct (bget (dhex d) s) as [c0|]; [|discriminate]. destruct (fail || _); [discriminate|]. injection Ep as <-.
        cbn [base_wf] in Hq. apply andb_true_iff in Hq as [Hp Hd]. rewrite forallb_forall in Hp, Hd.
        apply Forall_app. split; apply Forall_forall; intros l Hin; apply in_map_iff in Hin as [p [<- Hin]].
        + specialize (Hp p Hin). destruct p as [mt [c|]]; exact Hp.
        + apply (Hd p Hin).
      - rewrite (base_from_pure size_of) in Ep by exact HI. destruct (mget src s) as [[msrc|]|] eqn:Es; try discriminate. injection Ep as <-.
        assert (Hw := Hs src msrc (mget_listed _ _ _ Es)). apply Forall_app in Hw as [Hw _].
        rewrite Forall_forall in *. intros l Hin. apply in_map_iff in Hin as [l0 [<- Hin]]. apply (Hw l0 Hin). }
    assert (Ht : Forall layer_wf (fst (pure_template size_of layers q))).
    { apply Forall_pure_template; [exact Hbase|]. intros c E. rewrite E in Htpl. exact Htpl. }
    destruct (pure_template size_of layers q) as [l2 okt]. cbn [fst] in Ht. destruct okt; [|discriminate]. intros [= <- _].
    apply Forall_app. split; [|constructor; [exact Hcfg | constructor]]. cbn [pure_tail mlayers].
    apply Forall_pure_set; [|apply Hopt, Hmsg]. apply Forall_pure_set; [|apply Hopt, Hpar].
    apply Forall_app. split; [apply Forall_pure_set; [exact Ht | apply Hopt, Hsys]|].
    rewrite forallb_forall in Hlic. apply Forall_forall. intros l Hin. apply in_map_iff in Hin as [c [<- Hin]]. apply Hlic, Hin.
  Qed.

  Lemma exec_wf s o :
    Inv s -> op_guard size_of s o = true -> op_wf o = true ->
    (forall n m, listed s n m -> man_wf m) -> forall n m, listed (exec s o) n m -> man_wf m.
  Proof.
    intros HI Hg Ho Hs. apply exec_keeps; try assumption.
    - intros q m cl ->. apply create_build_wf; assumption.
    - intros n v ord ->. apply Forall_forall. apply forallb_forall. exact Ho.
  Qed.

  Definition hasm (ls : list layer) : Prop := exists l, In l ls /\ lmt l = MT_MODEL.

  Lemma hasm_spec m : has_model_b m = true <-> hasm (mlayers m).
  Proof.
    unfold has_model_b, hasm. rewrite existsb_exists. split; intros [l [H1 H2]]; exists l; (split; [exact H1|]); apply N.eqb_eq; exact H2.
  Qed.

  Lemma hasm_app a b : hasm a -> hasm (a ++ b).
  Proof. intros [l [H1 H2]]. exists l. split; [apply in_or_app; left; exact H1 | exact H2]. Qed.

  Lemma hasm_drop_mt mt layers : mt <> MT_MODEL -> hasm layers -> hasm (drop_mt mt layers).
  Proof.
    intros Hn [l [H1 H2]]. exists l. split; [|exact H2]. apply filter_In. split; [exact H1|].
    rewrite H2. apply negb_true_iff, N.eqb_neq. congruence.
  Qed.

  Lemma hasm_pure_set layers mt oc : mt <> MT_MODEL -> hasm layers -> hasm (pure_set size_of layers mt oc).
  Proof. intros Hn H. destruct oc as [c|]; [apply hasm_app, hasm_drop_mt; assumption | exact H]. Qed.

  Lemma hasm_map (f : layer -> layer) ls : (forall l, lmt (f l) = lmt l) -> hasm ls -> hasm (map f ls).
  Proof. intros Hf [l [H1 H2]]. exists (f l). split; [apply in_map, H1 | rewrite Hf; exact H2]. Qed.

  Definition HM (s : store) : Prop := forall n m, listed s n m -> has_model_b m = true.

  Lemma create_build_has_model s q m clean :
    Inv s -> HM s -> op_has_model (OCreate q) = true ->
    snd (create_build size_of lfl false s q) = Some (m, clean) -> has_model_b m = true.
  Proof.
    intros HI Hs Hq. rewrite (create_build_snd size_of). cbn in Hq.
    destruct (pure_base size_of s (cr_base q)) as [layers|] eqn:Ep; cbn [pure_build]; [|discriminate].
    assert (Hbase : hasm layers).
    { destruct (cr_base q) as [d parts fail det|src].
      - cbn [pure_base] in Ep. destruct (bget (dhex d) s) as [c0|]; [|discriminate]. destruct (fail || _); [discriminate|]. injection Ep as <-.
        apply hasm_app. apply existsb_exists in Hq as [p [Hp Hm]]. exists (part_layer size_of d c0 p).
        split; [apply in_map, Hp | destruct p as [mt [c|]]; apply N.eqb_eq, Hm].
      - rewrite (base_from_pure size_of) in Ep by exact HI. destruct (mget src s) as [[msrc|]|] eqn:Es; try discriminate. injection Ep as <-.
        apply hasm_map; [reflexivity | apply hasm_spec, (Hs src), mget_listed, Es]. }
    assert (Ht : hasm (fst (pure_template size_of layers q))).
    { unfold pure_template. destruct (cr_template q) as [[[|] c]|]; cbn [fst]; [apply hasm_app| |exact Hbase]; apply hasm_drop_mt; (discriminate || exact Hbase). }
    destruct (pure_template size_of layers q) as [l2 okt]. cbn [fst] in Ht. destruct okt; [|discriminate]. intros [= <- _].
    apply hasm_spec. cbn [pure_tail mlayers]. repeat (apply hasm_pure_set; [discriminate|]). apply hasm_app, hasm_pure_set; [discriminate | exact Ht].
  Qed.

  Lemma exec_HM s o : Inv s -> op_guard size_of s o = true -> op_has_model o = true -> HM s -> HM (exec s o).
  Proof.
    intros HI Hg Ho Hs. unfold HM. apply (exec_keeps (fun m => has_model_b m = true)); try assumption.
    - intros q m cl ->. apply create_build_has_model; assumption.
    - intros n v ord ->. exact Ho.
  Qed.

  Lemma exec_readable s o : Inv s -> op_guard size_of s o = true -> has_unreadable s = false -> has_unreadable (exec s o) = false.
  Proof.
    intros HI Hg Hu. apply (has_unreadable_sub s _ Hu). intros n. rewrite (exec_mans size_of s o HI Hg).
    destruct (op_mid_cases size_of s o) as [Em | [t [_ [Em | [ms Em]]]]]; rewrite Em; cbn; [auto| |].
    - intros Hin. apply (In_adel name_eqb name_eqb_spec) in Hin. apply Hin.
    - intros Hin. apply (In_aset name_eqb name_eqb_spec) in Hin as [[_ E]|[Hn Hin]]; [destruct (op_mid_readable size_of s o t ms Hu Em); congruence|].
      apply (In_aset name_eqb name_eqb_spec) in Hin as [[-> _]|[_ Hin]]; [congruence | exact Hin].
  Qed.

  Theorem history_readable os : op_guards size_of empty_store os -> has_unreadable (exec_all size_of empty_store os) = false.
  Proof.
    intros Hg. apply (exec_all_ind size_of (fun s => has_unreadable s = false) (fun _ => True)); try assumption; auto using Inv_empty.
    intros s o HI Hgo _. apply exec_readable; assumption.
  Qed.

  Theorem history_showable os :
    op_guards size_of empty_store os -> ops_have_model os = true -> ops_wf os = true ->
    let s := exec_all size_of empty_store os in
    has_unreadable s = false /\ forall n m, mget n s = Some (Readable m) -> showable s m.
  Proof.
    intros Hg Hm Hw s. split; [apply history_readable, Hg|]. intros n m Hget. apply mget_listed in Hget.
    assert (HI : Inv s) by (apply exec_all_inv; [apply Inv_empty | exact Hg]).
    assert (H0 : forall P : manifest -> Prop, forall n m, listed empty_store n m -> P m) by (intros P n' m' []).
    split; [apply (inv_mans size_of _ HI n m), Hget|]. split.
    - revert n m Hget. apply (exec_all_ind size_of HM (fun o => op_has_model o = true)); auto using Inv_empty.
      + intros s0 o HI0 Hg0 Ho. apply exec_HM; assumption.
      + apply forallb_forall, Hm.
      + exact (H0 _).
    - revert n m Hget. apply (exec_all_ind size_of (fun s => forall n m, listed s n m -> man_wf m) (fun o => op_wf o = true)); auto using Inv_empty.
      + intros s0 o HI0 Hg0 Ho. apply exec_wf; assumption.
      + apply forallb_forall, Hw.
      + exact (H0 _).
  Qed.
End Show.

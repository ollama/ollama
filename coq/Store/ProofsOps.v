(** * Store/ProofsOps.v — what every builder of Ops.v does to the run and which list it returns; the shape of an operation's run *)
From Coq Require Import List NArith Bool Arith Lia.
From V Require Import Common.Bytes Store.Fs Store.Ops Store.ProofsAlist Store.ProofsNames Store.ProofsInv Store.ProofsMore.
Import ListNotations.
Open Scope N_scope.

(* the builders are used through their spec lemmas below: [cbn] must not unfold them (here and in the files that import this one) *)
Arguments new_layer : simpl never.
Arguments layer_remove : simpl never.
Arguments layer_from_layer : simpl never.
Arguments set_layer : simpl never.
Arguments download : simpl never.
Arguments write_manifest : simpl never.
Arguments create_template : simpl never.
Arguments create_tail : simpl never.

Section OpsOk.
  Variable size_of : N -> N.
  Notation Inv := (Inv size_of).
  Notation Rok := (Rok size_of).
  Notation Bok := (Bok size_of).
  Notation ok_trace := (ok_trace size_of).
  Notation man_ok := (man_ok size_of).
  Notation blob_ok := (blob_ok size_of).
  Notation lfl := (layer_from_layer size_of).

  Definition canon_l (l : layer) : Prop := dcolon (ldg l) = true.
  Definition present (s : store) (l : layer) : Prop := bget (dhex (ldg l)) s = Some (dhex (ldg l)).
  Definition grows (s s' : store) : Prop := forall h x, bget h s = Some x -> bget h s' = Some x.

  Lemma man_ok_ext s s' m : blobs s' = blobs s -> man_ok s m -> man_ok s' m.
  Proof.
    intros He H. unfold ProofsInv.man_ok, ProofsInv.blob_ok, bget in *. rewrite He. exact H.
  Qed.

  Lemma blob_ok_grows s s' l : grows s s' -> blob_ok s l -> blob_ok s' l.
  Proof. intros Hg [H1 [H2 H3]]. split; [exact H1|]. split; [apply Hg, H2 | exact H3]. Qed.

  Lemma blob_okb_spec s l : blob_okb size_of s l = true <-> blob_ok s l.
  Proof.
    unfold blob_okb, ProofsInv.blob_ok. rewrite !andb_true_iff, N.eqb_eq. split.
    - intros [[H1 H2] H3]. destruct (bget (dhex (ldg l)) s) as [c|]; [|discriminate]. apply N.eqb_eq in H2. subst c. auto.
    - intros [H1 [H2 H3]]. rewrite H2, N.eqb_refl. auto.
  Qed.

  Lemma man_okb_spec s m : man_okb size_of s m = true <-> man_ok s m.
  Proof.
    unfold man_okb, ProofsInv.man_ok. rewrite forallb_forall, Forall_forall. split; intros H l Hl; apply blob_okb_spec, H, Hl.
  Qed.

  Lemma listed_canon s n m : Inv s -> listed s n m -> Forall canon_l (all_layers m).
  Proof. intros HI Hl. eapply Forall_impl; [|apply (inv_mans size_of s HI n m Hl)]. intros l H. apply H. Qed.

  (** the lists the builders return are functions of the request *)
  Definition nl (mt c : N) : layer := MkLayer mt (MkDigest true c) (size_of c).
  Definition drop_mt (mt : N) (layers : list layer) : list layer := filter (fun l => negb (lmt l =? mt)) layers.

  Definition pure_set (layers : list layer) (mt : N) (oc : option N) : list layer :=
    match oc with None => layers | Some c => drop_mt mt layers ++ [nl mt c] end.

  Definition pure_template (layers : list layer) (q : create_req) : list layer * bool :=
    match cr_template q with
    | None => (layers, true)
    | Some (valid, c) => if valid then (drop_mt MT_TEMPLATE layers ++ [nl MT_TEMPLATE c], true) else (drop_mt MT_TEMPLATE layers, false)
    end.

  Definition pure_tail (layers : list layer) (q : create_req) : manifest :=
    MkManifest (nl MT_CONFIG (cr_config q))
      (pure_set (pure_set (pure_set layers MT_SYSTEM (cr_system q) ++ map (nl MT_LICENSE) (cr_license q)) MT_PARAMS (cr_params q)) MT_MESSAGES (cr_messages q)).

  Definition pure_build (ob : option (list layer)) (q : create_req) : option (manifest * bool) :=
    match ob with
    | None => None
    | Some layers => let (l2, okt) := pure_template layers q in if okt then Some (pure_tail l2 q, true) else None
    end.

  Definition part_layer (d : digest) (c0 : N) (p : N * option N) : layer :=
    match p with
    | (mt, None) => MkLayer mt (canon d) (size_of c0)
    | (mt, Some c) => nl mt c
    end.

  Definition pure_base (s : store) (b : base) : option (list layer) :=
    match b with
    | BFiles d parts fail det =>
        match bget (dhex d) s with
        | None => None
        | Some c0 => if fail || match parts with [] => true | _ => false end then None
                     else Some (map (part_layer d c0) parts ++ map (fun p => nl (fst p) (snd p)) det)
        end
    | BFrom src => match mget src s with Some (Readable m) => from_layers lfl s (mlayers m) | _ => None end
    end.

  Lemma Forall_drop_mt (P : layer -> Prop) mt layers : Forall P layers -> Forall P (drop_mt mt layers).
  Proof. rewrite !Forall_forall. intros H l Hl. apply filter_In in Hl. apply H, Hl. Qed.

  Lemma Forall_pure_set (P : layer -> Prop) layers mt oc :
    Forall P layers -> (forall c, oc = Some c -> P (nl mt c)) -> Forall P (pure_set layers mt oc).
  Proof.
    intros Hl Hc. destruct oc as [c|]; [|exact Hl]. apply Forall_app. split; [apply Forall_drop_mt, Hl | constructor; [apply Hc; reflexivity | constructor]].
  Qed.

  Lemma Forall_pure_template (P : layer -> Prop) layers q :
    Forall P layers -> (forall c, cr_template q = Some (true, c) -> P (nl MT_TEMPLATE c)) -> Forall P (fst (pure_template layers q)).
  Proof.
    intros Hl Hc. unfold pure_template. destruct (cr_template q) as [[[|] c]|]; cbn [fst]; [|apply Forall_drop_mt, Hl | exact Hl].
    apply Forall_app. split; [apply Forall_drop_mt, Hl | constructor; [apply Hc; reflexivity | constructor]].
  Qed.

  Lemma from_layers_canon s ls : forall out, from_layers lfl s ls = Some out -> Forall canon_l out.
  Proof.
    induction ls as [|l ls IH]; intros out; cbn; [intros [= <-]; constructor|]. unfold layer_from_layer at 1.
    destruct (bget (dhex (ldg l)) s); [|discriminate]. destruct (from_layers lfl s ls) as [t'|]; [|discriminate].
    intros [= <-]. constructor; [reflexivity | apply IH; reflexivity].
  Qed.

  Lemma pure_base_canon s b ls : pure_base s b = Some ls -> Forall canon_l ls.
  Proof.
    destruct b as [d parts fail det|src]; cbn.
    - destruct (bget (dhex d) s); [|discriminate]. destruct (fail || _); [discriminate|]. intros [= <-].
      apply Forall_app. split; apply Forall_forall; intros l Hl; apply in_map_iff in Hl as [p [<- _]]; [destruct p as [mt [c|]]|]; reflexivity.
    - destruct (mget src s) as [[m|]|]; try discriminate. apply from_layers_canon.
  Qed.

  Lemma new_layer_spec r mt c r' l : new_layer size_of r mt c = (r', l) -> Bok r r' /\ l = nl mt c /\ grows (rs r) (rs r').
  Proof.
    unfold new_layer. change (bget c (rs (emit r (EAddDebris DTemp)))) with (bget c (rs r)).
    assert (B : Bok r (emit r (EAddDebris DTemp))) by (apply Bok_debris; [apply Bok_refl | exact I]).
    destruct (bget c (rs r)) eqn:Eb; intros [= <- <-].
    - split; [apply Bok_debris; [exact B | exact I]|]. split; [reflexivity | intros h x Hx; exact Hx].
    - split; [apply Bok_emit; [exact B | exact I | reflexivity]|]. split; [reflexivity|]. intros h x Hx.
      unfold bget in *. cbn [rs emit apply_effect blobs]. destruct (N.eq_dec h c) as [->|Hn]; [congruence | rewrite bget_aset_other by exact Hn; exact Hx].
  Qed.

  Lemma new_layer_present r mt c r' l : Inv (rs r) -> new_layer size_of r mt c = (r', l) -> blob_ok (rs r') (nl mt c).
  Proof.
    unfold new_layer. change (bget c (rs (emit r (EAddDebris DTemp)))) with (bget c (rs r)). intros HI.
    destruct (bget c (rs r)) as [c0|] eqn:Eb; intros [= <- _]; (split; [reflexivity|]; split; [|reflexivity]); unfold bget in *; cbn [rs emit apply_effect blobs nl ldg dhex].
    - rewrite Eb. f_equal. apply (bget_intact size_of (rs r) c c0 HI Eb).
    - apply bget_aset_same.
  Qed.

  (** the step of Layer.Remove and of deleteUnusedLayers *)
  Definition rm_unused (r : run) (d : digest) : run :=
    if referenced (rs r) d then r
    else match bget (dhex d) (rs r) with Some _ => emit r (ERmBlob (dhex d)) | None => r end.

  Lemma layer_remove_du r l : layer_remove r l = rm_unused r (ldg l).
  Proof. reflexivity. Qed.

  Lemma delete_unused_fold r dm : delete_unused r dm = fold_left rm_unused dm r.
  Proof. reflexivity. Qed.

  Lemma remove_layers_du r m : remove_layers r m = delete_unused r (map ldg (all_layers m)).
  Proof.
    unfold remove_layers. rewrite delete_unused_fold. generalize (all_layers m) as ls. intros ls. revert r.
    induction ls as [|l ls IH]; intros r; cbn [fold_left map]; [reflexivity | rewrite layer_remove_du; apply IH].
  Qed.

  Lemma rm_unused_bok r d : dcolon d = true -> Bok r (rm_unused r d).
  Proof.
    intros Hc. unfold rm_unused. destruct (referenced (rs r) d) eqn:Er; [apply Bok_refl|].
    destruct (bget (dhex d) (rs r)); [|apply Bok_refl].
    apply Bok_emit; [apply Bok_refl | exact I|]. intros HI. apply (referenced_false_hex size_of); assumption.
  Qed.

  Lemma delete_unused_bok dm : forall r, Forall (fun d => dcolon d = true) dm -> Bok r (delete_unused r dm).
  Proof.
    induction dm as [|d dm IH]; intros r Hc; [apply Bok_refl|]. inversion Hc; subst. rewrite delete_unused_fold. cbn [fold_left].
    apply (Bok_trans _ _ (rm_unused r d)); [apply rm_unused_bok; assumption | apply IH; assumption].
  Qed.

  Lemma remove_layers_bok r m : Forall canon_l (all_layers m) -> Bok r (remove_layers r m).
  Proof. intros Hc. rewrite remove_layers_du. apply delete_unused_bok, Forall_map, Hc. Qed.

  Lemma remove_layer_mt_spec layers mt : forall r r' ls',
    Forall canon_l layers -> remove_layer_mt r layers mt = (r', ls') -> Bok r r' /\ ls' = drop_mt mt layers.
  Proof.
    induction layers as [|l ls IH]; intros r r' ls' Hc; cbn; [intros [= <- <-]; split; [apply Bok_refl | reflexivity]|].
    inversion Hc as [|x y Hl Hls]; subst. destruct (lmt l =? mt); cbn.
    - rewrite layer_remove_du. intros E. apply IH in E as [B ->]; [|exact Hls]. split; [|reflexivity].
      eapply Bok_trans; [apply (rm_unused_bok r (ldg l) Hl) | exact B].
    - destruct (remove_layer_mt r ls mt) as [r1 t1] eqn:E. intros [= <- <-]. apply IH in E as [B ->]; auto.
  Qed.

  Lemma set_layer_spec r layers mt oc r' ls' :
    Forall canon_l layers -> set_layer size_of r layers mt oc = (r', ls') -> Bok r r' /\ ls' = pure_set layers mt oc.
  Proof.
    intros Hc. unfold set_layer. destruct oc as [c|]; [|intros [= <- <-]; split; [apply Bok_refl | reflexivity]].
    destruct (remove_layer_mt r layers mt) as [r1 ls] eqn:E1. apply remove_layer_mt_spec in E1 as [B1 ->]; [|exact Hc].
    destruct (new_layer size_of r1 mt c) as [r2 l] eqn:E2. apply new_layer_spec in E2 as [B2 [-> _]].
    intros [= <- <-]. split; [eapply Bok_trans; eassumption | reflexivity].
  Qed.

  Lemma add_layers_spec mt cs : forall r layers r' ls',
    add_layers size_of r layers mt cs = (r', ls') -> Bok r r' /\ ls' = layers ++ map (nl mt) cs.
  Proof.
    induction cs as [|c cs IH]; intros r layers r' ls'; cbn; [intros [= <- <-]; split; [apply Bok_refl | symmetry; apply app_nil_r]|].
    destruct (new_layer size_of r mt c) as [r1 l] eqn:E. apply new_layer_spec in E as [B [-> _]].
    intros E. apply IH in E as [B' ->]. split; [eapply Bok_trans; eassumption | rewrite <- app_assoc; reflexivity].
  Qed.

  Lemma add_detected_spec det : forall r layers r' ls',
    add_detected size_of r layers det = (r', ls') -> Bok r r' /\ ls' = layers ++ map (fun p => nl (fst p) (snd p)) det.
  Proof.
    induction det as [|[mt c] det IH]; intros r layers r' ls'; cbn; [intros [= <- <-]; split; [apply Bok_refl | symmetry; apply app_nil_r]|].
    destruct (new_layer size_of r mt c) as [r1 l] eqn:E. apply new_layer_spec in E as [B [-> _]].
    intros E. apply IH in E as [B' ->]. split; [eapply Bok_trans; eassumption | rewrite <- app_assoc; reflexivity].
  Qed.

  Lemma gguf_parts_spec d c0 parts : forall r r' ot,
    bget (dhex d) (rs r) = Some c0 -> gguf_parts size_of lfl r d parts = (r', ot) ->
    Bok r r' /\ ot = Some (map (part_layer d c0) parts) /\ bget (dhex d) (rs r') = Some c0.
  Proof.
    induction parts as [|[mt [c|]] parts IH]; intros r r' ot Hb; cbn [gguf_parts map part_layer].
    - intros [= <- <-]. split; [apply Bok_refl | auto].
    - destruct (new_layer size_of r mt c) as [r1 l] eqn:E. apply new_layer_spec in E as [B [-> Hg]].
      destruct (gguf_parts size_of lfl r1 d parts) as [r2 ot2] eqn:E2. apply IH in E2 as [B2 [-> Hb2]]; [|apply Hg, Hb].
      intros [= <- <-]. split; [eapply Bok_trans; eassumption | auto].
    - unfold layer_from_layer at 1. rewrite Hb.
      destruct (gguf_parts size_of lfl r d parts) as [r2 ot2] eqn:E2. apply IH in E2 as [B2 [-> Hb2]]; [|exact Hb].
      intros [= <- <-]. auto.
  Qed.

  Lemma base_layers_spec r b r' ob : base_layers size_of lfl r b = (r', ob) -> Bok r r' /\ ob = pure_base (rs r) b.
  Proof.
    destruct b as [d parts fail det|src]; cbn.
    - destruct (bget (dhex d) (rs r)) as [c0|] eqn:Eb; [|intros [= <- <-]; split; [apply Bok_refl | reflexivity]].
      destruct (gguf_parts size_of lfl r d parts) as [r1 ot] eqn:E. apply (gguf_parts_spec d c0) in E as [B [-> _]]; [|exact Eb].
      destruct (fail || _); [intros [= <- <-]; auto|].
      destruct (add_detected size_of r1 _ det) as [r2 ls] eqn:E2. apply add_detected_spec in E2 as [B2 ->].
      intros [= <- <-]. split; [eapply Bok_trans; eassumption | reflexivity].
    - destruct (mget src (rs r)) as [[m|]|]; intros [= <- <-]; split; try apply Bok_refl; reflexivity.
  Qed.

  Lemma create_template_spec r layers q r' ls' okt :
    Forall canon_l layers -> create_template size_of r layers q = (r', ls', okt) -> Bok r r' /\ (ls', okt) = pure_template layers q.
  Proof.
    intros Hc. unfold create_template, pure_template. destruct (cr_template q) as [[valid c]|]; [|intros [= <- <- <-]; split; [apply Bok_refl | reflexivity]].
    destruct (remove_layer_mt r layers MT_TEMPLATE) as [ra ls] eqn:E1. apply remove_layer_mt_spec in E1 as [B1 ->]; [|exact Hc].
    destruct valid; [|intros [= <- <- <-]; auto].
    destruct (new_layer size_of ra MT_TEMPLATE c) as [rc l] eqn:E2. apply new_layer_spec in E2 as [B2 [-> _]].
    intros [= <- <- <-]. split; [eapply Bok_trans; eassumption | reflexivity].
  Qed.

  Lemma create_tail_spec r layers q r' m :
    Forall canon_l layers -> create_tail size_of r layers q = (r', m) -> Bok r r' /\ m = pure_tail layers q.
  Proof.
    intros Hc. unfold create_tail, pure_tail.
    destruct (set_layer size_of r layers MT_SYSTEM (cr_system q)) as [r3 l3] eqn:E3. apply set_layer_spec in E3 as [B3 ->]; [|exact Hc].
    destruct (add_layers size_of r3 _ MT_LICENSE (cr_license q)) as [r4 l4] eqn:E4. apply add_layers_spec in E4 as [B4 ->].
    assert (C4 : Forall canon_l (pure_set layers MT_SYSTEM (cr_system q) ++ map (nl MT_LICENSE) (cr_license q))).
    { apply Forall_app. split; [apply Forall_pure_set; [exact Hc | reflexivity]|]. apply Forall_forall. intros l Hl. apply in_map_iff in Hl as [c [<- _]]. reflexivity. }
    destruct (set_layer size_of r4 _ MT_PARAMS (cr_params q)) as [r5 l5] eqn:E5. apply set_layer_spec in E5 as [B5 ->]; [|exact C4].
    destruct (set_layer size_of r5 _ MT_MESSAGES (cr_messages q)) as [r6 l6] eqn:E6.
    apply set_layer_spec in E6 as [B6 ->]; [|apply Forall_pure_set; [exact C4 | reflexivity]].
    destruct (new_layer size_of r6 MT_CONFIG (cr_config q)) as [r7 cfg] eqn:E7. apply new_layer_spec in E7 as [B7 [-> _]].
    intros [= <- <-]. split; [|reflexivity]. repeat (eapply Bok_trans; [eassumption|]). apply Bok_refl.
  Qed.

  Lemma create_build_spec s q r7 ob :
    create_build size_of lfl false s q = (r7, ob) -> Bok (init s) r7 /\ ob = pure_build (pure_base s (cr_base q)) q.
  Proof.
    unfold create_build. destruct (base_layers size_of lfl (init s) (cr_base q)) as [rb ob0] eqn:Eb.
    apply base_layers_spec in Eb as [Bb ->]. cbn [init rs].
    destruct (pure_base s (cr_base q)) as [layers|] eqn:Ep; cbn [pure_build].
    2:{ destruct (cr_base q); intros [= <- <-]; auto. }
    destruct (create_template size_of rb layers q) as [[r2 l2] okt] eqn:Et.
    assert (C := pure_base_canon _ _ _ Ep).
    apply create_template_spec in Et as [Bt Et]; [|exact C].
    assert (C2 := Forall_pure_template canon_l layers q C (fun c _ => eq_refl)). rewrite <- Et in *. cbn [fst] in C2.
    destruct okt; cbn [negb]; [|intros [= <- <-]; split; [eapply Bok_trans; eassumption | reflexivity]].
    destruct (create_tail size_of r2 l2 q) as [r7' m] eqn:E7. apply create_tail_spec in E7 as [B7 ->]; [|exact C2].
    intros [= <- <-]. split; [|reflexivity]. eapply Bok_trans; [exact Bb|]. eapply Bok_trans; eassumption.
  Qed.

  Lemma create_build_snd s q : snd (create_build size_of lfl false s q) = pure_build (pure_base s (cr_base q)) q.
  Proof. destruct (create_build size_of lfl false s q) as [r7 ob] eqn:E. apply create_build_spec in E. apply E. Qed.

  Lemma from_layers_pure s ls :
    (forall l, In l ls -> bget (dhex (ldg l)) s = Some (dhex (ldg l))) ->
    from_layers lfl s ls = Some (map (fun l => MkLayer (lmt l) (canon (ldg l)) (size_of (dhex (ldg l)))) ls).
  Proof.
    induction ls as [|l ls IH]; intros H; cbn; [reflexivity|].
    unfold layer_from_layer at 1. rewrite (H l (or_introl eq_refl)). rewrite IH by (intros x Hx; apply H; right; exact Hx). reflexivity.
  Qed.

  Lemma base_from_pure s src :
    Inv s ->
    pure_base s (BFrom src) =
    match mget src s with
    | Some (Readable m) => Some (map (fun l => MkLayer (lmt l) (canon (ldg l)) (size_of (dhex (ldg l)))) (mlayers m))
    | _ => None
    end.
  Proof.
    intros HI. cbn. destruct (mget src s) as [[m|]|] eqn:Es; try reflexivity.
    apply from_layers_pure. intros l Hl.
    apply (inv_layer size_of s src m l HI (mget_listed _ _ _ Es)). apply in_or_app. left. exact Hl.
  Qed.

  (** creates FROM a model never delete a blob they need: every layer of the list in the making is served, and is of an
      already handled media type or in use by a stored manifest, so removeLayer finds nothing to delete *)
  Definition J (s0 : store) (done : list N) (r : run) (layers : list layer) : Prop :=
    Bok (init s0) r /\ Forall (blob_ok (rs r)) layers /\
    Forall (fun l => In (lmt l) done \/ referenced s0 (ldg l) = true) layers.

  Lemma J_weaken s0 done done' r layers : incl done done' -> J s0 done r layers -> J s0 done' r layers.
  Proof.
    intros Hi [H1 [H2 H3]]. split; [exact H1|]. split; [exact H2|]. eapply Forall_impl; [|exact H3].
    intros l [H|H]; [left; apply Hi, H | right; exact H].
  Qed.

  Lemma J_new_layer s0 done r layers mt c r' l :
    Inv s0 -> J s0 done r layers -> new_layer size_of r mt c = (r', l) -> J s0 (mt :: done) r' (layers ++ [l]).
  Proof.
    intros HI [B [H2 H3]] E. assert (Hp := new_layer_present r mt c r' l (Bok_inv size_of (init s0) r HI B) E).
    apply new_layer_spec in E as [B' [-> Hg]]. split; [eapply Bok_trans; eassumption|]. split; apply Forall_app; split.
    - eapply Forall_impl; [|exact H2]. intros a. apply blob_ok_grows, Hg.
    - constructor; [exact Hp | constructor].
    - eapply Forall_impl; [|exact H3]. intros a [Hd|Hr]; [left; right; exact Hd | right; exact Hr].
    - constructor; [left; left; reflexivity | constructor].
  Qed.

  Lemma remove_layer_mt_referenced layers mt : forall r,
    (forall l, In l layers -> lmt l = mt -> referenced (rs r) (ldg l) = true) -> remove_layer_mt r layers mt = (r, drop_mt mt layers).
  Proof.
    induction layers as [|l ls IH]; intros r H; cbn; [reflexivity|].
    destruct (lmt l =? mt) eqn:E; cbn.
    - apply N.eqb_eq in E. unfold layer_remove. rewrite (H l (or_introl eq_refl) E). apply IH. intros l' Hl'. apply H. right; exact Hl'.
    - rewrite IH; [reflexivity|]. intros l' Hl'. apply H. right; exact Hl'.
  Qed.

  Lemma J_remove s0 done r layers mt :
    existsb (N.eqb mt) done = false -> J s0 done r layers ->
    remove_layer_mt r layers mt = (r, drop_mt mt layers) /\ J s0 done r (drop_mt mt layers).
  Proof.
    intros Hn [H1 [H2 H3]]. split.
    - apply remove_layer_mt_referenced. intros l Hl Hm. rewrite (referenced_mans s0 (rs r)) by apply (Bok_mans size_of _ _ H1).
      rewrite Forall_forall in H3. destruct (H3 l Hl) as [Hd|Hr]; [|exact Hr].
      assert (existsb (N.eqb mt) done = true); [|congruence]. apply existsb_exists. exists mt. rewrite <- Hm, N.eqb_refl. auto.
    - split; [exact H1|]. split; apply Forall_drop_mt; assumption.
  Qed.

  Lemma J_set_layer s0 done r layers mt oc r' ls' :
    Inv s0 -> existsb (N.eqb mt) done = false -> J s0 done r layers -> set_layer size_of r layers mt oc = (r', ls') -> J s0 (mt :: done) r' ls'.
  Proof.
    intros HI Hn HJ. unfold set_layer. destruct oc as [c|]; [|intros [= <- <-]; eapply J_weaken; [|exact HJ]; intros x Hx; right; exact Hx].
    destruct (J_remove s0 done r layers mt Hn HJ) as [-> HJ'].
    destruct (new_layer size_of r mt c) as [r2 l] eqn:E. intros [= <- <-]. eapply J_new_layer; eassumption.
  Qed.

  Lemma J_add_layers s0 mt cs : forall done r layers r' ls',
    Inv s0 -> J s0 done r layers -> add_layers size_of r layers mt cs = (r', ls') -> J s0 (mt :: done) r' ls'.
  Proof.
    induction cs as [|c cs IH]; intros done r layers r' ls' HI HJ; cbn.
    - intros [= <- <-]. eapply J_weaken; [|exact HJ]. intros x Hx; right; exact Hx.
    - destruct (new_layer size_of r mt c) as [r1 l] eqn:E. intros E2.
      eapply J_weaken; [|eapply (IH (mt :: done)); [exact HI | eapply J_new_layer; eassumption | exact E2]]. intros x [->|Hx]; [left; reflexivity | exact Hx].
  Qed.

  Lemma from_layers_J s ls : forall out,
    (forall l, In l ls -> blob_ok s l /\ referenced s (ldg l) = true) -> from_layers lfl s ls = Some out ->
    Forall (blob_ok s) out /\ Forall (fun l => referenced s (ldg l) = true) out.
  Proof.
    induction ls as [|l ls IH]; intros out Hall; cbn; [intros [= <-]; split; constructor|].
    destruct (Hall l (or_introl eq_refl)) as [[Hc [Hp Hs]] Hr]. unfold layer_from_layer at 1. rewrite Hp.
    destruct (from_layers lfl s ls) as [t'|] eqn:Et; [|discriminate]. intros [= <-].
    destruct (IH t' (fun x Hx => Hall x (or_intror Hx)) eq_refl) as [I1 I2].
    assert (Hd : canon (ldg l) = ldg l) by (destruct (ldg l) as [cl hx]; cbn in *; subst cl; reflexivity).
    split; constructor; auto; cbn; [repeat split; assumption | rewrite Hd; exact Hr].
  Qed.

  Theorem create_check_from s q src : Inv s -> cr_base q = BFrom src -> create_check size_of s q = true.
  Proof.
    intros HI Hb. unfold create_check, create_build. rewrite Hb. cbn [base_layers init rs].
    destruct (mget src s) as [[msrc|]|] eqn:Es; try reflexivity.
    destruct (from_layers lfl s (mlayers msrc)) as [layers|] eqn:Ef; [|reflexivity].
    assert (Hsrc : listed s src msrc) by (apply mget_listed, Es).
    destruct (from_layers_J s (mlayers msrc) layers) as [Hok Href]; [|exact Ef|].
    { intros l Hl. assert (Hin : In l (all_layers msrc)) by (apply in_or_app; left; exact Hl).
      split; [apply (inv_layer size_of s src msrc l HI Hsrc Hin) | eapply referenced_intro; eassumption]. }
    assert (HJ0 : J s [] (init s) layers).
    { split; [apply Bok_refl|]. split; [exact Hok|]. eapply Forall_impl; [|exact Href]. intros l Hl. right; exact Hl. }
    (* the pure form of the manifest forgets the runs in between, which [J] is about: the stages are walked again;
       each media type is handled once, so what a stage removes is of no type handled before *)
    destruct (create_template size_of (init s) layers q) as [[r2 l2] okt] eqn:Et. destruct okt; cbn [negb]; [|reflexivity].
    assert (HJ2 : J s [MT_TEMPLATE] r2 l2).
    { unfold create_template in Et. destruct (cr_template q) as [[valid c]|].
      - destruct (J_remove s [] (init s) layers MT_TEMPLATE eq_refl HJ0) as [E HJ']. rewrite E in Et.
        destruct valid; [|discriminate]. destruct (new_layer size_of (init s) MT_TEMPLATE c) as [rc l] eqn:En.
        injection Et as <- <-. eapply J_new_layer; eassumption.
      - injection Et as <- <-. eapply J_weaken; [|exact HJ0]. intros x []. }
    unfold create_tail.
    destruct (set_layer size_of r2 l2 MT_SYSTEM (cr_system q)) as [r3 l3] eqn:E3.
    apply (J_set_layer s [MT_TEMPLATE] _ _ MT_SYSTEM _ _ _ HI eq_refl HJ2) in E3.
    destruct (add_layers size_of r3 l3 MT_LICENSE (cr_license q)) as [r4 l4] eqn:E4. apply (J_add_layers s _ _ _ _ _ _ _ HI E3) in E4.
    destruct (set_layer size_of r4 l4 MT_PARAMS (cr_params q)) as [r5 l5] eqn:E5.
    apply (J_set_layer s [MT_LICENSE; MT_SYSTEM; MT_TEMPLATE] _ _ MT_PARAMS _ _ _ HI eq_refl E4) in E5.
    destruct (set_layer size_of r5 l5 MT_MESSAGES (cr_messages q)) as [r6 l6] eqn:E6.
    apply (J_set_layer s [MT_PARAMS; MT_LICENSE; MT_SYSTEM; MT_TEMPLATE] _ _ MT_MESSAGES _ _ _ HI eq_refl E5) in E6.
    destruct (new_layer size_of r6 MT_CONFIG (cr_config q)) as [r7 cfg] eqn:E7. apply (J_new_layer s _ _ _ _ _ _ _ HI E6) in E7.
    apply man_okb_spec. apply E7.
  Qed.

  (** the shape of an operation's run: blob-only allowed effects, then the effects [mid] on the manifest of the target
      [t], allowed there, then blob-only allowed effects again *)
  Definition Mid (t : option name) (s : store) (mid : list effect) (r : run) : Prop :=
    exists r1, Bok (init s) r1 /\ ok_trace t (rs r1) mid /\ Bok (emits r1 mid) r.

  Lemma Mid_none t s r : Bok (init s) r -> Mid t s [] r.
  Proof. intros H. exists r. split; [exact H|]. split; [exact I | apply Bok_refl]. Qed.

  Lemma Mid_Rok t s mid r : Inv s -> Mid t s mid r -> Rok t s r.
  Proof.
    intros HI [r1 [B1 [Hm B2]]]. eapply Rok_Bok; [exact HI | | exact B2]. apply Rok_emits; [|exact Hm].
    eapply Rok_Bok; [exact HI | apply Rok_init | exact B1].
  Qed.

  Lemma Mid_split t s mid r :
    Mid t s mid r -> exists es1 es2, r = emits (init s) (es1 ++ mid ++ es2) /\ Forall blob_only es1 /\ Forall blob_only es2.
  Proof. intros [r1 [[es1 [-> [H1 _]]] [_ [es2 [-> [H2 _]]]]]]. exists es1, es2. rewrite !emits_app. auto. Qed.

  Lemma write_ok s n r ms :
    Inv s -> Bok (init s) r -> match ms with Readable m => man_ok (rs r) m | Unreadable => True end ->
    ok_trace (Some (get_existing (readable_names s) n)) (rs r)
      [ETruncMan (get_existing (readable_names s) n); EWriteMan (get_existing (readable_names s) n) ms].
  Proof.
    intros HI B Hok. set (g := get_existing (readable_names s) n). split; [reflexivity|]. split; [|exact I].
    destruct ms as [m|]; [|reflexivity]. split; [reflexivity|]. split; [eapply man_ok_ext; [|exact Hok]; reflexivity|].
    intros e me Hl Hf. destruct (name_eq_dec e g) as [He|He]; [exact He|]. exfalso.
    apply (In_aset name_eqb name_eqb_spec) in Hl as [[Heq _]|[_ Hl]]; [contradiction|].
    rewrite (Bok_mans size_of _ _ B) in Hl.
    assert (Hin : In e (readable_names s)) by (apply readable_names_spec; eauto).
    assert (Hg : In g (readable_names s)).
    { eapply get_existing_stored; [exact Hin|]. eapply name_eqfold_trans; [exact Hf | apply get_existing_eqfold]. }
    apply readable_names_spec in Hg as [mg Hg]. apply He. eapply (inv_case size_of s HI); eassumption.
  Qed.

  (** [op_mid] of ProofsRedo2.v, which stands after the lemmas that need it here ([op_mid_eq]) *)
  Definition mid_of (s : store) (o : op) : list effect :=
    match o with
    | OCreate q =>
        match snd (create_build size_of lfl false s q) with
        | Some (m, _) => [ETruncMan (get_existing (readable_names s) (cr_name q)); EWriteMan (get_existing (readable_names s) (cr_name q)) (Readable m)]
        | None => []
        end
    | OCopy a b =>
        if name_eqb (get_existing (readable_names s) a) (get_existing (readable_names s) b) then []
        else match mget (get_existing (readable_names s) a) s with
             | Some ms => [ETruncMan (get_existing (readable_names s) b); EWriteMan (get_existing (readable_names s) b) ms]
             | None => []
             end
    | ODelete n =>
        match mget (get_existing (readable_names s) n) s with
        | Some (Readable _) => [ERmMan (get_existing (readable_names s) n)]
        | _ => []
        end
    | OPull n (Some v) ord =>
        match snd (op_run size_of s o) with
        | ROk => [ETruncMan (get_existing (readable_names s) n); EWriteMan (get_existing (readable_names s) n) (Readable (sv_manifest v))]
        | _ => []
        end
    | _ => []
    end.

  Lemma op_blob_bok s d c : Bok (init s) (fst (op_blob size_of s d c)).
  Proof.
    unfold op_blob. destruct (bget (dhex d) s); [apply Bok_refl|].
    destruct (new_layer size_of (init s) 0 c) as [r1 l] eqn:E. apply new_layer_spec in E as [B _]. exact B.
  Qed.

  Lemma op_create_shape s q :
    Inv s -> create_check size_of s q = true ->
    Mid (Some (get_existing (readable_names s) (cr_name q))) s (mid_of s (OCreate q)) (fst (op_create size_of s q)).
  Proof.
    intros HI Hck. cbn [mid_of]. unfold op_create, op_create_gen, create_check in *.
    destruct (create_build size_of lfl false s q) as [r7 ob] eqn:Eb. destruct (create_build_spec _ _ _ _ Eb) as [B7 _].
    destruct ob as [[m clean]|]; cbn [fst snd]; [|apply Mid_none, B7]. apply man_okb_spec in Hck.
    exists r7. split; [exact B7|]. split; [apply (write_ok s (cr_name q) r7 (Readable m) HI B7 Hck)|].
    destruct (mget _ s) as [[mo|]|] eqn:Eo; try apply Bok_refl.
    apply remove_layers_bok. eapply listed_canon; [exact HI | apply mget_listed; exact Eo].
  Qed.

  Lemma op_copy_shape s a b :
    Inv s -> Mid (Some (get_existing (readable_names s) b)) s (mid_of s (OCopy a b)) (fst (op_copy s a b)).
  Proof.
    intros HI. cbn [mid_of]. unfold op_copy, op_copy_gen. destruct (name_eqb _ _); [apply Mid_none, Bok_refl|].
    destruct (mget (get_existing (readable_names s) a) s) as [ms|] eqn:Es; [|apply Mid_none, Bok_refl].
    exists (init s). split; [apply Bok_refl|]. split; [|apply Bok_refl]. apply write_ok; [exact HI | apply Bok_refl|].
    destruct ms as [m|]; [|exact I]. eapply (inv_mans size_of s HI), mget_listed, Es.
  Qed.

  Lemma op_delete_shape s n :
    Inv s -> Mid (Some (get_existing (readable_names s) n)) s (mid_of s (ODelete n)) (fst (op_delete s n)).
  Proof.
    intros HI. cbn [mid_of]. unfold op_delete, op_delete_gen. destruct (mget _ s) as [[m|]|] eqn:E; try apply Mid_none, Bok_refl.
    exists (init s). split; [apply Bok_refl|]. split; [split; [reflexivity | exact I]|].
    apply remove_layers_bok. eapply listed_canon; [exact HI | apply mget_listed; exact E].
  Qed.

  Definition Dok (r r' : run) : Prop := Bok r r' /\ blobs (rs r') = blobs (rs r).

  Lemma Dok_refl r : Dok r r.
  Proof. split; [apply Bok_refl | reflexivity]. Qed.

  Lemma Dok_emit r r' e : Dok r r' -> debris_only e -> Dok r (emit r' e).
  Proof.
    intros [B E] He. split; [apply Bok_debris; assumption|]. rewrite <- E.
    destruct e as [[]| | | | | | | | | | | ]; try contradiction; reflexivity.
  Qed.

  Lemma emit_debris_blobs r e : (match e with EAddDebris _ | ERmDebris _ => True | _ => False end) -> blobs (rs (emit r e)) = blobs (rs r).
  Proof. destruct e; cbn; try contradiction; reflexivity. Qed.

  Definition dl_ok (r : run) (l : layer) (res : run * option bool) : Prop :=
    Bok r (fst res) /\ (forall hit, snd res = Some hit -> present (rs (fst res)) l) /\
    (forall l', present (rs r) l' -> present (rs (fst res)) l').

  Lemma dl_miss r r' l : Dok r r' -> dl_ok r l (r', None).
  Proof. intros [B E]. split; [exact B|]. split; [discriminate|]. unfold present, bget. cbn [fst]. rewrite E. auto. Qed.

  Lemma dl_end r r' l c :
    Dok r r' ->
    dl_ok r l (if dcolon (ldg l) && (c =? dhex (ldg l)) then (emit r' (ERenPartial (dhex (ldg l)) c), Some false)
               else (emit r' (ERmDebris (DPartial (dhex (ldg l)))), None)).
  Proof.
    intros H. destruct (dcolon (ldg l) && (c =? dhex (ldg l))) eqn:Ec; [|apply dl_miss, Dok_emit; [exact H | exact I]].
    apply andb_true_iff in Ec as [_ Ec]. apply N.eqb_eq in Ec. subst c. destruct H as [B E].
    split; [apply Bok_emit; [exact B | exact I | reflexivity]|]. unfold present, bget. cbn [fst rs emit apply_effect blobs]. rewrite E.
    split; [intros _ _; apply bget_aset_same|]. intros l' Hp.
    destruct (N.eq_dec (dhex (ldg l')) (dhex (ldg l))) as [->|Hn]; [apply bget_aset_same | rewrite bget_aset_other by exact Hn; exact Hp].
  Qed.

  (* every branch of [download_gen] is a chain of debris effects, ended as [dl_miss] or [dl_end] say *)
  Lemma download_spec r l oc : Inv (rs r) -> dl_ok r l (download size_of r l oc).
  Proof.
    intros HI. unfold download, download_gen. destruct (bget (dhex (ldg l)) (rs r)) as [c0|] eqn:Eb.
    - split; [apply Bok_refl|]. split; [|auto]. intros _ _. unfold present. cbn [fst]. rewrite Eb. f_equal. apply (bget_intact size_of (rs r) _ _ HI Eb).
    - destruct oc as [c|]; destruct (partrec_state _ 0 (debris (rs r))) as [[| |]|]; cbn [orb];
        try destruct (existsb _ (debris (rs r))); try destruct (size_of c =? 0); cbv beta iota zeta;
        first [apply dl_end | apply dl_miss]; repeat first [apply Dok_refl | apply Dok_emit; [|exact I]].
  Qed.

  Lemma download_all_spec ls : forall r cs,
    Inv (rs r) ->
    Bok r (fst (download_all size_of r ls cs)) /\
    (forall dl, snd (download_all size_of r ls cs) = Some dl ->
       Forall (present (rs (fst (download_all size_of r ls cs)))) ls /\ map fst dl = ls) /\
    (forall l', present (rs r) l' -> present (rs (fst (download_all size_of r ls cs))) l').
  Proof.
    induction ls as [|l ls IH]; intros r cs HI; cbn [download_all].
    - split; [apply Bok_refl|]. split; [intros dl [= <-]; split; constructor | auto].
    - destruct (download_spec r l (hd None cs) HI) as [Hd1 [Hd2 Hd3]].
      destruct (download size_of r l (hd None cs)) as [r1 [hit|]]; cbn [fst snd] in *; [|split; [exact Hd1 | split; [discriminate | exact Hd3]]].
      destruct (IH r1 (tl cs) (Bok_inv size_of _ _ HI Hd1)) as [Ha [Hb Hc]].
      destruct (download_all size_of r1 ls (tl cs)) as [r2 rest]. cbn [fst snd] in *.
      split; [eapply Bok_trans; eassumption|]. split; [|intros l' Hp; apply Hc, Hd3, Hp].
      intros dl Hdl. destruct rest as [rest|]; [|discriminate]. injection Hdl as <-.
      destruct (Hb rest eq_refl) as [Hb1 Hb2]. split; [constructor; [apply Hc, (Hd2 hit eq_refl) | exact Hb1] | cbn; f_equal; exact Hb2].
  Qed.

  Lemma verify_all_noop r dl : Forall (fun p => canon_l (fst p) /\ present (rs r) (fst p)) dl -> verify_all r dl = (r, true).
  Proof.
    induction dl as [|[l hit] dl IH]; intros Hf; cbn; [reflexivity|]. inversion Hf as [|x y [Hc Hp] Hrest]; subst.
    destruct hit; [apply IH, Hrest|]. cbn in Hc, Hp. rewrite Hp, Hc, N.eqb_refl. apply IH, Hrest.
  Qed.

  Lemma reorder_incl ord dm d : In d (reorder ord dm) -> In d dm.
  Proof.
    unfold reorder. rewrite in_app_iff, in_flat_map. intros [[h [_ H]]|H]; apply filter_In in H; apply H.
  Qed.

  Lemma pull_downloaded s v r1 dl :
    Inv s -> served_ok size_of v = true ->
    download_all size_of (init s) (all_layers (sv_manifest v)) (sv_contents v) = (r1, Some dl) ->
    man_ok (rs r1) (sv_manifest v) /\ verify_all r1 dl = (r1, true).
  Proof.
    intros HI Hg Ed. unfold served_ok in Hg. apply andb_true_iff in Hg as [Hg1 _]. rewrite forallb_forall in Hg1.
    destruct (download_all_spec (all_layers (sv_manifest v)) (init s) (sv_contents v) HI) as [_ [Hb _]]. rewrite Ed in Hb.
    destruct (Hb dl eq_refl) as [Hp Hm]. rewrite Forall_forall in Hp. split.
    - apply Forall_forall. intros l Hl. specialize (Hg1 l Hl). apply andb_true_iff in Hg1 as [Hc Hs].
      split; [exact Hc|]. split; [apply Hp, Hl | apply N.eqb_eq; exact Hs].
    - apply verify_all_noop, Forall_forall. intros [l hit] Hin.
      assert (Hl : In l (all_layers (sv_manifest v))) by (rewrite <- Hm; apply (in_map fst _ _ Hin)).
      split; [|apply Hp, Hl]. specialize (Hg1 l Hl). apply andb_true_iff in Hg1 as [Hg1 _]. exact Hg1.
  Qed.

  Lemma op_pull_shape s n v ord :
    Inv s -> served_ok size_of v = true ->
    Mid (Some (get_existing (readable_names s) n)) s (mid_of s (OPull n (Some v) ord)) (fst (op_pull size_of s n (Some v) ord)).
  Proof.
    intros HI Hg. cbn [mid_of op_run]. unfold op_pull, op_pull_gen.
    destruct (download_all_spec (all_layers (sv_manifest v)) (init s) (sv_contents v) HI) as [B1 _].
    destruct (download_all size_of (init s) _ _) as [r1 [dl|]] eqn:Ed; cbn [fst snd] in *; [|apply Mid_none, B1].
    destruct (pull_downloaded s v r1 dl HI Hg Ed) as [Hok ->]. cbn [negb fst snd].
    exists r1. split; [exact B1|]. split; [apply (write_ok s n r1 (Readable (sv_manifest v)) HI B1 Hok)|].
    apply delete_unused_bok. apply Forall_forall. intros d Hd. apply reorder_incl in Hd. apply filter_In in Hd as [Hd _].
    destruct (mget _ s) as [[mo|]|] eqn:Eo; try contradiction. apply in_map_iff in Hd as [l [<- Hl]].
    assert (Hcan := listed_canon s _ mo HI (mget_listed _ _ _ Eo)). rewrite Forall_forall in Hcan. apply Hcan, Hl.
  Qed.

  Lemma fix_fold_bok ds : legacy_intact ds -> forall r, Bok r (fold_left fix_step ds r).
  Proof.
    induction ds as [|d ds IH]; intros Hd r; cbn [fold_left]; [apply Bok_refl|].
    apply (Bok_trans _ _ (fix_step r d)); [|apply IH; intros h c Hin; apply (Hd h c); right; exact Hin].
    destruct d as [| | |h c|h]; cbn [fix_step]; try apply Bok_refl.
    - apply Bok_emit; [apply Bok_refl | exact I | intros _; apply (Hd h c); left; reflexivity].
    - apply Bok_debris; [apply Bok_refl | exact I].
  Qed.

  Lemma fix_blobs_bok s : Inv s -> Bok (init s) (fix_blobs (init s)).
  Proof. intros HI. apply fix_fold_bok, (inv_legacy size_of s HI). Qed.

  Lemma rm_debris_bok ds : forall r, Bok r (fold_left (fun r d => emit r (ERmDebris d)) ds r).
  Proof.
    induction ds as [|d ds IH]; intros r; cbn; [apply Bok_refl|].
    apply (Bok_trans _ _ (emit r (ERmDebris d))); [apply Bok_debris; [apply Bok_refl | exact I] | apply IH].
  Qed.

  Lemma startup_rest_bok r : Bok r (startup_rest r).
  Proof.
    unfold startup_rest. destruct (has_unreadable (rs r)); [apply Bok_refl|].
    eapply Bok_trans; [apply rm_debris_bok | apply delete_unused_bok]. apply Forall_forall. intros d Hd. apply in_map_iff in Hd as [p [<- _]]. reflexivity.
  Qed.

  Lemma op_startup_bok s : Inv s -> Bok (init s) (fst (op_startup s)).
  Proof. intros HI. eapply Bok_trans; [apply fix_blobs_bok, HI | apply startup_rest_bok]. Qed.

  Theorem op_run_shape s o :
    Inv s -> op_guard size_of s o = true -> Mid (op_target s o) s (mid_of s o) (fst (op_run size_of s o)).
  Proof.
    intros HI Hg. destruct o as [d c|q|a b|n|n [v|] ord|]; cbn [op_run op_target op_guard] in *.
    - apply Mid_none, op_blob_bok.
    - apply op_create_shape; assumption.
    - apply op_copy_shape, HI.
    - apply op_delete_shape, HI.
    - apply op_pull_shape; assumption.
    - apply Mid_none, Bok_refl.
    - apply Mid_none, op_startup_bok, HI.
  Qed.

  Theorem op_run_ok s o : Inv s -> op_guard size_of s o = true -> Rok (op_target s o) s (fst (op_run size_of s o)).
  Proof. intros HI Hg. eapply Mid_Rok; [exact HI | apply op_run_shape; assumption]. Qed.
End OpsOk.

(** * Store/ProofsRedo.v — one operation run to its end: the manifests and the answer it leaves; [redo_ok] *)
From Coq Require Import List NArith Bool Arith Lia.
From V Require Import Common.Bytes Store.Fs Store.Ops Store.ProofsAlist Store.ProofsNames Store.ProofsInv Store.ProofsMore Store.ProofsOps Store.ProofsTop.
Import ListNotations.
Open Scope N_scope.

Definition is_some {A} (o : option A) : bool := match o with Some _ => true | None => false end.

(** operations whose repetition is claimed to give the uninterrupted result: delete, copy, create FROM another
    model, pull from a registry that serves every layer *)
Definition redo_ok (s : store) (o : op) : bool :=
  match o with
  | ODelete _ | OCopy _ _ => true
  | OCreate q => match cr_base q with
                 | BFrom src => negb (name_eqb src (get_existing (readable_names s) (cr_name q)))
                 | BFiles _ _ _ _ => false
                 end
  | OPull _ (Some v) _ => (length (sv_contents v) =? length (all_layers (sv_manifest v)))%nat && forallb is_some (sv_contents v)
  | OPull _ None _ => true
  | OBlob _ _ | OStartup => false
  end.

Section Redo.
  Variable size_of : N -> N.
  Notation Inv := (Inv size_of).
  Notation Bok := (Bok size_of).
  Notation exec := (exec size_of).
  Notation recover := (recover size_of).
  Notation lfl := (layer_from_layer size_of).

  Lemma recover_mans s : mans (recover s) = mans s.
  Proof. unfold Ops.recover, Ops.exec. cbn [op_run op_startup fst]. rewrite (Bok_mans size_of _ _ (startup_rest_bok size_of _)). apply fix_blobs_mans. Qed.

  Lemma ge_stable s x mx n : Inv s -> listed s x mx -> name_eqfold x n = true -> get_existing (readable_names s) n = x.
  Proof.
    intros HI Hl Hf. assert (Hin : In x (readable_names s)) by (apply readable_names_spec; eauto).
    assert (Hg := get_existing_stored (readable_names s) n x Hin Hf). apply readable_names_spec in Hg as [mg Hg].
    apply (inv_case size_of s HI _ _ mg mx Hg Hl). eapply name_eqfold_trans; [apply get_existing_eqfold | apply name_eqfold_sym, Hf].
  Qed.

  (** a create may be repeated on a store in which its guard is not known to hold (after the upload was repeated) *)
  Lemma exec_create_mans s q :
    Inv s ->
    mans (exec s (OCreate q)) =
    match snd (create_build size_of lfl false s q) with
    | Some (m, _) => aset name_eqb (get_existing (readable_names s) (cr_name q)) (Readable m)
                       (aset name_eqb (get_existing (readable_names s) (cr_name q)) Unreadable (mans s))
    | None => mans s
    end.
  Proof.
    intros HI. unfold Ops.exec, op_run, op_create, op_create_gen.
    destruct (create_build size_of lfl false s q) as [r7 ob] eqn:Eb. apply create_build_spec in Eb as [Hb _].
    apply (Bok_mans size_of) in Hb. destruct ob as [[m clean]|]; cbn [fst snd]; [|exact Hb].
    assert (Hw : forall r9, Bok (write_manifest r7 (get_existing (readable_names s) (cr_name q)) (Readable m)) r9 ->
                 mans (rs r9) = aset name_eqb (get_existing (readable_names s) (cr_name q)) (Readable m)
                                  (aset name_eqb (get_existing (readable_names s) (cr_name q)) Unreadable (mans s))).
    { intros r9 H. rewrite (Bok_mans size_of _ _ H). unfold write_manifest. cbn. rewrite Hb. reflexivity. }
    destruct (mget _ s) as [[mo|]|] eqn:Eo; apply Hw; try apply Bok_refl.
    apply remove_layers_bok. eapply listed_canon; [exact HI | apply mget_listed; exact Eo].
  Qed.

  Lemma create_result s q :
    snd (op_run size_of s (OCreate q)) =
    match snd (create_build size_of lfl false s q) with
    | Some (_, clean) => if clean then ROk else RErr
    | None => RErr
    end.
  Proof.
    cbn [op_run]. unfold op_create, op_create_gen.
    destruct (create_build size_of lfl false s q) as [r7 [[m clean]|]]; reflexivity.
  Qed.

  Lemma download_total r l c : canon_l l -> c = dhex (ldg l) -> exists hit, snd (download size_of r l (Some c)) = Some hit.
  Proof.
    intros Hc ->. unfold download, download_gen. set (h := dhex (ldg l)). destruct (bget h (rs r)); [eexists; reflexivity|].
    rewrite Hc, N.eqb_refl. cbn [andb].
    destruct (partrec_state h 0 (debris (rs r))) as [[| |]|]; cbn [negb orb];
      try destruct (existsb (dfile_eqb (DPartial h)) (debris (rs r))); try (eexists; reflexivity);
      destruct (size_of h =? 0); eexists; reflexivity.
  Qed.

  Lemma download_all_total ls : forall cs r,
    (length cs = length ls) -> forallb is_some cs = true -> contents_ok ls cs = true -> Forall canon_l ls ->
    exists dl, snd (download_all size_of r ls cs) = Some dl.
  Proof.
    induction ls as [|l ls IH]; intros cs r Hl Hs Hok Hcan; cbn [download_all]; [eexists; reflexivity|].
    destruct cs as [|[c|] cs]; cbn in Hl, Hs; try discriminate. cbn [hd tl]. cbn [contents_ok hd tl] in Hok.
    apply andb_true_iff in Hok as [Hc Hok]. apply N.eqb_eq in Hc. inversion Hcan as [|x y Hcl Hcls]; subst x y.
    destruct (download_total r l c Hcl Hc) as [hit Hd]. destruct (download size_of r l (Some c)) as [r1 oh]. cbn in Hd. subst oh.
    destruct (IH cs r1 ltac:(lia) Hs Hok Hcls) as [dl Hdl]. destruct (download_all size_of r1 ls cs) as [r2 rest]. cbn in *. subst rest.
    eexists; reflexivity.
  Qed.

  (** an honest registry that serves every layer *)
  Definition pull_total (v : served) : Prop :=
    served_ok size_of v = true /\
    (length (sv_contents v) =? length (all_layers (sv_manifest v)))%nat && forallb is_some (sv_contents v) = true.

  Lemma pull_answer s n v ord : Inv s -> pull_total v -> snd (op_run size_of s (OPull n (Some v) ord)) = ROk.
  Proof.
    intros HI [Hok Hall]. apply andb_true_iff in Hall as [Hl Hs]. apply Nat.eqb_eq in Hl. cbn [op_run]. unfold op_pull, op_pull_gen.
    destruct (download_all_total (all_layers (sv_manifest v)) (sv_contents v) (init s) Hl Hs) as [dl Hdl].
    - unfold served_ok in Hok. apply andb_true_iff in Hok. apply Hok.
    - unfold served_ok in Hok. apply andb_true_iff in Hok as [Hg1 _]. rewrite forallb_forall in Hg1.
      apply Forall_forall. intros l Hin. specialize (Hg1 l Hin). apply andb_true_iff in Hg1. apply Hg1.
    - destruct (download_all size_of (init s) _ _) as [r1 odl] eqn:Ed. cbn [snd] in Hdl. subst odl.
      destruct (pull_downloaded size_of s v r1 dl HI Hok Ed) as [_ ->]. reflexivity.
  Qed.
End Redo.

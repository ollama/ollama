(** * Properties_C04 — every listed model is complete; operations on one model never damage another.
    Theorems only; the proofs are in Store/Proofs*.v.  The model (Store/Fs.v, Store/Ops.v) describes /repo/server
    with the repairs fixes/C04-*.patch applied; the [*_legacy_refuted] theorems show, on the model of the unrepaired
    code, the defects those patches remove.

    Reading guide.  [op_guards size_of empty_store os]: every operation of the history [os] meets its decidable guard
    in the store it starts in — [create_check] for creates (the create does not delete a blob that a layer of its
    own list in the making uses; see C04_create_check_from), [served_ok] for pulls (honest, self-consistent registry),
    nothing for blob uploads, copies, deletes and start-up prunes.  [size_of] (content -> size) is arbitrary. *)
From Coq Require Import List NArith Bool Permutation.
From V Require Import Common.Bytes Store.Fs Store.Ops Store.ProofsAlist Store.ProofsNames Store.ProofsInv Store.ProofsOps Store.ProofsTop Store.ProofsMore Store.ProofsFix Store.ProofsShow Store.Corr Store.Pull2.
Import ListNotations.
Open Scope N_scope.

(** After any history of create / copy / pull / delete / blob upload / start-up prune operations from the empty
    store, every manifest that decodes (= every model /api/tags lists) has each of its layers and its config in the
    blob store: digest spelled canonically, blob file present, content hashing to the digest, recorded size right. *)
Theorem C04_listed_complete : forall size_of os,
  op_guards size_of empty_store os ->
  let s := exec_all size_of empty_store os in
  forall n m l, mget n s = Some (Readable m) -> In l (all_layers m) ->
    dcolon (ldg l) = true /\ bget (dhex (ldg l)) s = Some (dhex (ldg l)) /\ lsz l = size_of (dhex (ldg l)).
Proof.
  intros size_of os Hg s n m l Hm. apply (inv_layer size_of s n m l (history_inv size_of os Hg)), mget_listed, Hm.
Qed.
Print Assumptions C04_listed_complete.

(** An operation only touches the manifest of the (canonicalised) name it is asked to work on — a name equal to the
    requested one up to letter case — and leaves every other manifest, and every blob another readable manifest
    uses, exactly as it was. *)
Theorem C04_frame : forall size_of os o,
  op_guards size_of empty_store os ->
  let s := exec_all size_of empty_store os in
  op_guard size_of s o = true ->
  (forall t nm, op_target s o = Some t -> op_name o = Some nm -> name_eqfold t nm = true) /\
  forall n, op_target s o <> Some n ->
    mget n (exec size_of s o) = mget n s /\
    forall m l, mget n s = Some (Readable m) -> In l (all_layers m) ->
      bget (dhex (ldg l)) (exec size_of s o) = bget (dhex (ldg l)) s.
Proof.
  intros size_of os o Hg s Hgo. assert (HI : Inv size_of s) by (apply history_inv, Hg).
  split; [intros t nm; apply target_eqfold|].
  intros n Hn. destruct (exec_frame size_of s o n HI Hgo Hn) as [H1 H2]. split; [exact H1|].
  intros m l Hm. apply H2. apply mget_listed, Hm.
Qed.
Print Assumptions C04_frame.

(** In a history of completed operations no manifest is ever unreadable, and start-up pruning leaves exactly the blobs
    some manifest uses (and no debris), and does not touch the manifests. *)
Theorem C04_prune_exact : forall size_of os,
  op_guards size_of empty_store os ->
  let s := exec_all size_of empty_store os in
  has_unreadable s = false /\
  let s' := exec size_of s OStartup in
  debris s' = [] /\ mans s' = mans s /\ forall h, (exists c, bget h s' = Some c) <-> referenced_hex s' h = true.
Proof.
  intros size_of os Hg s. assert (Hu : has_unreadable s = false) by (apply (history_readable size_of), Hg).
  split; [exact Hu|]. apply (startup_exact size_of s); [apply history_inv, Hg | exact Hu].
Qed.
Print Assumptions C04_prune_exact.

(** No two listed models differ only by letter case. *)
Theorem C04_case_unique : forall size_of os,
  op_guards size_of empty_store os ->
  let s := exec_all size_of empty_store os in
  forall a b ma mb, mget a s = Some (Readable ma) -> mget b s = Some (Readable mb) -> name_eqfold a b = true -> a = b.
Proof.
  intros size_of os Hg s a b ma mb Ha Hb. apply (inv_case size_of s (history_inv size_of os Hg) a b ma mb); apply mget_listed; assumption.
Qed.
Print Assumptions C04_case_unique.

(** getExistingName (repaired): the answer does not depend on the order in which Go's map iteration presents the
    stored names, equals the request up to case, and is a stored name whenever one matches up to case. *)
Theorem C04_get_existing_order_free : forall ex ex' n,
  Permutation ex ex' ->
  get_existing ex n = get_existing ex' n /\ name_eqfold (get_existing ex n) n = true /\
  (forall e, In e ex -> name_eqfold e n = true -> In (get_existing ex n) ex).
Proof.
  intros ex ex' n Hp. split; [apply get_existing_perm, Hp|]. split; [apply get_existing_eqfold|].
  intros e. apply get_existing_stored.
Qed.
Print Assumptions C04_get_existing_order_free.

(** The guard of creates holds for every create FROM a model: none of its removeLayer calls deletes anything. *)
Theorem C04_create_check_from : forall size_of os q src,
  op_guards size_of empty_store os -> cr_base q = BFrom src ->
  create_check size_of (exec_all size_of empty_store os) q = true.
Proof.
  intros size_of os q src Hg Hb. apply (create_check_from size_of _ q src); [apply history_inv, Hg | exact Hb].
Qed.
Print Assumptions C04_create_check_from.

(** fixBlobs (server/fixblobs.go), first step of the start-up sequence.  A store as an older version left it — blob
    files spelled "sha256:<hex>", old partial downloads, every layer of every readable manifest present under the old or
    the new spelling and intact ([LInv]) — satisfies the invariant of the theorems above after fixBlobs alone and after
    the whole start-up sequence, no file with the old spelling is left, and running fixBlobs again changes nothing.
    Every store the API produces satisfies [LInv], and so does such a store after any of its blob files got the old name. *)
Theorem C04_fixblobs_migrates : forall size_of s,
  LInv size_of s ->
  Inv size_of (rs (fix_blobs (init s))) /\ fixed (rs (fix_blobs (init s))) /\
  Inv size_of (exec size_of s OStartup) /\ fixed (exec size_of s OStartup).
Proof.
  intros size_of s HL. split; [apply fix_blobs_migrates, HL|]. split; [apply fix_blobs_fixed|]. apply startup_migrates, HL.
Qed.
Print Assumptions C04_fixblobs_migrates.

Theorem C04_fixblobs_idempotent : forall s,
  rs (fix_blobs (init (rs (fix_blobs (init s))))) = rs (fix_blobs (init s)) /\
  (fixed s -> fix_blobs (init s) = init s).
Proof. intros s. split; [apply fix_blobs_idempotent | apply fix_blobs_noop]. Qed.
Print Assumptions C04_fixblobs_idempotent.

(** A blob upload whose body ends with a read error (Corr.[blob_aborted]: what the handler does then) leaves the store
    exactly as it was: no byte that was received before the error is part of the store afterwards, so whatever is
    created later is made of its own content only. *)
Theorem C04_aborted_upload_no_trace : forall s d, rs (fst (blob_aborted s d)) = s.
Proof.
  intros [m b db] d. unfold blob_aborted. destruct (bget (dhex d) (MkStore m b db)); [reflexivity|].
  cbn. reflexivity.
Qed.
Print Assumptions C04_aborted_upload_no_trace.

Theorem C04_legacy_stores : forall size_of os hs ps,
  op_guards size_of empty_store os -> LInv size_of (legacy_move (exec_all size_of empty_store os) hs ps).
Proof.
  intros size_of os hs ps Hg. apply legacy_move_LInv, Inv_LInv. apply history_inv, Hg.
Qed.
Print Assumptions C04_legacy_stores.

(** ** Non-vacuity: a history with shared layers, a re-create in place, a case variant, a copy, a delete and a prune *)
Definition ex_sz (c : N) : N := c + 10.
Definition nm (m t : str) : name := MkName s_default_host s_default_ns m t.
Definition ex_a := nm [97] [116].     (* a:t *)
Definition ex_A := nm [65] [116].     (* A:t *)
Definition ex_b := nm [98] [116].     (* b:t *)
Definition ex_c := nm [99] [116].     (* c:t *)
Definition ex_ops : list op :=
  [ OBlob (MkDigest true 1) 1
  ; OCreate (MkCreate ex_a (BFiles (MkDigest true 1) [(0, None)] false [(3, 20); (5, 21)]) None (Some 2) [] None None 30)
  ; OCreate (MkCreate ex_b (BFrom ex_a) (Some (true, 4)) (Some 3) [7] (Some 5) None 31)
  ; OCreate (MkCreate ex_A (BFrom ex_a) None (Some 3) [] None None 32)       (* lands on a:t *)
  ; OCopy ex_b ex_c
  ; ODelete ex_b
  ; OPull ex_b (Some (MkServed (MkManifest (MkLayer 8 (MkDigest true 40) 50) [MkLayer 0 (MkDigest true 1) 11; MkLayer 4 (MkDigest true 41) 51])
                               [Some 1; Some 41; Some 40])) []
  ; OStartup ].

Example C04_example_guards : op_guards ex_sz empty_store ex_ops.
Proof. vm_compute. repeat split. Qed.

Example C04_example_nontrivial :
  let s := exec_all ex_sz empty_store ex_ops in
  length (mans s) = 3%nat /\ length (blobs s) = 11%nat /\ mget ex_A s = None /\ has_unreadable s = false.
Proof. vm_compute. repeat split. Qed.

(** an old-version store: the GGUF blob and a system layer carry the old name, an old partial download lies around;
    two listed models miss their blobs until start-up has run *)
Example C04_example_legacy :
  let s := legacy_move (exec_all ex_sz empty_store ex_ops) [1; 3] [9] in
  bget 1 s = None /\ referenced_hex s 1 = true /\ length (debris s) = 3%nat /\
  let s' := exec ex_sz s OStartup in
  bget 1 s' = Some 1 /\ bget 3 s' = Some 3 /\ debris s' = [] /\ length (blobs s') = 11%nat.
Proof. vm_compute. repeat split. Qed.

(** a blob in which no GGUF can be decoded (a GGUF cut inside its header) is rejected by create: nothing is written
    (repaired, fixes/C04-create-empty-gguf.patch; unrepaired, a manifest without any layer was written and listed) *)
Example C04_empty_gguf_rejected :
  let s := exec ex_sz empty_store (OBlob (MkDigest true 1) 1) in
  op_run ex_sz s (OCreate (MkCreate ex_a (BFiles (MkDigest true 1) [] false []) None (Some 2) [] None None 30)) = (init s, RErr).
Proof. reflexivity. Qed.

(** getExistingName, unrepaired: on a store that holds two spellings of a name part the answer depends on the map
    order and an exactly stored name can be rewritten to a name that is not stored.  (Through the API alone two
    spellings of a part only arise through the pull defect below: the unrepaired function rewrites every part of a new
    name to the spelling some stored name already uses.) *)
Theorem C04_get_existing_legacy_refuted :
  get_existing_legacy [w_e1; w_e2] w_n <> get_existing_legacy [w_e2; w_e1] w_n /\
  (In w_e1 [w_e1; w_e2] /\ get_existing_legacy [w_e1; w_e2] w_e1 = w_n /\ ~ In w_n [w_e1; w_e2]).
Proof. split; [apply legacy_order_dependent | apply legacy_misses_stored_name]. Qed.
Print Assumptions C04_get_existing_legacy_refuted.

(** digest spelling, unrepaired: a create that names its GGUF blob as sha256-<hex> stores that spelling; deleting
    another model that uses the same blob under sha256:<hex> — or a restart — removes the blob of a listed model. *)
Definition legacy_spelling_ops (last : op) : list op :=
  [ OBlob (MkDigest true 1) 1
  ; OCreate (MkCreate ex_a (BFiles (MkDigest true 1) [(0, None)] false []) None None [] None None 30)
  ; OCreate (MkCreate ex_c (BFiles (MkDigest false 1) [(0, None)] false []) None None [] None None 31)
  ; last ].

Theorem C04_listed_complete_legacy_refuted :
  (let s := fold_left (exec_legacy ex_sz) (legacy_spelling_ops (ODelete ex_a)) empty_store in
   exists m, mget ex_c s = Some (Readable m) /\ exists l, In l (all_layers m) /\ bget (dhex (ldg l)) s = None) /\
  (let s := fold_left (exec_legacy ex_sz) (legacy_spelling_ops (ODelete ex_a) ++ [OStartup]) empty_store in
   exists m, mget ex_c s = Some (Readable m) /\ exists l, In l (all_layers m) /\ bget (dhex (ldg l)) s = None) /\
  (let s := fold_left (exec_legacy ex_sz)
              [OBlob (MkDigest true 1) 1; OCreate (MkCreate ex_c (BFiles (MkDigest false 1) [(0, None)] false []) None None [] None None 31); OStartup] empty_store in
   exists m, mget ex_c s = Some (Readable m) /\ exists l, In l (all_layers m) /\ bget (dhex (ldg l)) s = None).
Proof.
  repeat split; vm_compute; eexists; (split; [reflexivity|]); eexists; (split; [left; reflexivity | reflexivity]).
Qed.
Print Assumptions C04_listed_complete_legacy_refuted.

(** the same histories on the repaired model end well *)
Example C04_spelling_repaired :
  let s := exec_all ex_sz empty_store (legacy_spelling_ops (ODelete ex_a)) in
  exists m, mget ex_c s = Some (Readable m) /\ forallb (fun l => match bget (dhex (ldg l)) s with Some _ => true | None => false end) (all_layers m) = true.
Proof. vm_compute. eexists. split; reflexivity. Qed.

(** create FROM a model that does not exist, unrepaired: the error is reported and a manifest with no base layer is
    written all the same; repaired: nothing is written. *)
Theorem C04_from_missing_legacy_refuted :
  let q := MkCreate ex_a (BFrom ex_b) None (Some 2) [] None None 30 in
  (exists m, mget ex_a (exec_legacy ex_sz empty_store (OCreate q)) = Some (Readable m) /\ snd (op_run_legacy ex_sz empty_store (OCreate q)) = RErr) /\
  exec ex_sz empty_store (OCreate q) = empty_store.
Proof. split; [vm_compute; eexists; split; reflexivity | reflexivity]. Qed.
Print Assumptions C04_from_missing_legacy_refuted.

(** pull, unrepaired: the canonical name goes through its short form, so a default host stored in another letter
    case gets a second manifest in lower case. *)
Definition up_host : name := MkName [82;101;103;105;115;116;114;121;46;79;108;108;97;109;97;46;65;73] s_default_ns [109] [116].  (* Registry.Ollama.AI/library/m:t *)
Definition legacy_pull_ops : list op :=
  [ OBlob (MkDigest true 1) 1
  ; OCreate (MkCreate up_host (BFiles (MkDigest true 1) [(0, None)] false []) None None [] None None 30)
  ; OPull (nm [109] [116]) (Some (MkServed (MkManifest (MkLayer 8 (MkDigest true 40) 50) [MkLayer 0 (MkDigest true 1) 11]) [Some 1; Some 40])) [] ].

Theorem C04_pull_case_legacy_refuted :
  (let s := fold_left (exec_legacy ex_sz) legacy_pull_ops empty_store in
   exists ma mb, mget up_host s = Some (Readable ma) /\ mget (nm [109] [116]) s = Some (Readable mb) /\ name_eqfold up_host (nm [109] [116]) = true) /\
  (let s := exec_all ex_sz empty_store legacy_pull_ops in mget (nm [109] [116]) s = None /\ length (mans s) = 1%nat).
Proof. split; vm_compute; [eexists; eexists; repeat split | split; reflexivity]. Qed.
Print Assumptions C04_pull_case_legacy_refuted.

(** ... and once two spellings of a part are stored, the unrepaired getExistingName takes every part from the last
    stored name (in map order) that matches it: deleting the exactly stored name [Registry.Ollama.AI/library/m:t]
    removes the manifest of the *other* model (for the map order modelled here; the other order removes the right one). *)
Theorem C04_frame_legacy_refuted :
  let s0 := fold_left (exec_legacy ex_sz) legacy_pull_ops empty_store in
  let s := exec_legacy ex_sz s0 (ODelete up_host) in
  mget up_host s = mget up_host s0 /\ mget up_host s0 <> None /\ mget (nm [109] [116]) s0 <> None /\ mget (nm [109] [116]) s = None.
Proof. vm_compute. repeat split; discriminate. Qed.
Print Assumptions C04_frame_legacy_refuted.

(** ** Known finding (not repaired): without the guard on creates the statement is false of the faithful model.
    removeLayer scans the stored manifests only, not the layer list in the making: a create from a GGUF with an
    auto-detected params layer (content 21), a LICENSE whose text has the very same bytes, and a PARAMETER override
    deletes blob 21 while the license layer still points to it.  (Reproduced on the real code: corpus case
    "inflight-layer-deleted" of props/c04.py.)  [C04_listed_complete] above is the partial statement: its guard
    [create_check] excludes exactly these creates, and holds for every create FROM a model (C04_create_check_from). *)
Definition C04_listed_complete_full : Prop := forall size_of os n m l,
  mget n (exec_all size_of empty_store os) = Some (Readable m) -> In l (all_layers m) ->
  bget (dhex (ldg l)) (exec_all size_of empty_store os) = Some (dhex (ldg l)).

Definition inflight_ops : list op :=
  [ OBlob (MkDigest true 1) 1
  ; OCreate (MkCreate ex_a (BFiles (MkDigest true 1) [(0, None)] false [(3, 20); (5, 21)]) None None [21] (Some 22) None 30) ].

Theorem C04_listed_complete_refuted : ~ C04_listed_complete_full.
Proof.
  intros H. specialize (H ex_sz inflight_ops ex_a). vm_compute in H.
  specialize (H _ (MkLayer 7 (MkDigest true 21) 31) eq_refl). discriminate H. right. right. left. reflexivity.
Qed.
Print Assumptions C04_listed_complete_refuted.

Example C04_inflight_guard_false :
  op_guard ex_sz (exec ex_sz empty_store (OBlob (MkDigest true 1) 1)) (nth 1 inflight_ops OStartup) = false.
Proof. reflexivity. Qed.

(** ** Known finding (not repaired): a listed model without a model layer cannot be shown *)
Definition C04_listed_showable_full : Prop := forall size_of os,
  op_guards size_of empty_store os ->
  forall n m, mget n (exec_all size_of empty_store os) = Some (Readable m) -> has_model_b m = true.

Theorem C04_listed_showable_refuted : ~ C04_listed_showable_full.
Proof.
  intros H.
  specialize (H ex_sz [OBlob (MkDigest true 1) 1; OCreate (MkCreate ex_a (BFiles (MkDigest true 1) [(MT_ADAPTER, None)] false []) None None [] None None 30)]).
  assert (Hg : op_guards ex_sz empty_store [OBlob (MkDigest true 1) 1; OCreate (MkCreate ex_a (BFiles (MkDigest true 1) [(MT_ADAPTER, None)] false []) None None [] None None 30)])
    by (vm_compute; repeat split).
  specialize (H Hg ex_a). vm_compute in H. specialize (H _ eq_refl). discriminate.
Qed.
Print Assumptions C04_listed_showable_refuted.

(** ... and every listed model can be shown — all layers and the config served (present, intact, right size), a model
    layer among them, every layer content of the kind its media type promises — for histories whose creates from files
    bring a model-type GGUF and whose pulls serve a manifest with a model layer ([ops_have_model]: exactly the complement
    of the known finding), and whose requests carry well-formed contents ([ops_wf wf], for an arbitrary notion [wf mt c]
    of "content c decodes as media type mt": the handlers decode the GGUF, parse the template and produce the JSON
    themselves before they store a layer; a pull stores what the registry serves). *)
Theorem C04_listed_showable_partial : forall size_of wf os,
  op_guards size_of empty_store os -> ops_have_model os = true -> ops_wf wf os = true ->
  let s := exec_all size_of empty_store os in
  forall n m, mget n s = Some (Readable m) -> showable size_of wf s m.
Proof. intros size_of wf os Hg Hm Hw s. apply (history_showable size_of wf os Hg Hm Hw). Qed.
Print Assumptions C04_listed_showable_partial.

Example C04_showable_partial_nonvacuous :
  ops_have_model ex_ops = true /\ ops_wf (fun mt c => negb (c =? 99)) ex_ops = true /\
  ops_wf (fun mt c => negb ((mt =? MT_TEMPLATE) && (c =? 4))) ex_ops = false.
Proof. vm_compute. repeat split. Qed.

(** ** Models listed by a pull through the new code path (Store/Pull2.v), with a layer of length 0

    blob.DiskCache.Get reports an empty file as absent, so an empty layer is never "cached"; Chunked accepts an empty
    file under the blob's name as the layer, otherwise the (empty) scratch file is committed: after the pull the blob
    sha256-e3b0c442... exists, and the listed model is complete.  ([C12_pull2_crash_sound] and its companions are
    stated for manifests without empty layers — [guard2]; for this class the model is tied to the code by the
    differential run, and the computation below shows what it predicts.) *)
Definition e0_sz (c : N) : N := match c with 9 => 0 | _ => c + 10 end.
Definition e0_man := MkManifest (MkLayer MT_CONFIG (MkDigest true 2) 12)
                                [MkLayer MT_SYSTEM (MkDigest true 9) 0; MkLayer MT_MODEL (MkDigest true 1) 11; MkLayer MT_LICENSE (MkDigest true 9) 0].
Definition e0_sv := MkServed2 e0_man 3 [(1, [MkChunk 4 true; MkChunk 5 true]); (9, [MkChunk 7 true]); (2, [MkChunk 6 true])].
Definition e0_n := MkName [104] [110] [109] [116].

Example C04_pull2_empty_layer :
  let f := exec2 e0_sz 9 (MkSt2 empty_store []) e0_n e0_sv in
  snd (pull2 e0_sz 9 (MkSt2 empty_store []) e0_n e0_sv) = ROk /\
  mget e0_n (base f) = Some (Readable e0_man) /\ bget 9 (base f) = Some 9 /\ man_okb e0_sz (base f) e0_man = true /\
  (* the blob is there already (an earlier pull, an upload): nothing is committed, the model is complete all the same *)
  let g := exec2 e0_sz 9 (MkSt2 (MkStore [] [(9, 9)] []) []) e0_n e0_sv in
  man_okb e0_sz (base g) e0_man = true /\ existsb (fun e => match e with XCommit 9 => true | _ => false end)
                                                  (effects2 e0_sz 9 (MkSt2 (MkStore [] [(9, 9)] []) []) e0_n e0_sv) = false.
Proof. vm_compute. repeat split. Qed.

(** the variant whose "cached?" test compares sizes without looking at Get's error (the zero Entry has Size 0) takes
    every empty layer for cached: nothing is committed, the manifest is linked, the listed model lacks a blob *)
Definition do_layer_sizeonly (size_of : N -> N) (emp : N) (sv : served2) (r : run2) (l : layer) : run2 * bool :=
  let sz := match bget (dhex (ldg l)) (base (rs2 r)) with Some c => if size_of c =? 0 then 0 else size_of c | None => 0 end in
  if sz =? lsz l then (r, true) else do_layer size_of emp sv r l.

Example C04_pull2_empty_layer_sizeonly_refuted :
  let r := fold_left (fun r l => fst (do_layer_sizeonly e0_sz 9 e0_sv r l)) (all_layers e0_man) (init2 (MkSt2 empty_store [])) in
  let r' := link (put_blob e0_sz 9 r 3) e0_n e0_man in
  mget e0_n (base (rs2 r')) = Some (Readable e0_man) /\ bget 9 (base (rs2 r')) = None /\ man_okb e0_sz (base (rs2 r')) e0_man = false.
Proof. vm_compute. repeat split. Qed.

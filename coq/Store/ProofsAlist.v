(** * Store/ProofsAlist.v — lemmas on association lists, names and the store primitives *)
From Coq Require Import List NArith Bool Arith Lia.
From V Require Import Common.Bytes Store.Fs.
Import ListNotations.
Open Scope N_scope.

Section AlistLemmas.
  Context {K V : Type}.
  Variable keqb : K -> K -> bool.
  Hypothesis keqb_spec : forall a b, keqb a b = true <-> a = b.

  Lemma keqb_refl a : keqb a a = true.
  Proof. apply keqb_spec; reflexivity. Qed.

  Lemma keqb_neq a b : a <> b -> keqb a b = false.
  Proof. intros H. destruct (keqb a b) eqn:E; [apply keqb_spec in E; contradiction | reflexivity]. Qed.

  Lemma keqb_dec (a b : K) : {a = b} + {a <> b}.
  Proof.
    destruct (keqb a b) eqn:E; [left; apply keqb_spec; exact E | right; intros ->; rewrite keqb_refl in E; discriminate].
  Qed.

  Lemma aget_adel_same k (m : list (K * V)) : aget keqb k (adel keqb k m) = None.
  Proof.
    induction m as [|[k' v] t IH]; cbn; [reflexivity|].
    destruct (keqb k k') eqn:E; [exact IH|]. cbn. rewrite E. exact IH.
  Qed.

  Lemma aget_adel_other k k' (m : list (K * V)) : k <> k' -> aget keqb k (adel keqb k' m) = aget keqb k m.
  Proof.
    intros Hn. induction m as [|[k2 v] t IH]; cbn; [reflexivity|].
    destruct (keqb k' k2) eqn:E.
    - apply keqb_spec in E; subst k2. rewrite (keqb_neq k k' Hn). exact IH.
    - cbn. destruct (keqb k k2); [reflexivity | exact IH].
  Qed.

  Lemma aget_app k (a b : list (K * V)) :
    aget keqb k (a ++ b) = match aget keqb k a with Some v => Some v | None => aget keqb k b end.
  Proof.
    induction a as [|[k' v] t IH]; cbn; [reflexivity|]. destruct (keqb k k'); [reflexivity | exact IH].
  Qed.

  Lemma aget_aset_same k v (m : list (K * V)) : aget keqb k (aset keqb k v m) = Some v.
  Proof. unfold aset. rewrite aget_app, aget_adel_same. cbn. rewrite keqb_refl. reflexivity. Qed.

  Lemma aget_aset_other k k' v (m : list (K * V)) : k <> k' -> aget keqb k (aset keqb k' v m) = aget keqb k m.
  Proof.
    intros Hn. unfold aset. rewrite aget_app, (aget_adel_other _ _ _ Hn). cbn. rewrite (keqb_neq _ _ Hn).
    destruct (aget keqb k m); reflexivity.
  Qed.

  Lemma aget_In k v (m : list (K * V)) : aget keqb k m = Some v -> In (k, v) m.
  Proof.
    induction m as [|[k' v'] t IH]; cbn; [discriminate|].
    destruct (keqb k k') eqn:E.
    - intros [= ->]. apply keqb_spec in E; subst. left; reflexivity.
    - intros H; right; apply IH, H.
  Qed.

  Lemma In_aget k v (m : list (K * V)) : In (k, v) m -> exists v', aget keqb k m = Some v'.
  Proof.
    induction m as [|[k' v'] t IH]; cbn; [contradiction|].
    intros [[= -> ->]|H].
    - rewrite keqb_refl. eauto.
    - destruct (keqb k k'); [eauto | apply IH, H].
  Qed.

  Lemma aget_none_not_in k (m : list (K * V)) : aget keqb k m = None -> forall v, ~ In (k, v) m.
  Proof. intros H v Hin. apply In_aget in Hin as [v' Hv]. congruence. Qed.

  Lemma In_adel k k' v (m : list (K * V)) : In (k, v) (adel keqb k' m) -> In (k, v) m /\ k <> k'.
  Proof.
    induction m as [|[k2 v2] t IH]; cbn; [contradiction|].
    destruct (keqb k' k2) eqn:E.
    - intros H. apply IH in H as [H1 H2]. split; [right; exact H1 | exact H2].
    - cbn. intros [[= -> ->]|H].
      + split; [left; reflexivity|]. intros ->. rewrite keqb_refl in E. discriminate.
      + apply IH in H as [H1 H2]. split; [right; exact H1 | exact H2].
  Qed.

  Lemma In_adel_intro k k' v (m : list (K * V)) : In (k, v) m -> k <> k' -> In (k, v) (adel keqb k' m).
  Proof.
    intros Hin Hn. induction m as [|[k2 v2] t IH]; cbn in *; [contradiction|].
    destruct Hin as [[= -> ->]|Hin].
    - rewrite (keqb_neq k' k); [left; reflexivity | congruence].
    - destruct (keqb k' k2); [apply IH, Hin | right; apply IH, Hin].
  Qed.

  Lemma In_aset k k' v v' (m : list (K * V)) :
    In (k, v) (aset keqb k' v' m) <-> (k = k' /\ v = v') \/ (k <> k' /\ In (k, v) m).
  Proof.
    unfold aset. rewrite in_app_iff. cbn. split.
    - intros [H|[[= -> ->]|[]]]; [apply In_adel in H as [H1 H2]; right; auto | left; auto].
    - intros [[-> ->]|[Hn Hin]]; [right; left; reflexivity | left; apply In_adel_intro; assumption].
  Qed.

  Lemma In_aset_other k k' v v' (m : list (K * V)) : k <> k' -> (In (k, v) (aset keqb k' v' m) <-> In (k, v) m).
  Proof. intros Hn. rewrite In_aset. split; [intros [[E _]|[_ H]]; [contradiction | exact H] | auto]. Qed.

  Lemma In_adel_other k k' v (m : list (K * V)) : k <> k' -> (In (k, v) (adel keqb k' m) <-> In (k, v) m).
  Proof. intros Hn. split; [intros H; apply In_adel in H; apply H | intros H; apply In_adel_intro; assumption]. Qed.

  Lemma aget_Some_in_keys k v (m : list (K * V)) : aget keqb k m = Some v -> In k (akeys m).
  Proof. intros H. apply aget_In in H. unfold akeys. apply in_map_iff. exists (k, v). auto. Qed.

End AlistLemmas.

Lemma name_eqb_spec a b : name_eqb a b = true <-> a = b.
Proof.
  unfold name_eqb. rewrite !andb_true_iff, !eqb_str_spec. destruct a, b; cbn. split.
  - intros [[[-> ->] ->] ->]. reflexivity.
  - intros [= -> -> -> ->]. auto.
Qed.

Lemma name_eqb_refl a : name_eqb a a = true.
Proof. apply name_eqb_spec; reflexivity. Qed.

Lemma name_eq_dec (a b : name) : {a = b} + {a <> b}.
Proof. exact (keqb_dec name_eqb name_eqb_spec a b). Qed.

Lemma mget_aset_same {V} n (v : V) s : aget name_eqb n (aset name_eqb n v s) = Some v.
Proof. apply (aget_aset_same name_eqb name_eqb_spec). Qed.
Lemma mget_aset_other {V} n n' (v : V) s : n <> n' -> aget name_eqb n (aset name_eqb n' v s) = aget name_eqb n s.
Proof. apply (aget_aset_other name_eqb name_eqb_spec). Qed.
Lemma mget_adel_same {V} n (s : list (name * V)) : aget name_eqb n (adel name_eqb n s) = None.
Proof. apply aget_adel_same. Qed.
Lemma mget_adel_other {V} n n' (s : list (name * V)) : n <> n' -> aget name_eqb n (adel name_eqb n' s) = aget name_eqb n s.
Proof. apply (aget_adel_other name_eqb name_eqb_spec). Qed.

Lemma bget_aset_same {V} h (v : V) s : aget N.eqb h (aset N.eqb h v s) = Some v.
Proof. apply (aget_aset_same N.eqb N.eqb_eq). Qed.
Lemma bget_aset_other {V} h h' (v : V) s : h <> h' -> aget N.eqb h (aset N.eqb h' v s) = aget N.eqb h s.
Proof. apply (aget_aset_other N.eqb N.eqb_eq). Qed.
Lemma bget_adel_same {V} h (s : list (N * V)) : aget N.eqb h (adel N.eqb h s) = None.
Proof. apply aget_adel_same. Qed.
Lemma bget_adel_other {V} h h' (s : list (N * V)) : h <> h' -> aget N.eqb h (adel N.eqb h' s) = aget N.eqb h s.
Proof. apply (aget_adel_other N.eqb N.eqb_eq). Qed.

Lemma prstate_eqb_spec a b : prstate_eqb a b = true <-> a = b.
Proof. destruct a, b; cbn; split; intros H; try reflexivity; try discriminate. Qed.

Lemma dfile_eqb_spec a b : dfile_eqb a b = true <-> a = b.
Proof.
  destruct a as [|h|h i st|h c|h], b as [|h'|h' i' st'|h' c'|h']; cbn; try (split; [discriminate | intros H; discriminate H]).
  - tauto.
  - rewrite N.eqb_eq. split; [intros ->; reflexivity | intros [= ->]; reflexivity].
  - rewrite !andb_true_iff, !N.eqb_eq, prstate_eqb_spec. split; [intros [[-> ->] ->]; reflexivity | intros [= -> -> ->]; auto].
  - rewrite !andb_true_iff, !N.eqb_eq. split; [intros [-> ->]; reflexivity | intros [= -> ->]; auto].
  - rewrite N.eqb_eq. split; [intros ->; reflexivity | intros [= ->]; reflexivity].
Qed.

Lemma mget_mans s s' n : mans s' = mans s -> mget n s' = mget n s.
Proof. unfold mget. intros ->. reflexivity. Qed.
Lemma readable_names_mans s s' : mans s' = mans s -> readable_names s' = readable_names s.
Proof. unfold readable_names. intros ->. reflexivity. Qed.
Lemma has_unreadable_mans s s' : mans s' = mans s -> has_unreadable s' = has_unreadable s.
Proof. unfold has_unreadable. intros ->. reflexivity. Qed.
Lemma referenced_mans s s' d : mans s' = mans s -> referenced s' d = referenced s d.
Proof. unfold referenced. intros ->. reflexivity. Qed.
Lemma referenced_hex_mans s s' h : mans s' = mans s -> referenced_hex s' h = referenced_hex s h.
Proof. unfold referenced_hex. intros ->. reflexivity. Qed.

Lemma apply_list_app s a b : apply_list s (a ++ b) = apply_list (apply_list s a) b.
Proof. unfold apply_list. apply fold_left_app. Qed.

Lemma apply_list_cons s e t : apply_list s (e :: t) = apply_list (apply_effect s e) t.
Proof. reflexivity. Qed.

Lemma apply_list_snoc s a e : apply_list s (a ++ [e]) = apply_effect (apply_list s a) e.
Proof. rewrite apply_list_app. reflexivity. Qed.

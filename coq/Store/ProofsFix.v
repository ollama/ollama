(** * Store/ProofsFix.v — fixBlobs (server/fixblobs.go): blob files with the old "sha256:" spelling *)
From Coq Require Import List NArith Bool Arith Lia.
From V Require Import Common.Bytes Store.Fs Store.Ops Store.ProofsAlist Store.ProofsNames Store.ProofsInv Store.ProofsOps Store.ProofsTop Store.ProofsMore.
Import ListNotations.
Open Scope N_scope.

Definition is_colon (d : dfile) : bool := match d with DColon _ _ | DColonPartial _ => true | _ => false end.

(** no file with the old spelling is left *)
Definition fixed (s : store) : Prop := forall d, In d (debris s) -> is_colon d = false.

Lemma In_remove_all_neq x d l : In x (remove_all d l) -> x <> d.
Proof.
  unfold remove_all. intros H. apply filter_In in H as [_ H]. intros ->.
  rewrite (proj2 (dfile_eqb_spec d d) eq_refl) in H. discriminate.
Qed.

Lemma In_remove_all_intro x d l : In x l -> x <> d -> In x (remove_all d l).
Proof.
  intros H Hn. unfold remove_all. apply filter_In. split; [exact H|].
  destruct (dfile_eqb d x) eqn:E; [apply dfile_eqb_spec in E; congruence | reflexivity].
Qed.

Lemma fix_fold_colons ds : forall r,
  (forall x, In x (debris (rs r)) -> is_colon x = true -> In x ds) ->
  forall x, In x (debris (rs (fold_left fix_step ds r))) -> is_colon x = false.
Proof.
  induction ds as [|d ds IH]; intros r H x Hx; cbn [fold_left] in Hx.
  - destruct (is_colon x) eqn:E; [|reflexivity]. destruct (H x Hx E).
  - apply (IH (fix_step r d)); [|exact Hx]. intros y Hy Hc.
    assert (Hy' : In y (debris (rs r)) /\ y <> d \/ (is_colon d = false /\ In y (debris (rs r)))).
    { destruct d as [| | |h c|h]; cbn [fix_step] in Hy; try (right; split; [reflexivity | exact Hy]).
      - cbn [emit rs apply_effect debris] in Hy. left. split; [eapply In_remove_all; exact Hy | eapply In_remove_all_neq; exact Hy].
      - cbn [emit rs apply_effect debris] in Hy. apply In_add_debris in Hy as [->|Hy]; [discriminate|].
        left. split; [eapply In_remove_all; exact Hy | eapply In_remove_all_neq; exact Hy]. }
    destruct Hy' as [[Hy1 Hy2]|[Hd Hy1]].
    + destruct (H y Hy1 Hc) as [->|Hin]; [congruence | exact Hin].
    + destruct (H y Hy1 Hc) as [<-|Hin]; [congruence | exact Hin].
Qed.

Lemma fix_blobs_fixed s : fixed (rs (fix_blobs (init s))).
Proof. unfold fixed, fix_blobs. cbn [init rs]. apply fix_fold_colons. cbn. auto. Qed.

Lemma fix_fold_noop ds : forall r, (forall d, In d ds -> is_colon d = false) -> fold_left fix_step ds r = r.
Proof.
  induction ds as [|d ds IH]; intros r H; cbn [fold_left]; [reflexivity|].
  assert (Hd := H d (or_introl eq_refl)). destruct d; try discriminate; cbn [fix_step]; apply IH; intros x Hx; apply H; right; exact Hx.
Qed.

Lemma fix_blobs_noop s : fixed s -> fix_blobs (init s) = init s.
Proof. intros H. unfold fix_blobs. apply fix_fold_noop. exact H. Qed.

Lemma fix_blobs_idempotent s :
  rs (fix_blobs (init (rs (fix_blobs (init s))))) = rs (fix_blobs (init s)).
Proof. rewrite fix_blobs_noop; [reflexivity | apply fix_blobs_fixed]. Qed.

Section Fix.
  Variable size_of : N -> N.
  Notation Inv := (Inv size_of).

  (** the invariant of a store as an older version left it: a layer may be present under the old spelling *)
  Definition layer_legacy_ok (s : store) (l : layer) : Prop :=
    dcolon (ldg l) = true /\ lsz l = size_of (dhex (ldg l)) /\
    (bget (dhex (ldg l)) s = Some (dhex (ldg l)) \/ In (DColon (dhex (ldg l)) (dhex (ldg l))) (debris s)).

  Record LInv (s : store) : Prop := MkLInv {
    linv_mans : forall n m, listed s n m -> Forall (layer_legacy_ok s) (all_layers m);
    linv_blobs : blobs_intact s;
    linv_case : case_unique s;
    linv_legacy : legacy_intact (debris s)
  }.

  Lemma Inv_LInv s : Inv s -> LInv s.
  Proof.
    intros [Hm Hb Hc Hl]. split; try assumption. intros n m Hlist. specialize (Hm n m Hlist).
    unfold man_ok in Hm. rewrite Forall_forall in *. intros l Hin. destruct (Hm l Hin) as [H1 [H2 H3]]. split; [exact H1|]. split; [exact H3 | left; exact H2].
  Qed.

  Lemma fix_step_blobs r d :
    (match d with DColon h c => c = h | _ => True end) ->
    blobs_intact (rs r) ->
    blobs_intact (rs (fix_step r d)) /\
    (forall h, bget h (rs r) = Some h -> bget h (rs (fix_step r d)) = Some h) /\
    (forall h c, d = DColon h c -> bget h (rs (fix_step r d)) = Some h).
  Proof.
    intros Hd Hb. destruct d as [| | |h c|h]; cbn [fix_step]; try (split; [exact Hb | split; [auto | discriminate]]).
    subst c. split; [|split].
    - intros h' c Hin. cbn in Hin. apply (In_aset N.eqb N.eqb_eq) in Hin as [[-> ->]|[_ Hin]]; [reflexivity | apply Hb, Hin].
    - intros h' Hp. unfold bget in *; cbn. destruct (N.eq_dec h' h) as [->|Hn]; [apply bget_aset_same | rewrite bget_aset_other by exact Hn; exact Hp].
    - intros h' c [= <- <-]. unfold bget; cbn. apply bget_aset_same.
  Qed.

  Lemma fix_fold_blobs ds : forall r,
    legacy_intact ds -> blobs_intact (rs r) ->
    blobs_intact (rs (fold_left fix_step ds r)) /\
    (forall h, bget h (rs r) = Some h -> bget h (rs (fold_left fix_step ds r)) = Some h) /\
    (forall h c, In (DColon h c) ds -> bget h (rs (fold_left fix_step ds r)) = Some h).
  Proof.
    induction ds as [|d ds IH]; intros r Hl Hb; cbn [fold_left]; [split; [exact Hb | split; [auto | intros h c []]]|].
    assert (Hd : match d with DColon h c => c = h | _ => True end) by (destruct d; try exact I; apply (Hl h c); left; reflexivity).
    destruct (fix_step_blobs r d Hd Hb) as [S1 [S2 S3]].
    destruct (IH (fix_step r d) (fun h c Hin => Hl h c (or_intror Hin)) S1) as [I1 [I2 I3]].
    split; [exact I1|]. split.
    - intros h Hp. apply I2, S2, Hp.
    - intros h c [->|Hin]; [apply I2, (S3 h c eq_refl) | apply (I3 h c Hin)].
  Qed.

  Theorem fix_blobs_migrates s : LInv s -> Inv (rs (fix_blobs (init s))).
  Proof.
    intros [Hm Hb Hc Hl]. set (sF := rs (fix_blobs (init s))).
    assert (Hmans : mans sF = mans s) by (apply (fix_blobs_mans (init s))).
    destruct (fix_fold_blobs (debris s) (init s) Hl Hb) as [F1 [F2 F3]]. fold (fix_blobs (init s)) in F1, F2, F3. fold sF in F1, F2, F3.
    assert (Hfx := fix_blobs_fixed s). fold sF in Hfx.
    split.
    - intros n m Hlist. unfold listed in Hlist. rewrite Hmans in Hlist. specialize (Hm n m Hlist).
      unfold man_ok. rewrite Forall_forall in *. intros l Hin. destruct (Hm l Hin) as [H1 [H2 [H3|H3]]].
      + split; [exact H1|]. split; [apply F2, H3 | exact H2].
      + split; [exact H1|]. split; [apply (F3 _ _ H3) | exact H2].
    - exact F1.
    - intros a b ma mb Ha Hb'. unfold listed in Ha, Hb'. rewrite Hmans in Ha, Hb'. apply (Hc a b ma mb Ha Hb').
    - intros h c Hin. specialize (Hfx _ Hin). discriminate.
  Qed.

  (** what the correspondence check does to obtain such a store keeps the legacy invariant *)
  Lemma legacy_move_blob_LInv s h :
    LInv s ->
    LInv (match bget h s with
          | Some c => MkStore (mans s) (adel N.eqb h (blobs s)) (add_debris (DColon h c) (debris s))
          | None => s
          end).
  Proof.
    intros HL. destruct (bget h s) as [c|] eqn:Eb; [|exact HL]. destruct HL as [Hm Hb Hc Hl].
    assert (Hch : c = h) by (apply (Hb h c), (aget_In N.eqb N.eqb_eq), Eb). subst c.
    split.
    - intros n m Hlist. specialize (Hm n m Hlist). rewrite Forall_forall in *. intros l Hin.
      destruct (Hm l Hin) as [H1 [H2 H3]]. split; [exact H1|]. split; [exact H2|]. cbn [debris].
      destruct (N.eq_dec (dhex (ldg l)) h) as [->|Hn].
      + right. apply In_add_debris_intro.
      + destruct H3 as [H3|H3]; [left; unfold bget in *; cbn; rewrite bget_adel_other by exact Hn; exact H3 | right; apply In_add_debris_mono, H3].
    - intros h' c Hin. cbn in Hin. apply (In_adel N.eqb N.eqb_eq) in Hin as [Hin _]. apply (Hb h' c Hin).
    - exact Hc.
    - intros h' c Hin. cbn [debris] in Hin. apply In_add_debris in Hin as [[= -> ->]|Hin]; [reflexivity | apply (Hl h' c Hin)].
  Qed.

  Lemma legacy_move_LInv s hs ps : LInv s -> LInv (legacy_move s hs ps).
  Proof.
    intros HL. unfold legacy_move.
    assert (H1 : forall hs s, LInv s -> LInv (fold_left (fun s h => match bget h s with
                 | Some c => MkStore (mans s) (adel N.eqb h (blobs s)) (add_debris (DColon h c) (debris s)) | None => s end) hs s)).
    { clear. induction hs as [|h hs IH]; intros s HL; cbn [fold_left]; [exact HL|]. apply IH, legacy_move_blob_LInv, HL. }
    assert (H2 : forall ps s, LInv s -> LInv (fold_left (fun s p => MkStore (mans s) (blobs s) (add_debris (DColonPartial p) (debris s))) ps s)).
    { clear. induction ps as [|p ps IH]; intros s HL; cbn [fold_left]; [exact HL|]. apply IH. destruct HL as [Hm Hb Hc Hl]. split.
      - intros n m Hlist. specialize (Hm n m Hlist). rewrite Forall_forall in *. intros l Hin.
        destruct (Hm l Hin) as [A [B [C|C]]]; (split; [exact A|]; split; [exact B|]); [left; exact C | right; apply In_add_debris_mono, C].
      - exact Hb.
      - exact Hc.
      - intros h c Hin. cbn [debris] in Hin. apply In_add_debris in Hin as [Hin|Hin]; [discriminate | apply (Hl h c Hin)]. }
    apply H2, H1, HL.
  Qed.

  (* pruning is allowed wherever the invariant holds, so fixBlobs alone has to establish it *)
  Theorem startup_migrates s : LInv s -> Inv (exec size_of s OStartup) /\ fixed (exec size_of s OStartup).
  Proof.
    intros HL. assert (HI := fix_blobs_migrates s HL). assert (Hf := fix_blobs_fixed s).
    unfold exec, op_run, op_startup. cbn [fst]. set (r0 := fix_blobs (init s)) in *. split.
    - apply (Bok_inv size_of r0); [exact HI | apply startup_rest_bok].
    - destruct (has_unreadable (rs r0)) eqn:Eu; [unfold startup_rest; rewrite Eu; exact Hf|].
      intros d Hd. rewrite (proj1 (startup_rest_spec r0 Eu)) in Hd. destruct Hd.
  Qed.
End Fix.

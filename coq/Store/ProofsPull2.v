(** * Store/ProofsPull2.v — the new pull path: crash points, restarts and the repeated pull (proofs for Pull2.v) *)
From Coq Require Import List NArith Bool Arith Lia.
From V Require Import Common.Bytes Store.Fs Store.Ops Store.ProofsAlist Store.ProofsTop Store.ProofsFix Store.Pull2.
Import ListNotations.
Open Scope N_scope.

Lemma apply_list2_snoc s a e : apply_list2 s (a ++ [e]) = apply2 (apply_list2 s a) e.
Proof. unfold apply_list2. rewrite fold_left_app. reflexivity. Qed.

Definition Rok2 (P : st2 -> Prop) (s0 : st2) (r : run2) : Prop :=
  rs2 r = apply_list2 s0 (rt2 r) /\ forall k, P (apply_list2 s0 (firstn k (rt2 r))).

Lemma Rok2_init (P : st2 -> Prop) s : P s -> Rok2 P s (init2 s).
Proof. intros H. split; [reflexivity|]. intros k. cbn. rewrite firstn_nil. exact H. Qed.

Lemma Rok2_emit (P : st2 -> Prop) s0 r e : Rok2 P s0 r -> P (apply2 (rs2 r) e) -> Rok2 P s0 (emit2 r e).
Proof.
  intros [H1 H2] Hp. split.
  - cbn [emit2 rs2 rt2]. rewrite apply_list2_snoc, H1. reflexivity.
  - intros k. cbn [emit2 rt2]. destruct (Nat.le_gt_cases k (length (rt2 r))) as [Hk|Hk].
    + rewrite firstn_app. replace (k - length (rt2 r))%nat with 0%nat by lia. cbn. rewrite app_nil_r. apply H2.
    + rewrite firstn_all2 by (rewrite app_length; cbn; lia). rewrite apply_list2_snoc, <- H1. exact Hp.
Qed.

Lemma Rok2_now (P : st2 -> Prop) s0 r : Rok2 P s0 r -> P (rs2 r).
Proof. intros [H1 H2]. rewrite H1. specialize (H2 (length (rt2 r))). rewrite firstn_all in H2. exact H2. Qed.

Lemma indexed_from_nth {A} (l : list A) : forall i j x, nth_error l j = Some x -> In ((i + j)%nat, x) (indexed_from i l).
Proof.
  induction l as [|y l IH]; intros i j x H; destruct j; cbn in *; try discriminate.
  - injection H as ->. left. f_equal. lia.
  - right. rewrite <- Nat.add_succ_comm. apply IH. exact H.
Qed.

Lemma layer_eqb_refl l : layer_eqb l l = true.
Proof. unfold layer_eqb, digest_eqb. rewrite !N.eqb_refl. destruct (dcolon (ldg l)); reflexivity. Qed.
Lemma manifest_eqb_refl m : manifest_eqb m m = true.
Proof.
  unfold manifest_eqb. rewrite layer_eqb_refl. cbn. induction (mlayers m) as [|l t IH]; cbn; [reflexivity|]. rewrite layer_eqb_refl, IH. reflexivity.
Qed.

Section P2.
  Variable size_of : N -> N.
  Variable emp : N.
  Hypothesis Hemp : size_of emp = 0.
  Variable sv : served2.

  Hypothesis Hg : guard2 size_of sv = true.

  Lemma guard_parts :
    forallb (fun l => dcolon (ldg l) && (lsz l =? size_of (dhex (ldg l))) && negb (lsz l =? 0)) (all_layers (s2_man sv)) = true /\
    forallb (fun k => negb (existsb (N.eqb k) (layer_hexes sv))) (s2_mid sv :: all_keys sv) = true /\
    negb (existsb (N.eqb (s2_mid sv)) (all_keys sv)) = true /\ keys_inj sv = true /\
    forallb (fun l => negb (length (chunks_of sv (dhex (ldg l))) =? 0)%nat) (all_layers (s2_man sv)) = true.
  Proof.
    pose proof Hg as H. unfold guard2 in H. apply andb_true_iff in H as [H H5]. apply andb_true_iff in H as [H H4]. apply andb_true_iff in H as [H H3].
    apply andb_true_iff in H as [H1 H2]. auto.
  Qed.

  Lemma guard_layer l : In l (all_layers (s2_man sv)) ->
    dcolon (ldg l) = true /\ lsz l = size_of (dhex (ldg l)) /\ lsz l <> 0.
  Proof.
    intros Hin. destruct guard_parts as [H _]. rewrite forallb_forall in H. specialize (H l Hin).
    apply andb_true_iff in H as [H H3]. apply andb_true_iff in H as [H1 H2].
    split; [exact H1|]. split; [apply N.eqb_eq; exact H2|]. apply N.eqb_neq. apply negb_true_iff. exact H3.
  Qed.

  Lemma guard_chunks l : In l (all_layers (s2_man sv)) ->
    exists cs, aget N.eqb (dhex (ldg l)) (s2_chunks sv) = Some cs /\ chunks_of sv (dhex (ldg l)) = cs /\ cs <> [].
  Proof.
    intros Hl. destruct guard_parts as [_ [_ [_ [_ H]]]]. rewrite forallb_forall in H. specialize (H l Hl).
    apply negb_true_iff in H. apply Nat.eqb_neq in H. unfold chunks_of in *.
    destruct (aget N.eqb (dhex (ldg l)) (s2_chunks sv)) as [cs|]; [|cbn in H; congruence].
    exists cs. split; [reflexivity|]. split; [reflexivity|]. intros ->. apply H. reflexivity.
  Qed.

  Lemma guard_distinct k l : In k (s2_mid sv :: all_keys sv) -> In l (all_layers (s2_man sv)) -> k <> dhex (ldg l).
  Proof.
    intros Hk Hl. destruct guard_parts as [_ [H _]]. rewrite forallb_forall in H. specialize (H k Hk). apply negb_true_iff in H. intros ->.
    assert (E : existsb (N.eqb (dhex (ldg l))) (layer_hexes sv) = true); [|congruence].
    apply existsb_exists. exists (dhex (ldg l)). split; [|apply N.eqb_refl]. unfold layer_hexes.
    apply (in_map (fun l => dhex (ldg l))). exact Hl.
  Qed.

  Lemma guard_mid_key k : In k (all_keys sv) -> k <> s2_mid sv.
  Proof.
    intros Hk. destruct guard_parts as [_ [_ [H _]]]. apply negb_true_iff in H. intros ->.
    assert (E : existsb (N.eqb (s2_mid sv)) (all_keys sv) = true); [|congruence].
    apply existsb_exists. exists (s2_mid sv). split; [exact Hk | apply N.eqb_refl].
  Qed.

  Lemma chunk_key_in h cs i c : aget N.eqb h (s2_chunks sv) = Some cs -> nth_error cs i = Some c -> In (ck_key c) (all_keys sv).
  Proof.
    intros Ha Hn. unfold all_keys. apply in_flat_map. exists (h, cs). split; [apply (aget_In N.eqb N.eqb_eq); exact Ha|].
    cbn. apply in_map. eapply nth_error_In. exact Hn.
  Qed.

  Lemma guard_inj h cs i c h' cs' i' c' :
    aget N.eqb h (s2_chunks sv) = Some cs -> nth_error cs i = Some c ->
    aget N.eqb h' (s2_chunks sv) = Some cs' -> nth_error cs' i' = Some c' ->
    ck_key c = ck_key c' -> h = h' /\ i = i'.
  Proof.
    intros Ha Hn Ha' Hn' Hk. destruct guard_parts as [_ [_ [_ [Hi _]]]]. unfold keys_inj in Hi.
    rewrite forallb_forall in Hi. specialize (Hi (h, cs) (aget_In N.eqb N.eqb_eq _ _ _ Ha)).
    rewrite forallb_forall in Hi. specialize (Hi (h', cs') (aget_In N.eqb N.eqb_eq _ _ _ Ha')).
    rewrite forallb_forall in Hi. specialize (Hi (i, c) (indexed_from_nth cs 0 i c Hn)).
    rewrite forallb_forall in Hi. specialize (Hi (i', c') (indexed_from_nth cs' 0 i' c' Hn')).
    cbn in Hi. rewrite Hk, N.eqb_refl in Hi. cbn in Hi. apply andb_true_iff in Hi as [E1 E2].
    apply N.eqb_eq in E1. apply Nat.eqb_eq in E2. auto.
  Qed.

  (** a blob file holds the content its name promises, or is empty (created, not yet written) *)
  Definition bsound (s : st2) : Prop := forall h c, bget h (base s) = Some c -> c = h \/ size_of c = 0.
  (** every manifest that can be read has all its layers: present, intact, of the recorded size *)
  Definition complete (s : st2) : Prop := forall n m, mget n (base s) = Some (Readable m) -> man_okb size_of (base s) m = true.
  (** a chunk whose record is in the cache is in the scratch file of its layer, unless the layer is there already *)
  Definition rsound (s : st2) : Prop := forall h cs i c,
    aget N.eqb h (s2_chunks sv) = Some cs -> nth_error cs i = Some c -> has_rec size_of s (ck_key c) = true ->
    In i (written s h) \/ has_blob size_of s h (size_of h) = true.
  (** no manifest names a chunk record or the manifest blob as a layer *)
  Definition unref (s : st2) : Prop := forall k, In k (s2_mid sv :: all_keys sv) -> referenced (base s) (MkDigest true k) = false.

  Record good (s : st2) : Prop := MkGood { g_b : bsound s; g_c : complete s; g_r : rsound s; g_u : unref s; g_f : fixed (base s) }.

  (** the name is listed with the manifest that was served *)
  Definition listed_as (s : st2) (n : name) (m : manifest) : bool :=
    match mget n (base s) with Some st => mstate_eqb st (Readable m) | None => false end.

  Lemma complete_layer s n m l :
    complete s -> mget n (base s) = Some (Readable m) -> In l (all_layers m) ->
    ldg l = MkDigest true (dhex (ldg l)) /\ bget (dhex (ldg l)) (base s) = Some (dhex (ldg l)) /\ referenced (base s) (ldg l) = true.
  Proof.
    intros Hc Hm Hl. specialize (Hc n m Hm). unfold man_okb in Hc. rewrite forallb_forall in Hc. specialize (Hc l Hl).
    unfold blob_okb in Hc. apply andb_true_iff in Hc as [Hc _]. apply andb_true_iff in Hc as [H1 H2].
    split; [destruct (ldg l); cbn in *; congruence|]. split; [destruct (bget _ (base s)); [apply N.eqb_eq in H2; congruence | discriminate]|].
    apply (ProofsInv.referenced_intro (base s) n m l); [apply ProofsInv.mget_listed, Hm | exact Hl].
  Qed.

  Lemma unref_sub s s' :
    unref s -> (forall n ms, In (n, ms) (mans (base s')) -> In (n, ms) (mans (base s)) \/
                  forall k, In k (s2_mid sv :: all_keys sv) -> man_uses (MkDigest true k) ms = false) -> unref s'.
  Proof.
    intros Hu Hsub k Hk. specialize (Hu k Hk). destruct (referenced (base s') (MkDigest true k)) eqn:Er; [|reflexivity].
    apply existsb_exists in Er as [[n ms] [Hin Hm]]. cbn [snd] in Hm. destruct (Hsub n ms Hin) as [H|H]; [|rewrite (H k Hk) in Hm; discriminate].
    rewrite <- Hu. symmetry. apply existsb_exists. exists (n, ms). auto.
  Qed.

  Lemma bget_set_blob s h c h' : bget h' (set_blob s h c) = if h' =? h then Some c else bget h' s.
  Proof. unfold bget, set_blob. cbn. destruct (N.eqb_spec h' h) as [->|E]; [apply bget_aset_same | apply bget_aset_other, E]. Qed.

  Lemma blob_okb_set s h c l : (dhex (ldg l) = h -> c = h) -> blob_okb size_of s l = true -> blob_okb size_of (set_blob s h c) l = true.
  Proof.
    intros Hc H. unfold blob_okb in *. apply andb_true_iff in H as [H H3]. apply andb_true_iff in H as [H1 H2].
    rewrite H1, H3, bget_set_blob. destruct (N.eqb_spec (dhex (ldg l)) h) as [E|E]; [|rewrite H2; reflexivity].
    rewrite (Hc E), <- E, N.eqb_refl. reflexivity.
  Qed.

  Lemma man_okb_set s h c m :
    (forall l, In l (all_layers m) -> dhex (ldg l) = h -> c = h) -> man_okb size_of s m = true -> man_okb size_of (set_blob s h c) m = true.
  Proof.
    intros Hc H. unfold man_okb in *. rewrite forallb_forall in *. intros l Hl. apply blob_okb_set; [apply Hc; exact Hl | apply H; exact Hl].
  Qed.

  Lemma referenced_set s h c d : referenced (set_blob s h c) d = referenced s d.
  Proof. reflexivity. Qed.

  Lemma has_rec_set s s' h c k :
    base s' = set_blob (base s) h c -> has_rec size_of s' k = if k =? h then negb (size_of c =? 0) else has_rec size_of s k.
  Proof. intros E. unfold has_rec. rewrite E, bget_set_blob. destruct (k =? h); reflexivity. Qed.

  Lemma has_blob_other s s' h c h' z : base s' = set_blob (base s) h c -> h' <> h -> has_blob size_of s' h' z = has_blob size_of s h' z.
  Proof. intros E Hn. unfold has_blob. rewrite E, bget_set_blob, (proj2 (N.eqb_neq h' h) Hn). reflexivity. Qed.

  (** what the effects that write a blob file have in common; [rsound] is left to each *)
  Lemma good_set s h c ch :
    good s -> c = h \/ size_of c = 0 ->
    (forall n m l, mget n (base s) = Some (Readable m) -> In l (all_layers m) -> dhex (ldg l) = h -> c = h) ->
    rsound (MkSt2 (set_blob (base s) h c) ch) -> good (MkSt2 (set_blob (base s) h c) ch).
  Proof.
    intros [Hb Hc _ Hu Hfx] Hch Hl Hr. split; [| |exact Hr|exact Hu|exact Hfx].
    - intros h' c'. cbn [base]. rewrite bget_set_blob. destruct (N.eqb_spec h' h) as [->|E]; [intros [= <-]; exact Hch | apply Hb].
    - intros n m Hm. cbn [base] in *. apply man_okb_set; [intros l; apply (Hl n m l Hm) | apply (Hc n m Hm)].
  Qed.

  (** XSetBlob k emp, when the file is absent or empty: a new empty file *)
  Lemma good_create s k :
    good s -> In k (s2_mid sv :: all_keys sv) ->
    (forall c, bget k (base s) = Some c -> size_of c = 0) ->
    good (apply2 s (XSetBlob k emp)).
  Proof.
    intros Hgd Hk Habs. apply good_set; [exact Hgd | right; exact Hemp | |]; destruct Hgd as [Hb Hc Hr Hu Hfx].
    - (* no manifest names a record as a layer *)
      intros n m l Hm Hl E. exfalso. destruct (complete_layer s n m l Hc Hm Hl) as [Hd [_ Href]].
      rewrite Hd, E, (Hu k Hk) in Href. discriminate.
    - intros h cs i c Ha Hn Hrec. erewrite (has_rec_set s) in Hrec by reflexivity.
      destruct (ck_key c =? k); [rewrite Hemp in Hrec; discriminate|].
      destruct (Hr h cs i c Ha Hn Hrec) as [H|H]; [left; exact H | right].
      destruct (N.eq_dec h k) as [->|E]; [|erewrite (has_blob_other s); [exact H | reflexivity | exact E]].
      exfalso. unfold has_blob in H. destruct (bget k (base s)) as [c0|] eqn:Eb; [|discriminate]. rewrite (Habs c0 eq_refl), andb_false_r in H. discriminate.
  Qed.

  Lemma has_blob_set s k h : has_blob size_of s h (size_of h) = true -> has_blob size_of (apply2 s (XSetBlob k k)) h (size_of h) = true.
  Proof.
    unfold has_blob. cbn [apply2 base]. rewrite bget_set_blob. destruct (N.eqb_spec h k) as [->|E]; [|auto].
    destruct (bget k (base s)) as [c|]; [|discriminate]. intros H.
    apply andb_true_iff in H as [H1 H2]. apply N.eqb_eq in H1. rewrite <- H1, N.eqb_refl. exact H2.
  Qed.

  (** XSetBlob k k: the file is written *)
  Lemma good_write s k :
    good s -> In k (s2_mid sv :: all_keys sv) ->
    (forall h cs i c, aget N.eqb h (s2_chunks sv) = Some cs -> nth_error cs i = Some c -> ck_key c = k ->
                      In i (written s h) \/ has_blob size_of s h (size_of h) = true) ->
    good (apply2 s (XSetBlob k k)).
  Proof.
    intros Hgd Hk Hw. apply good_set; [exact Hgd | left; reflexivity | reflexivity|].
    intros h cs i c Ha Hn Hrec. erewrite (has_rec_set s) in Hrec by reflexivity.
    assert (H : In i (written s h) \/ has_blob size_of s h (size_of h) = true).
    { destruct (N.eqb_spec (ck_key c) k) as [E|E]; [apply (Hw h cs i c Ha Hn E) | apply (g_r _ Hgd h cs i c Ha Hn Hrec)]. }
    destruct H as [H|H]; [left; exact H | right; apply has_blob_set; exact H].
  Qed.

  Lemma written_put s h i h' i' : In i' (written s h') -> In i' (written (apply2 s (XPut h i)) h').
  Proof.
    unfold written. cbn. destruct (N.eq_dec h' h) as [->|E]; [|rewrite bget_aset_other by exact E; auto].
    rewrite bget_aset_same. fold (written s h). destruct (mem_nat i (written s h)); [auto | intros H; right; exact H].
  Qed.

  Lemma written_put_same s h i : In i (written (apply2 s (XPut h i)) h).
  Proof.
    unfold written. cbn. rewrite bget_aset_same. fold (written s h). destruct (mem_nat i (written s h)) eqn:E; [|left; reflexivity].
    unfold mem_nat in E. apply existsb_exists in E as [x [Hx Ex]]. apply Nat.eqb_eq in Ex. subst x. exact Hx.
  Qed.

  Lemma good_put s h i : good s -> good (apply2 s (XPut h i)).
  Proof.
    intros [Hb Hc Hr Hu Hfx]. split; try assumption.
    intros h' cs i' c Ha Hn Hrec. destruct (Hr h' cs i' c Ha Hn Hrec) as [H|H]; [left; apply written_put; exact H | right; exact H].
  Qed.

  (** XCommit h: the scratch file of a served layer takes the blob's name *)
  Lemma good_commit s l : good s -> In l (all_layers (s2_man sv)) -> good (apply2 s (XCommit (dhex (ldg l)))).
  Proof.
    intros Hgd Hl. set (h := dhex (ldg l)). destruct (guard_layer l Hl) as [G1 [G2 G3]]. fold h in G2.
    apply good_set; [exact Hgd | left; reflexivity | reflexivity|].
    intros h' cs i c Ha Hn Hrec. erewrite (has_rec_set s) in Hrec by reflexivity.
    rewrite (proj2 (N.eqb_neq (ck_key c) h) (guard_distinct _ l (or_intror (chunk_key_in h' cs i c Ha Hn)) Hl)) in Hrec.
    destruct (N.eq_dec h' h) as [->|E].
    - right. unfold has_blob. cbn [base]. rewrite bget_set_blob, !N.eqb_refl. cbn. apply negb_true_iff, N.eqb_neq. rewrite <- G2. exact G3.
    - destruct (g_r _ Hgd h' cs i c Ha Hn Hrec) as [H|H]; [left | right].
      + unfold written in *. cbn. rewrite bget_adel_other by exact E. exact H.
      + erewrite (has_blob_other s); [exact H | reflexivity | exact E].
  Qed.

  Lemma man_okb_blobs s s' m : blobs s' = blobs s -> man_okb size_of s' m = man_okb size_of s m.
  Proof. intros E. unfold man_okb, blob_okb, bget. rewrite E. reflexivity. Qed.

  Lemma good_unlist s e n :
    (e = ERmMan n \/ e = ETruncMan n) -> good s -> good (apply2 s (XBase e)).
  Proof.
    intros He [Hb Hc Hr Hu Hfx].
    assert (Eb : blobs (apply_effect (base s) e) = blobs (base s)) by (destruct He as [->| ->]; reflexivity).
    split.
    - intros h c. cbn. unfold bget. rewrite Eb. apply Hb.
    - intros n0 m Hm. cbn in *. rewrite (man_okb_blobs _ _ _ Eb). destruct (name_eq_dec n0 n) as [->|E].
      + exfalso. unfold mget in Hm. destruct He as [->| ->]; cbn in Hm; [rewrite mget_adel_same in Hm | rewrite mget_aset_same in Hm]; discriminate.
      + apply (Hc n0 m). unfold mget in *. destruct He as [->| ->]; cbn in Hm; [rewrite mget_adel_other in Hm by exact E | rewrite mget_aset_other in Hm by exact E]; exact Hm.
    - intros h cs i c Ha Hn Hrec. unfold has_rec, has_blob, written, bget in *. cbn in *. rewrite Eb in *. apply (Hr h cs i c Ha Hn Hrec).
    - apply (unref_sub s); [exact Hu|]. intros n0 ms Hin. cbn [apply2 base] in Hin. destruct He as [->| ->]; cbn in Hin.
      + left. apply (In_adel name_eqb name_eqb_spec) in Hin. apply Hin.
      + apply (In_aset name_eqb name_eqb_spec) in Hin as [[_ ->]|[_ Hin]]; [right; reflexivity | left; exact Hin].
    - destruct He as [->| ->]; exact Hfx.
  Qed.

  Lemma good_list s n : good s -> man_okb size_of (base s) (s2_man sv) = true -> good (apply2 s (XBase (EWriteMan n (Readable (s2_man sv))))).
  Proof.
    intros [Hb Hc Hr Hu Hfx] Hok. split.
    - exact Hb.
    - intros n0 m Hm. cbn [apply2 base] in *. rewrite (man_okb_blobs (base s) (apply_effect (base s) (EWriteMan n (Readable (s2_man sv)))) m eq_refl). unfold mget in Hm. cbn in Hm.
      destruct (name_eq_dec n0 n) as [->|E].
      + rewrite mget_aset_same in Hm. injection Hm as <-. exact Hok.
      + rewrite mget_aset_other in Hm by exact E. apply (Hc n0 m Hm).
    - exact Hr.
    - apply (unref_sub s); [exact Hu|]. intros n0 ms Hin. cbn in Hin.
      apply (In_aset name_eqb name_eqb_spec) in Hin as [[_ ->]|[_ Hin]]; [right | left; exact Hin].
      intros k Hk. destruct (man_uses (MkDigest true k) (Readable (s2_man sv))) eqn:Em; [|reflexivity].
      apply existsb_exists in Em as [l [Hl Hd]]. apply andb_true_iff in Hd as [_ Hd]. apply N.eqb_eq in Hd. destruct (guard_distinct k l Hk Hl). symmetry. exact Hd.
    - exact Hfx.
  Qed.

  Notation layers := (all_layers (s2_man sv)).
  (** [lframe]: the manifests and the blob files of the served layers are untouched; [stable]: the manifests are
      untouched and a served layer that was a good blob still is (its file may have come into being) *)
  Definition lframe (s s' : st2) : Prop :=
    mans (base s') = mans (base s) /\ forall l, In l layers -> bget (dhex (ldg l)) (base s') = bget (dhex (ldg l)) (base s).
  Definition stable (s s' : st2) : Prop :=
    mans (base s') = mans (base s) /\ forall l, In l layers -> blob_okb size_of (base s) l = true -> blob_okb size_of (base s') l = true.

  Lemma lframe_refl s : lframe s s.
  Proof. split; auto. Qed.
  Lemma lframe_trans a b c : lframe a b -> lframe b c -> lframe a c.
  Proof. intros [H1 H2] [H3 H4]. split; [congruence|]. intros l Hl. rewrite (H4 l Hl). apply H2. exact Hl. Qed.
  Lemma lframe_stable s s' : lframe s s' -> stable s s'.
  Proof. intros [H1 H2]. split; [exact H1|]. intros l Hl. unfold blob_okb. rewrite (H2 l Hl). auto. Qed.
  Lemma stable_refl s : stable s s.
  Proof. split; auto. Qed.
  Lemma stable_trans a b c : stable a b -> stable b c -> stable a c.
  Proof. intros [H1 H2] [H3 H4]. split; [congruence|]. intros l Hl H. apply (H4 l Hl), (H2 l Hl), H. Qed.

  Lemma lframe_setblob s k c : In k (s2_mid sv :: all_keys sv) -> lframe s (apply2 s (XSetBlob k c)).
  Proof.
    intros Hk. split; [reflexivity|]. intros l Hl. cbn. unfold bget, set_blob; cbn. apply bget_aset_other.
    intros E. apply (guard_distinct k l Hk Hl). symmetry. exact E.
  Qed.

  Lemma put_blob_ok s0 r k :
    Rok2 good s0 r -> In k (s2_mid sv :: all_keys sv) ->
    (forall h cs i c, aget N.eqb h (s2_chunks sv) = Some cs -> nth_error cs i = Some c -> ck_key c = k ->
                      In i (written (rs2 r) h) \/ has_blob size_of (rs2 r) h (size_of h) = true) ->
    Rok2 good s0 (put_blob size_of emp r k) /\ lframe (rs2 r) (rs2 (put_blob size_of emp r k)) /\
    chunked (rs2 (put_blob size_of emp r k)) = chunked (rs2 r).
  Proof.
    intros HR Hk Hw.
    assert (Hgo : (forall c, bget k (base (rs2 r)) = Some c -> size_of c <> size_of k) ->
                  let r' := emits2 r [XSetBlob k emp; XSetBlob k k] in
                  Rok2 good s0 r' /\ lframe (rs2 r) (rs2 r') /\ chunked (rs2 r') = chunked (rs2 r)).
    { intros Hne r'. subst r'. cbn [emits2 fold_left].
      assert (Hg0 := Rok2_now _ _ _ HR).
      assert (Hab : forall c, bget k (base (rs2 r)) = Some c -> size_of c = 0).
      { intros c Hc. destruct (g_b _ Hg0 k c Hc) as [->|H]; [exfalso; apply (Hne k Hc); reflexivity | exact H]. }
      assert (Hg1 : good (apply2 (rs2 r) (XSetBlob k emp))) by (apply good_create; assumption).
      assert (HR1 := Rok2_emit _ _ _ _ HR Hg1).
      assert (Hg2 : good (apply2 (rs2 (emit2 r (XSetBlob k emp))) (XSetBlob k k))).
      { apply good_write; [exact Hg1 | exact Hk|]. intros h cs i c Ha Hn Ek. destruct (Hw h cs i c Ha Hn Ek) as [H|H]; [left; exact H|]. right.
        cbn [emit2 rs2]. unfold has_blob in *. cbn. unfold bget, set_blob; cbn. destruct (N.eq_dec h k) as [->|E]; [|rewrite bget_aset_other by exact E; exact H].
        exfalso. destruct (bget k (base (rs2 r))) as [c0|] eqn:Eb; [|discriminate]. apply andb_true_iff in H as [H _]. apply N.eqb_eq in H. apply (Hne c0 eq_refl H). }
      split; [apply Rok2_emit; assumption|]. split; [|reflexivity].
      eapply lframe_trans; [apply (lframe_setblob (rs2 r) k emp Hk) | apply (lframe_setblob _ k k Hk)]. }
    unfold put_blob. destruct (bget k (base (rs2 r))) as [c|] eqn:Eb.
    - destruct (size_of c =? size_of k) eqn:Es.
      + split; [exact HR|]. split; [apply lframe_refl | reflexivity].
      + apply Hgo. intros c' [= <-]. apply N.eqb_neq. exact Es.
    - apply Hgo. intros c' [=].
  Qed.

  Lemma has_blob_lframe s s' l : lframe s s' -> In l layers -> forall z, has_blob size_of s' (dhex (ldg l)) z = has_blob size_of s (dhex (ldg l)) z.
  Proof. intros [_ H] Hl z. unfold has_blob. rewrite (H l Hl). reflexivity. Qed.

  Lemma fetch_ok s0 h cs_all i c r :
    aget N.eqb h (s2_chunks sv) = Some cs_all -> nth_error cs_all i = Some c -> Rok2 good s0 r ->
    let r2 := put_blob size_of emp (emit2 r (XPut h i)) (ck_key c) in
    Rok2 good s0 r2 /\ lframe (rs2 r) (rs2 r2) /\ In i (written (rs2 r2) h) /\
    forall j, In j (written (rs2 r) h) -> In j (written (rs2 r2) h).
  Proof.
    intros Ha Hc0 HR r2.
    assert (HR1 : Rok2 good s0 (emit2 r (XPut h i))) by (apply Rok2_emit; [exact HR | apply good_put, (Rok2_now _ _ _ HR)]).
    destruct (put_blob_ok s0 (emit2 r (XPut h i)) (ck_key c) HR1) as [P1 [P2 P3]].
    - right. eapply chunk_key_in; eassumption.
    - intros h' cs' i' c' Ha' Hn' Ek. destruct (guard_inj h' cs' i' c' h cs_all i c Ha' Hn' Ha Hc0 Ek) as [-> ->]. left. apply written_put_same.
    - fold r2 in P1, P2, P3. split; [exact P1|]. split; [eapply lframe_trans; [split; reflexivity | exact P2]|].
      unfold written at 1 3. rewrite P3. split; [apply written_put_same | intros j; apply written_put].
  Qed.

  (** from chunk [i] on: what was written stays written; if no failure is reported none had been and every chunk from
      [i] on is in the scratch file; chunks that are all served correctly do not set [failed] *)
  Lemma do_chunks_ok s0 l cs_all :
    In l layers -> aget N.eqb (dhex (ldg l)) (s2_chunks sv) = Some cs_all ->
    forall fresh cs i r failed,
      (forall j c, nth_error cs j = Some c -> nth_error cs_all (i + j) = Some c) ->
      Rok2 good s0 r -> has_blob size_of (rs2 r) (dhex (ldg l)) (size_of (dhex (ldg l))) = false ->
      let res := do_chunks size_of emp fresh r (dhex (ldg l)) cs i failed in
      Rok2 good s0 (fst res) /\ lframe (rs2 r) (rs2 (fst res)) /\
      (forall j, In j (written (rs2 r) (dhex (ldg l))) -> In j (written (rs2 (fst res)) (dhex (ldg l)))) /\
      (snd res = false -> failed = false /\ forall j c, nth_error cs j = Some c -> In (i + j)%nat (written (rs2 (fst res)) (dhex (ldg l)))) /\
      (forallb ck_ok cs = true -> snd res = failed).
  Proof.
    intros Hl Ha fresh. set (h := dhex (ldg l)) in *.
    induction cs as [|c cs IH]; intros i r failed Hnth HR Hnb; cbn [do_chunks].
    - cbn. split; [exact HR|]. split; [apply lframe_refl|]. split; [auto|]. split; [|auto]. intros ->. split; [reflexivity|]. intros j c Hj. destruct j; discriminate.
    - assert (Hc0 : nth_error cs_all i = Some c) by (rewrite <- (Nat.add_0_r i); apply Hnth; reflexivity).
      assert (Hnth' : forall j c', nth_error cs j = Some c' -> nth_error cs_all (S i + j) = Some c').
      { intros j c' Hj. rewrite Nat.add_succ_comm. apply Hnth. exact Hj. }
      destruct (negb fresh && has_rec size_of (rs2 r) (ck_key c)) eqn:Erec0.
      + (* the record is there and the scratch file held data when it was opened: the chunk is in it *)
        assert (Erec : has_rec size_of (rs2 r) (ck_key c) = true) by (apply andb_true_iff in Erec0; apply Erec0).
        destruct (IH (S i) r failed Hnth' HR Hnb) as [I1 [I2 [I3 [I4 I5]]]]. split; [exact I1|]. split; [exact I2|]. split; [exact I3|]. split.
        * intros Hf. destruct (I4 Hf) as [-> I4']. split; [reflexivity|]. intros j c' Hj. destruct j.
          -- injection Hj as <-. rewrite Nat.add_0_r. apply I3.
             destruct (g_r _ (Rok2_now _ _ _ HR) h cs_all i c Ha Hc0 Erec) as [H|H]; [exact H | rewrite H in Hnb; discriminate].
          -- rewrite <- Nat.add_succ_comm. eapply I4'. exact Hj.
        * cbn. intros Hh. apply andb_true_iff in Hh as [_ Hh]. apply I5. exact Hh.
      + destruct (ck_ok c) eqn:Eok.
        * destruct (fetch_ok s0 h cs_all i c r Ha Hc0 HR) as [P1 [F02 [Hi2 Hw2]]].
          set (r2 := put_blob size_of emp (emit2 r (XPut h i)) (ck_key c)) in *.
          assert (Hnb2 : has_blob size_of (rs2 r2) h (size_of h) = false) by (unfold h; rewrite (has_blob_lframe _ _ l F02 Hl); exact Hnb).
          destruct (IH (S i) r2 failed Hnth' P1 Hnb2) as [I1 [I2 [I3 [I4 I5]]]]. split; [exact I1|]. split; [eapply lframe_trans; eassumption|].
          split; [intros j Hj; apply I3, Hw2, Hj|]. split.
          -- intros Hf. destruct (I4 Hf) as [-> I4']. split; [reflexivity|]. intros j c' Hj. destruct j.
             ++ rewrite Nat.add_0_r. apply I3. exact Hi2.
             ++ rewrite <- Nat.add_succ_comm. eapply I4'. exact Hj.
          -- cbn. rewrite Eok. cbn. apply I5.
        * (* the chunk fails: the pull will fail, the other chunks are still fetched *)
          destruct (IH (S i) r true Hnth' HR Hnb) as [I1 [I2 [I3 [I4 I5]]]]. split; [exact I1|]. split; [exact I2|]. split; [exact I3|]. split.
          -- intros Hf. destruct (I4 Hf) as [Hx _]. discriminate.
          -- cbn. rewrite Eok. cbn. discriminate.
  Qed.

  Lemma covers_all w (cs : list chunk) :
    cs <> [] -> (forall j c, nth_error cs j = Some c -> In j w) -> covers w (length cs) = true.
  Proof.
    intros Hne H. unfold covers. apply andb_true_iff. split.
    - destruct cs; [congruence | reflexivity].
    - apply forallb_forall. intros j Hj. apply in_seq in Hj. destruct (nth_error cs j) as [c|] eqn:E.
      + unfold mem_nat. apply existsb_exists. exists j. split; [apply (H j c E) | apply Nat.eqb_refl].
      + apply nth_error_None in E. lia.
  Qed.

  Lemma has_blob_okb s l : bsound s -> In l layers -> has_blob size_of s (dhex (ldg l)) (lsz l) = true -> blob_okb size_of (base s) l = true.
  Proof.
    intros Hb Hl H. destruct (guard_layer l Hl) as [G1 [G2 G3]]. unfold has_blob in H. unfold blob_okb.
    destruct (bget (dhex (ldg l)) (base s)) as [c|] eqn:Eb; [|discriminate]. apply andb_true_iff in H as [H1 H2].
    apply N.eqb_eq in H1. apply negb_true_iff in H2. apply N.eqb_neq in H2.
    destruct (Hb _ _ Eb) as [->|H0]; [|congruence]. rewrite G1, N.eqb_refl. cbn. apply N.eqb_eq. symmetry. exact H1.
  Qed.

  Lemma honest_chunks h cs : honest sv = true -> aget N.eqb h (s2_chunks sv) = Some cs -> forallb ck_ok cs = true.
  Proof.
    intros Hh Ha. unfold honest in Hh. rewrite forallb_forall in Hh. apply (Hh (h, cs)). apply (aget_In N.eqb N.eqb_eq). exact Ha.
  Qed.

  Lemma do_layer_ok s0 r l :
    In l layers -> Rok2 good s0 r ->
    let res := do_layer size_of emp sv r l in
    Rok2 good s0 (fst res) /\ stable (rs2 r) (rs2 (fst res)) /\
    (snd res = true -> blob_okb size_of (base (rs2 (fst res))) l = true) /\
    (honest sv = true -> snd res = true).
  Proof.
    intros Hl HR. destruct (guard_layer l Hl) as [G1 [G2 G3]]. destruct (guard_chunks l Hl) as [cs [Ha [Ec Hne]]].
    unfold do_layer. rewrite (proj2 (N.eqb_neq _ _) G3). set (h := dhex (ldg l)) in *. destruct (has_blob size_of (rs2 r) h (lsz l)) eqn:Ehb.
    - cbn. split; [exact HR|]. split; [apply stable_refl|]. split; [|auto]. intros _. apply has_blob_okb; [apply (g_b _ (Rok2_now _ _ _ HR)) | exact Hl | exact Ehb].
    - rewrite G2 in Ehb. rewrite Ec.
      set (fresh := match written (rs2 r) h with [] => true | _ => false end).
      destruct (do_chunks_ok s0 l cs Hl Ha fresh cs 0%nat r false (fun j c H => H) HR Ehb) as [I1 [I2 [I3 [I4 I5]]]].
      fold h in I1, I2, I3, I4, I5. destruct (do_chunks size_of emp fresh r h cs 0 false) as [r1 failed] eqn:Ed. cbn [fst snd] in *.
      destruct failed.
      + cbn. split; [exact I1|]. split; [apply lframe_stable; exact I2|]. split; [discriminate|].
        intros Hh. specialize (I5 (honest_chunks h cs Hh Ha)). discriminate.
      + destruct (I4 eq_refl) as [_ I4']. destruct (covers (written (rs2 r1) h) (length cs)) eqn:Ecov.
        * cbn [fst snd]. assert (Hg1 : good (apply2 (rs2 r1) (XCommit h))) by (apply good_commit; [apply (Rok2_now _ _ _ I1) | exact Hl]).
          split; [apply Rok2_emit; assumption|]. split.
          -- eapply stable_trans; [apply lframe_stable; exact I2|]. split; [reflexivity|]. intros l' Hl' Hok. cbn. apply blob_okb_set; [auto | exact Hok].
          -- split; [|auto]. intros _. cbn. unfold blob_okb. cbn. unfold bget, set_blob; cbn. fold h. rewrite bget_aset_same, G1, N.eqb_refl. cbn. apply N.eqb_eq. exact G2.
        * cbn. split; [exact I1|]. split; [apply lframe_stable; exact I2|]. split; [discriminate|]. intros _.
          rewrite (covers_all _ cs Hne) in Ecov; [discriminate|]. intros j c Hj. apply (I4' j c Hj).
  Qed.

  Lemma do_layers_ok s0 : forall ls r ok,
    incl ls layers -> Rok2 good s0 r ->
    let res := do_layers size_of emp sv r ls ok in
    Rok2 good s0 (fst res) /\ stable (rs2 r) (rs2 (fst res)) /\
    (snd res = true -> ok = true /\ forall l, In l ls -> blob_okb size_of (base (rs2 (fst res))) l = true) /\
    (honest sv = true -> snd res = ok).
  Proof.
    induction ls as [|l ls IH]; intros r ok Hi HR; cbn [do_layers].
    - cbn. split; [exact HR|]. split; [apply stable_refl|]. split; [|auto]. intros ->. split; [reflexivity|]. intros l [].
    - assert (Hl : In l layers) by (apply Hi; left; reflexivity).
      destruct (do_layer_ok s0 r l Hl HR) as [L1 [L2 [L3 L4]]]. destruct (do_layer size_of emp sv r l) as [r1 ok1]. cbn [fst snd] in *.
      destruct (IH r1 (ok && ok1) (fun x Hx => Hi x (or_intror Hx)) L1) as [I1 [I2 [I3 I4]]].
      split; [exact I1|]. split; [eapply stable_trans; eassumption|]. split.
      + intros Hs. destruct (I3 Hs) as [Hok I3']. apply andb_true_iff in Hok as [-> ->]. split; [reflexivity|].
        intros l' [<-|Hl']; [|apply I3'; exact Hl']. apply (proj2 I2 l Hl). apply L3. reflexivity.
      + intros Hh. rewrite (I4 Hh), (L4 Hh). apply andb_true_r.
  Qed.

  Lemma link_ok s0 r n :
    Rok2 good s0 r -> man_okb size_of (base (rs2 r)) (s2_man sv) = true ->
    let r' := link r n (s2_man sv) in
    Rok2 good s0 r' /\ listed_as (rs2 r') (link_name (base (rs2 r)) n) (s2_man sv) = true.
  Proof.
    intros HR Hok. unfold link. set (n' := link_name (base (rs2 r)) n). set (m := s2_man sv) in *.
    assert (Hw : forall r1, Rok2 good s0 r1 -> blobs (base (rs2 r1)) = blobs (base (rs2 r)) ->
                 Rok2 good s0 (emit2 r1 (XBase (EWriteMan n' (Readable m)))) /\
                 listed_as (rs2 (emit2 r1 (XBase (EWriteMan n' (Readable m))))) n' m = true).
    { intros r1 H1 Eb. split.
      - apply Rok2_emit; [exact H1|]. apply good_list; [apply (Rok2_now _ _ _ H1)|]. rewrite (man_okb_blobs _ _ _ Eb). exact Hok.
      - unfold listed_as, mget. cbn. rewrite mget_aset_same. cbn. apply manifest_eqb_refl. }
    assert (Ht : forall r1, Rok2 good s0 r1 -> Rok2 good s0 (emit2 r1 (XBase (ETruncMan n')))).
    { intros r1 H1. apply Rok2_emit; [exact H1|]. apply (good_unlist _ _ n'); [right; reflexivity | apply (Rok2_now _ _ _ H1)]. }
    destruct (mget n' (base (rs2 r))) as [st|] eqn:Em.
    - destruct (mstate_eqb st (Readable m)) eqn:Ee.
      + split; [exact HR|]. unfold listed_as. rewrite Em. exact Ee.
      + cbn [emits2 fold_left]. apply Hw; [|reflexivity]. apply Ht. apply Rok2_emit; [exact HR|].
        apply (good_unlist _ _ n'); [left; reflexivity | apply (Rok2_now _ _ _ HR)].
    - cbn [emits2 fold_left]. apply Hw; [|reflexivity]. apply Ht. exact HR.
  Qed.

  Theorem pull2_ok s n :
    good s ->
    let res := pull2 size_of emp s n sv in
    Rok2 good s (fst res) /\
    (snd res = ROk -> listed_as (rs2 (fst res)) (link_name (base s) n) (s2_man sv) = true) /\
    (honest sv = true -> snd res = ROk).
  Proof.
    intros Hgd. unfold pull2.
    destruct (do_layers_ok s layers (init2 s) true (fun x H => H) (Rok2_init good s Hgd)) as [L1 [L2 [L3 L4]]].
    destruct (do_layers size_of emp sv (init2 s) layers true) as [r ok]. cbn [fst snd] in *. destruct ok.
    - destruct (L3 eq_refl) as [_ Hall].
      destruct (put_blob_ok s r (s2_mid sv) L1 (or_introl eq_refl)) as [P1 [P2 P3]].
      { intros h cs i c Ha Hn Ek. exfalso. apply (guard_mid_key (ck_key c)); [eapply chunk_key_in; eassumption | exact Ek]. }
      set (r1 := put_blob size_of emp r (s2_mid sv)) in *.
      assert (Hok : man_okb size_of (base (rs2 r1)) (s2_man sv) = true).
      { unfold man_okb. apply forallb_forall. intros l Hl. apply (proj2 (lframe_stable _ _ P2) l Hl). apply Hall. exact Hl. }
      destruct (link_ok s r1 n P1 Hok) as [K1 K2]. cbn [fst snd]. split; [exact K1|]. split; [|auto]. intros _.
      assert (En : link_name (base (rs2 r1)) n = link_name (base s) n).
      { unfold link_name. rewrite (proj1 P2), (proj1 L2). reflexivity. }
      rewrite <- En. exact K2.
    - cbn [fst snd]. split; [exact L1|]. split; [discriminate|]. intros Hh. specialize (L4 Hh). discriminate.
  Qed.

  Lemma restart2_good np s : good s -> good (restart2 size_of np s).
  Proof.
    intros Hgd. pose proof (g_f _ Hgd) as Hf. unfold restart2.
    assert (Hnp : startup_noprune (base s) = base s) by (unfold startup_noprune; rewrite (fix_blobs_noop _ Hf); reflexivity).
    destruct (np || has_unreadable (base s)) eqn:Ec; [rewrite Hnp; destruct s; exact Hgd|].
    apply orb_false_iff in Ec as [_ Hu].
    (* PruneLayers: what stays is what a manifest uses *)
    destruct (startup_rest_spec (init (base s)) Hu) as [Hd [Hm Hb]]. cbn [init rs] in Hd, Hm, Hb.
    replace (rs (startup_rest (init (base s)))) with (exec size_of (base s) OStartup) in Hd, Hm, Hb
      by (unfold exec, op_run, op_startup; cbn [fst]; rewrite (fix_blobs_noop _ Hf); reflexivity).
    destruct Hgd as [Hbs Hc Hr Hu' Hfx].
    assert (Hsub : forall h c, bget h (exec size_of (base s) OStartup) = Some c -> bget h (base s) = Some c).
    { intros h c. rewrite Hb. destruct (referenced _ _); [auto | discriminate]. }
    split.
    - intros h c H. apply (Hbs h c), Hsub, H.
    - intros n m Hm'. cbn [base] in *. rewrite (mget_mans _ _ n Hm) in Hm'.
      assert (Hok := Hc n m Hm'). unfold man_okb in *. rewrite forallb_forall in *. intros l Hl. specialize (Hok l Hl).
      destruct (complete_layer _ n m l Hc Hm' Hl) as [Hdg [_ Href]]. rewrite Hdg in Href. unfold blob_okb in *. rewrite Hb, Href. exact Hok.
    - (* every chunk record is gone: no manifest uses it *)
      intros h cs i c Ha Hn Hrec. exfalso. unfold has_rec in Hrec. cbn [base] in Hrec.
      rewrite Hb, (Hu' (ck_key c)) in Hrec; [discriminate | right; eapply chunk_key_in; eassumption].
    - intros k Hk. cbn [base]. rewrite (referenced_mans _ _ _ Hm). apply Hu', Hk.
    - intros d Hin. cbn [base] in Hin. rewrite Hd in Hin. destruct Hin.
  Qed.

  (** the invariant, decidable, so that it can be evaluated on an observed store *)
  Definition good_b (s : st2) : bool :=
    forallb (fun p => (snd p =? fst p) || (size_of (snd p) =? 0)) (blobs (base s))
    && forallb (fun p => match snd p with Readable m => man_okb size_of (base s) m | Unreadable => true end) (mans (base s))
    && forallb (fun p => forallb (fun ic => implb (has_rec size_of s (ck_key (snd ic)))
                                              (mem_nat (fst ic) (written s (fst p)) || has_blob size_of s (fst p) (size_of (fst p))))
                                 (indexed_from 0 (snd p))) (s2_chunks sv)
    && forallb (fun k => negb (referenced (base s) (MkDigest true k))) (s2_mid sv :: all_keys sv)
    && forallb (fun d => negb (is_colon d)) (debris (base s)).

  Lemma good_b_sound s : good_b s = true -> good s.
  Proof.
    unfold good_b. intros H. apply andb_true_iff in H as [H H5]. apply andb_true_iff in H as [H H4]. apply andb_true_iff in H as [H H3].
    apply andb_true_iff in H as [H1 H2]. rewrite forallb_forall in H1, H2, H3, H4, H5. split.
    - intros h c Hb. apply (aget_In N.eqb N.eqb_eq) in Hb. specialize (H1 _ Hb). cbn in H1. apply orb_true_iff in H1 as [E|E]; apply N.eqb_eq in E; auto.
    - intros n m Hm. apply (aget_In name_eqb name_eqb_spec) in Hm. apply (H2 _ Hm).
    - intros h cs i c Ha Hn Hrec. apply (aget_In N.eqb N.eqb_eq) in Ha. specialize (H3 _ Ha). cbn in H3. rewrite forallb_forall in H3.
      specialize (H3 _ (indexed_from_nth cs 0 i c Hn)). cbn in H3. rewrite Hrec in H3. cbn in H3. apply orb_true_iff in H3 as [E|E]; [left|right; exact E].
      unfold mem_nat in E. apply existsb_exists in E as [x [Hx Ex]]. apply Nat.eqb_eq in Ex. subst x. exact Hx.
    - intros k Hk. apply negb_true_iff. apply (H4 k Hk).
    - intros d Hd. apply negb_true_iff. apply (H5 d Hd).
  Qed.
End P2.

(** * Store/ProofsInv.v — the store invariant, what a single effect may do to it, traces of effects, runs *)
From Coq Require Import List NArith Bool Arith Lia.
From V Require Import Common.Bytes Store.Fs Store.Ops Store.ProofsAlist Store.ProofsNames.
Import ListNotations.
Open Scope N_scope.

(** a manifest file that decodes *)
Definition listed (s : store) (n : name) (m : manifest) : Prop := In (n, Readable m) (mans s).

Lemma mget_listed s n m : mget n s = Some (Readable m) -> listed s n m.
Proof. apply (aget_In name_eqb name_eqb_spec). Qed.

Lemma readable_names_spec s n : In n (readable_names s) <-> exists m, listed s n m.
Proof.
  unfold readable_names, listed. rewrite in_flat_map. split.
  - intros [[n' ms] [Hin H]]. cbn in H. destruct ms as [m|]; [|contradiction]. destruct H as [<-|[]]. eauto.
  - intros [m H]. exists (n, Readable m). split; [exact H | left; reflexivity].
Qed.

Lemma has_unreadable_intro s n : In (n, Unreadable) (mans s) -> has_unreadable s = true.
Proof. intros H. unfold has_unreadable. apply existsb_exists. exists (n, Unreadable). auto. Qed.

Lemma has_unreadable_false s n : has_unreadable s = false -> ~ In (n, Unreadable) (mans s).
Proof. intros H Hin. rewrite (has_unreadable_intro s n Hin) in H. discriminate. Qed.

Lemma has_unreadable_mget s n : has_unreadable s = false -> mget n s <> Some Unreadable.
Proof. intros Hu E. apply (has_unreadable_false s n Hu), (aget_In name_eqb name_eqb_spec), E. Qed.

Lemma has_unreadable_sub s s' :
  has_unreadable s = false -> (forall n, In (n, Unreadable) (mans s') -> In (n, Unreadable) (mans s)) -> has_unreadable s' = false.
Proof.
  intros Hu Hsub. destruct (has_unreadable s') eqn:E; [|reflexivity]. unfold has_unreadable in E.
  apply existsb_exists in E as [[n ms] [Hin Hm]]. destruct ms; [discriminate|]. cbn in Hm. rewrite (has_unreadable_intro s n (Hsub n Hin)) in Hu. discriminate.
Qed.

Lemma has_unreadable_torn c t mns : mans c = aset name_eqb t Unreadable mns -> has_unreadable c = true.
Proof. intros H. apply (has_unreadable_intro c t). rewrite H. apply (In_aset name_eqb name_eqb_spec). left; auto. Qed.

Lemma In_remove_one x d l : In x (remove_one d l) -> In x l.
Proof.
  induction l as [|y l IH]; cbn; [auto|]. destruct (dfile_eqb d y); [intros H; right; exact H|].
  intros [H|H]; [left; exact H | right; apply IH, H].
Qed.

Lemma In_add_debris x d l : In x (add_debris d l) -> x = d \/ In x l.
Proof.
  unfold add_debris. destruct d; try (destruct (existsb _ l)); cbn; intros H; try (right; exact H); destruct H as [H|H]; auto.
Qed.

Lemma In_add_debris_intro d l : In d (add_debris d l).
Proof.
  unfold add_debris. destruct d; try (left; reflexivity);
    match goal with |- In ?x (if existsb ?f ?l then _ else _) => destruct (existsb f l) eqn:E end; try (left; reflexivity);
    apply existsb_exists in E as [y [Hy E]]; apply dfile_eqb_spec in E; subst y; exact Hy.
Qed.

Lemma In_add_debris_mono x d l : In x l -> In x (add_debris d l).
Proof. unfold add_debris. destruct d; try (destruct (existsb _ l)); intros H; try exact H; right; exact H. Qed.

Lemma In_remove_all x d l : In x (remove_all d l) -> In x l.
Proof. unfold remove_all. intros H. apply filter_In in H. apply H. Qed.

Lemma In_drop_partrec x h i l : In x (drop_partrec h i l) -> In x l.
Proof. unfold drop_partrec. intros H. apply filter_In in H. apply H. Qed.

(** a blob file still under its old name [sha256:h] holds the content its name says *)
Definition legacy_intact (ds : list dfile) : Prop := forall h c, In (DColon h c) ds -> c = h.

Section Inv.
  Variable size_of : N -> N.

  (** a layer entry is served by the blob store: canonical spelling, blob file present and intact, recorded size right *)
  Definition blob_ok (s : store) (l : layer) : Prop :=
    dcolon (ldg l) = true /\ bget (dhex (ldg l)) s = Some (dhex (ldg l)) /\ lsz l = size_of (dhex (ldg l)).
  Definition man_ok (s : store) (m : manifest) : Prop := Forall (blob_ok s) (all_layers m).
  Definition blobs_intact (s : store) : Prop := forall h c, In (h, c) (blobs s) -> c = h.
  Definition case_unique (s : store) : Prop :=
    forall a b ma mb, listed s a ma -> listed s b mb -> name_eqfold a b = true -> a = b.

  Record Inv (s : store) : Prop := MkInv {
    inv_mans : forall n m, listed s n m -> man_ok s m;
    inv_blobs : blobs_intact s;
    inv_case : case_unique s;
    inv_legacy : legacy_intact (debris s)
  }.

  Lemma man_ok_In s m l : man_ok s m -> In l (all_layers m) -> blob_ok s l.
  Proof. intros H. apply Forall_forall, H. Qed.

  Lemma man_ok_impl s s' m : (forall l, In l (all_layers m) -> blob_ok s l -> blob_ok s' l) -> man_ok s m -> man_ok s' m.
  Proof. unfold man_ok. rewrite !Forall_forall. auto. Qed.

  Lemma inv_layer s n m l : Inv s -> listed s n m -> In l (all_layers m) -> blob_ok s l.
  Proof. intros HI Hm. apply man_ok_In, (inv_mans s HI n m Hm). Qed.

  Lemma Inv_empty : Inv empty_store.
  Proof. split; repeat intro; cbv in *; contradiction. Qed.

  Lemma legacy_intact_sub a b : (forall x, In x a -> In x b) -> legacy_intact b -> legacy_intact a.
  Proof. intros Hs H h c Hin. apply (H h c), Hs, Hin. Qed.

  Lemma bget_intact s h c : Inv s -> bget h s = Some c -> c = h.
  Proof. intros HI H. apply (inv_blobs s HI). apply (aget_In N.eqb N.eqb_eq). exact H. Qed.

  Lemma referenced_hex_elim s h : referenced_hex s h = true ->
    exists n m l, listed s n m /\ In l (all_layers m) /\ dhex (ldg l) = h.
  Proof.
    unfold referenced_hex. intros H. apply existsb_exists in H as [[n ms] [Hin Hu]]. cbn in Hu.
    destruct ms as [m|]; [|discriminate]. cbn in Hu. apply existsb_exists in Hu as [l [Hl He]]. apply N.eqb_eq in He.
    exists n, m, l. auto.
  Qed.

  Lemma referenced_hex_intro s n m l : listed s n m -> In l (all_layers m) -> referenced_hex s (dhex (ldg l)) = true.
  Proof.
    intros Hm Hl. unfold referenced_hex. apply existsb_exists. exists (n, Readable m). split; [exact Hm|]. cbn.
    apply existsb_exists. exists l. split; [exact Hl | apply N.eqb_refl].
  Qed.

  Lemma referenced_intro s n m l : listed s n m -> In l (all_layers m) -> referenced s (ldg l) = true.
  Proof.
    intros Hm Hl. unfold referenced. apply existsb_exists. exists (n, Readable m). split; [exact Hm|]. cbn.
    apply existsb_exists. exists l. split; [exact Hl|]. unfold digest_eqb. rewrite eqb_reflx, N.eqb_refl. reflexivity.
  Qed.

  Lemma referenced_to_hex s d : referenced s d = true -> referenced_hex s (dhex d) = true.
  Proof.
    unfold referenced, referenced_hex. intros H. apply existsb_exists in H as [[n ms] [Hin Hu]]. apply existsb_exists.
    exists (n, ms). split; [exact Hin|]. destruct ms as [m|]; [|discriminate]. cbn in *.
    apply existsb_exists in Hu as [l [Hl He]]. apply existsb_exists. exists l. split; [exact Hl|].
    unfold digest_eqb in He. apply andb_true_iff in He as [_ He]. exact He.
  Qed.

  (** with all manifest digests canonical, the string comparison of the code decides use of the blob file *)
  Lemma referenced_false_hex s d :
    Inv s -> dcolon d = true -> referenced s d = false -> referenced_hex s (dhex d) = false.
  Proof.
    intros HI Hc Hr. destruct (referenced_hex s (dhex d)) eqn:E; [|reflexivity].
    apply referenced_hex_elim in E as [n [m [l [Hm [Hl He]]]]].
    destruct (inv_layer s n m l HI Hm Hl) as [Hcl _].
    assert (referenced s d = true); [|congruence].
    unfold referenced. apply existsb_exists. exists (n, Readable m). split; [exact Hm|]. cbn.
    apply existsb_exists. exists l. split; [exact Hl|]. unfold digest_eqb. rewrite Hcl, Hc, He, N.eqb_refl. reflexivity.
  Qed.

  Lemma referenced_hex_present s h : Inv s -> referenced_hex s h = true -> bget h s = Some h.
  Proof.
    intros HI H. apply referenced_hex_elim in H as [n [m [l [Hm [Hl <-]]]]].
    apply (inv_layer s n m l HI Hm Hl).
  Qed.

  (** what one effect may do; [t]: the one manifest the operation may touch.  A blob file may go if no readable
      manifest uses the file, whatever the spelling ([referenced_hex], the notion of the property; the code compares
      strings: [referenced_false_hex]).  A manifest may be written if it is served and no other listed name equals its
      name up to letter case. *)
  Definition step_ok (t : option name) (s : store) (e : effect) : Prop :=
    match e with
    | EAddDebris (DColon h c) => c = h
    | EAddDebris _ | ERmDebris _ | EFixPartial _ | EPartRec _ _ _ | ERmPart _ _ => True
    | ERenTemp h c | ERenPartial h c | EFixBlob h c => c = h
    | ERmBlob h => referenced_hex s h = false
    | ETruncMan n | ERmMan n => t = Some n
    | EWriteMan n Unreadable => t = Some n
    | EWriteMan n (Readable m) =>
        t = Some n /\ man_ok s m /\ (forall e me, listed s e me -> name_eqfold e n = true -> e = n)
    end.

  Lemma blob_ok_put s h l d : blob_ok s l -> blob_ok (MkStore (mans s) (aset N.eqb h h (blobs s)) d) l.
  Proof.
    intros [H1 [H2 H3]]. split; [exact H1|]. split; [|exact H3]. unfold bget in *. cbn.
    destruct (N.eq_dec (dhex (ldg l)) h) as [->|Hn]; [apply bget_aset_same | rewrite bget_aset_other by exact Hn; exact H2].
  Qed.

  Lemma Inv_put s h d : Inv s -> legacy_intact d -> Inv (MkStore (mans s) (aset N.eqb h h (blobs s)) d).
  Proof.
    intros [Hm Hb Hc Hl] Hd. split.
    - intros n m Hl'. apply (man_ok_impl s); [intros l _; apply blob_ok_put | apply (Hm n m Hl')].
    - intros h' c Hin. cbn in Hin. apply (In_aset N.eqb N.eqb_eq) in Hin as [[-> ->]|[_ Hin]]; [reflexivity | apply Hb, Hin].
    - exact Hc.
    - exact Hd.
  Qed.

  Lemma Inv_ext s s' : mans s' = mans s -> blobs s' = blobs s -> legacy_intact (debris s') -> Inv s -> Inv s'.
  Proof. destruct s, s'; cbn. intros -> -> Hd [Hm Hb Hc Hl]. split; assumption. Qed.

  Lemma Inv_mans_shrink s mns :
    (forall n m, In (n, Readable m) mns -> In (n, Readable m) (mans s)) -> Inv s -> Inv (MkStore mns (blobs s) (debris s)).
  Proof.
    intros Hsub [Hm Hb Hc Hl]. split.
    - intros n m Hl'. apply (Hm n m), Hsub, Hl'.
    - exact Hb.
    - intros a b ma mb Ha Hb'. apply (Hc a b ma mb); apply Hsub; assumption.
    - exact Hl.
  Qed.

  Lemma step_inv t s e : Inv s -> step_ok t s e -> Inv (apply_effect s e).
  Proof.
    intros HI Hs. assert (HL := inv_legacy s HI).
    destruct e as [d|d|h c|h c|h|n|n ms|n|h c|h|h i st|h i]; cbn [apply_effect].
    - apply (Inv_ext s); [reflexivity | reflexivity | | exact HI]. cbn [debris]. intros h c Hin. apply In_add_debris in Hin as [Hin|Hin]; [|apply (HL h c Hin)].
      subst d. exact Hs.
    - apply (Inv_ext s); [reflexivity | reflexivity | | exact HI]. cbn. eapply legacy_intact_sub; [|exact HL]. intros x. apply In_remove_one.
    - cbn in Hs. subst c. apply Inv_put; [exact HI|]. eapply legacy_intact_sub; [|exact HL]. intros x. apply In_remove_one.
    - cbn in Hs. subst c. apply Inv_put; [exact HI|]. eapply legacy_intact_sub; [|exact HL]. intros x. apply In_remove_one.
    - (* ERmBlob: no listed layer uses the file *) cbn in Hs. destruct HI as [Hm Hb Hc Hl]. split.
      + intros n m Hl'. apply (man_ok_impl s); [|apply (Hm n m Hl')]. intros l Hin [H1 [H2 H3]]. split; [exact H1|]. split; [|exact H3].
        unfold bget in *; cbn. rewrite bget_adel_other; [exact H2|].
        intros He. rewrite <- He in Hs. rewrite (referenced_hex_intro s n m l Hl' Hin) in Hs. discriminate.
      + intros h' c Hin. cbn in Hin. apply (In_adel N.eqb N.eqb_eq) in Hin as [Hin _]. apply Hb, Hin.
      + exact Hc.
      + exact Hl.
    - apply Inv_mans_shrink; [|exact HI]. intros n' m Hin.
      apply (In_aset name_eqb name_eqb_spec) in Hin as [[_ [=]]|[_ Hin]]. exact Hin.
    - destruct ms as [m|].
      + destruct Hs as [_ [Hok Hu]]. destruct HI as [Hm Hb Hc Hl]. split.
        * intros n' m' Hl'. unfold listed in Hl'; cbn in Hl'.
          apply (In_aset name_eqb name_eqb_spec) in Hl' as [[-> [= ->]]|[_ Hl']]; [exact Hok | apply (Hm n' m' Hl')].
        * exact Hb.
        * intros a b ma mb Ha Hb' Hf. unfold listed in Ha, Hb'; cbn in Ha, Hb'.
          apply (In_aset name_eqb name_eqb_spec) in Ha as [[-> [= ->]]|[Hna Ha]];
            apply (In_aset name_eqb name_eqb_spec) in Hb' as [[-> [= ->]]|[Hnb Hb']].
          -- reflexivity.
          -- symmetry. apply (Hu b mb Hb'). apply name_eqfold_sym, Hf.
          -- apply (Hu a ma Ha Hf).
          -- apply (Hc a b ma mb Ha Hb' Hf).
        * exact Hl.
      + apply Inv_mans_shrink; [|exact HI]. intros n' m Hin.
        apply (In_aset name_eqb name_eqb_spec) in Hin as [[_ [=]]|[_ Hin]]. exact Hin.
    - apply Inv_mans_shrink; [|exact HI]. intros n' m Hin.
      apply (In_adel name_eqb name_eqb_spec) in Hin as [Hin _]. exact Hin.
    - cbn in Hs. subst c. apply Inv_put; [exact HI|]. eapply legacy_intact_sub; [|exact HL]. intros x. apply In_remove_all.
    - apply (Inv_ext s); [reflexivity | reflexivity | | exact HI]. cbn [debris]. intros h' c Hin. apply In_add_debris in Hin as [Hin|Hin]; [discriminate|].
      apply In_remove_all in Hin. apply (HL h' c Hin).
    - apply (Inv_ext s); [reflexivity | reflexivity | | exact HI]. cbn [debris]. intros h' c [Hin|Hin]; [discriminate|].
      apply In_drop_partrec in Hin. apply (HL h' c Hin).
    - apply (Inv_ext s); [reflexivity | reflexivity | | exact HI]. cbn [debris]. intros h' c Hin.
      apply In_drop_partrec in Hin. apply (HL h' c Hin).
  Qed.

  Lemma step_frame_mans t s e n : step_ok t s e -> t <> Some n -> mget n (apply_effect s e) = mget n s.
  Proof.
    intros Hs Hn. destruct e as [d|d|h c|h c|h|n'|n' ms|n'|h c|h|h i st|h i]; cbn in *; try reflexivity; unfold mget; cbn.
    - apply mget_aset_other. congruence.
    - apply mget_aset_other. destruct ms; [destruct Hs as [Hs _]|]; congruence.
    - apply mget_adel_other. congruence.
  Qed.

  Lemma step_frame_listed t s e n m : step_ok t s e -> t <> Some n -> (listed (apply_effect s e) n m <-> listed s n m).
  Proof.
    intros Hs Hn. unfold listed. destruct e as [d|d|h c|h c|h|n'|n' ms|n'|h c|h|h i st|h i]; cbn in *; try tauto.
    - apply (In_aset_other name_eqb name_eqb_spec). congruence.
    - apply (In_aset_other name_eqb name_eqb_spec). destruct ms; [destruct Hs as [Hs _]|]; congruence.
    - apply (In_adel_other name_eqb name_eqb_spec). congruence.
  Qed.

  Lemma step_frame_blob t s e h : Inv s -> step_ok t s e -> referenced_hex s h = true -> bget h (apply_effect s e) = bget h s.
  Proof.
    intros HI Hs Hr. assert (Hp := referenced_hex_present s h HI Hr).
    assert (Hput : forall h' d, bget h (MkStore (mans s) (aset N.eqb h' h' (blobs s)) d) = bget h s).
    { intros h' d. unfold bget; cbn. destruct (N.eq_dec h h') as [->|Hn]; [rewrite bget_aset_same; symmetry; exact Hp | apply bget_aset_other, Hn]. }
    destruct e as [d|d|h' c|h' c|h'|n'|n' ms|n'|h' c|h'|h' i st|h' i]; cbn [apply_effect]; cbn in Hs; try reflexivity; try (subst c; apply Hput).
    unfold bget; cbn. apply bget_adel_other. intros ->. congruence.
  Qed.

  Fixpoint ok_trace (t : option name) (s : store) (es : list effect) : Prop :=
    match es with
    | [] => True
    | e :: r => step_ok t s e /\ ok_trace t (apply_effect s e) r
    end.

  Lemma ok_trace_app t s a b : ok_trace t s (a ++ b) <-> ok_trace t s a /\ ok_trace t (apply_list s a) b.
  Proof.
    revert s; induction a as [|e a IH]; intros s; cbn [ok_trace app]; [cbn; tauto|]. rewrite IH, apply_list_cons. tauto.
  Qed.

  Lemma ok_trace_firstn t s es k : ok_trace t s es -> ok_trace t s (firstn k es).
  Proof.
    intros H. rewrite <- (firstn_skipn k es) in H. apply ok_trace_app in H. apply H.
  Qed.

  Lemma ok_trace_inv t s es : Inv s -> ok_trace t s es -> Inv (apply_list s es).
  Proof.
    revert s; induction es as [|e es IH]; intros s HI H; cbn [ok_trace] in *; [exact HI|].
    destruct H as [H1 H2]. rewrite apply_list_cons. apply IH; [eapply step_inv; eassumption | exact H2].
  Qed.

  Lemma ok_trace_mans t s es n : ok_trace t s es -> t <> Some n -> mget n (apply_list s es) = mget n s.
  Proof.
    revert s; induction es as [|e es IH]; intros s H Hn; cbn [ok_trace] in *; [reflexivity|].
    destruct H as [H1 H2]. rewrite apply_list_cons, (IH _ H2 Hn). eapply step_frame_mans; eassumption.
  Qed.

  Lemma ok_trace_listed t s es n m : ok_trace t s es -> t <> Some n -> (listed (apply_list s es) n m <-> listed s n m).
  Proof.
    revert s; induction es as [|e es IH]; intros s H Hn; cbn [ok_trace] in *; [cbn; tauto|].
    destruct H as [H1 H2]. rewrite apply_list_cons, (IH _ H2 Hn). eapply step_frame_listed; eassumption.
  Qed.

  Lemma ok_trace_blob t s es n m l :
    Inv s -> ok_trace t s es -> t <> Some n -> listed s n m -> In l (all_layers m) ->
    bget (dhex (ldg l)) (apply_list s es) = bget (dhex (ldg l)) s.
  Proof.
    revert s; induction es as [|e es IH]; intros s HI H Hn Hl Hin; cbn [ok_trace] in *; [reflexivity|].
    destruct H as [H1 H2]. rewrite apply_list_cons.
    rewrite (IH (apply_effect s e)); [| eapply step_inv; eassumption | exact H2 | exact Hn | | exact Hin].
    - eapply step_frame_blob; [exact HI | exact H1 | eapply referenced_hex_intro; eassumption].
    - apply (step_frame_listed t s e n m H1 Hn). exact Hl.
  Qed.

  Definition Rok (t : option name) (s0 : store) (r : run) : Prop := rs r = apply_list s0 (rt r) /\ ok_trace t s0 (rt r).

  Lemma Rok_init t s : Rok t s (init s).
  Proof. split; [reflexivity | exact I]. Qed.

  Lemma Rok_emit t s0 r e : Rok t s0 r -> step_ok t (rs r) e -> Rok t s0 (emit r e).
  Proof.
    intros [H1 H2] Hs. split; cbn [emit rs rt].
    - rewrite apply_list_snoc, H1. reflexivity.
    - apply ok_trace_app. split; [exact H2|]. cbn [ok_trace]. rewrite <- H1. auto.
  Qed.

  Lemma Rok_inv t s0 r : Inv s0 -> Rok t s0 r -> Inv (rs r).
  Proof. intros HI [H1 H2]. rewrite H1. eapply ok_trace_inv; eassumption. Qed.

  Lemma Rok_mans t s0 r n : Rok t s0 r -> t <> Some n -> mget n (rs r) = mget n s0.
  Proof. intros [H1 H2] Hn. rewrite H1. eapply ok_trace_mans; eassumption. Qed.

  Lemma Rok_listed t s0 r n m : Rok t s0 r -> t <> Some n -> (listed (rs r) n m <-> listed s0 n m).
  Proof. intros [H1 H2] Hn. rewrite H1. eapply ok_trace_listed; eassumption. Qed.
End Inv.

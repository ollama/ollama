(** * Store/ProofsMore.v — runs that only touch blobs and debris ([Bok]); requests that bring a model layer *)
From Coq Require Import List NArith Bool Arith Lia.
From V Require Import Common.Bytes Store.Fs Store.Ops Store.ProofsAlist Store.ProofsNames Store.ProofsInv.
Import ListNotations.
Open Scope N_scope.

Definition blob_only (e : effect) : Prop :=
  match e with
  | EAddDebris _ | ERmDebris _ | ERenTemp _ _ | ERenPartial _ _ | ERmBlob _ | EFixBlob _ _ | EFixPartial _ | EPartRec _ _ _ | ERmPart _ _ => True
  | ETruncMan _ | EWriteMan _ _ | ERmMan _ => False
  end.

Definition Ext (r0 r : run) : Prop := exists es, Forall blob_only es /\ r = emits r0 es.

Lemma emits_app r a b : emits r (a ++ b) = emits (emits r a) b.
Proof. unfold emits. apply fold_left_app. Qed.

Lemma emits_rs r es : rs (emits r es) = apply_list (rs r) es.
Proof. revert r; induction es as [|e es IH]; intros r; [reflexivity | apply (IH (emit r e))]. Qed.

Lemma emits_rt r es : rt (emits r es) = rt r ++ es.
Proof.
  revert r; induction es as [|e es IH]; intros r; cbn; [symmetry; apply app_nil_r|].
  unfold emits in IH. rewrite IH. cbn. rewrite <- app_assoc. reflexivity.
Qed.

Lemma blob_only_apply_mans es : forall s, Forall blob_only es -> mans (apply_list s es) = mans s.
Proof.
  induction es as [|e es IH]; intros s H; [reflexivity|]. inversion H as [|x y He Hes]; subst.
  rewrite apply_list_cons, IH by assumption. destruct e; try contradiction; reflexivity.
Qed.

Lemma Ext_mans r0 r : Ext r0 r -> mans (rs r) = mans (rs r0).
Proof. intros [es [H ->]]. rewrite emits_rs. apply blob_only_apply_mans, H. Qed.

Lemma Ext_mget r0 r n : Ext r0 r -> mget n (rs r) = mget n (rs r0).
Proof. intros H. unfold mget. rewrite (Ext_mans _ _ H). reflexivity. Qed.

Definition no_rm (e : effect) : Prop := match e with ERmBlob _ => False | _ => True end.

(** [Bok r r']: [r'] extends [r] by effects that touch no manifest, each allowed where it is emitted if [r] started
    from a store that satisfies the invariant.  It composes, so the invariant need not be carried from step to step. *)
Section Bok.
  Variable size_of : N -> N.
  Notation Inv := (Inv size_of).
  Notation Rok := (Rok size_of).
  Notation step_ok := (step_ok size_of).
  Notation ok_trace := (ok_trace size_of).

  Definition Bok (r r' : run) : Prop :=
    exists es, r' = emits r es /\ Forall blob_only es /\ (Inv (rs r) -> ok_trace None (rs r) es).

  Lemma Bok_refl r : Bok r r.
  Proof. exists []. split; [reflexivity|]. split; [constructor | intros _; exact I]. Qed.

  Lemma Bok_trans a b c : Bok a b -> Bok b c -> Bok a c.
  Proof.
    intros [e1 [-> [B1 H1]]] [e2 [-> [B2 H2]]]. exists (e1 ++ e2). split; [symmetry; apply emits_app|].
    split; [apply Forall_app; auto|]. intros HI. apply ok_trace_app. split; [apply H1, HI|].
    rewrite emits_rs in H2. apply H2. apply (ok_trace_inv size_of None); [exact HI | apply H1, HI].
  Qed.

  Lemma Bok_emit r r' e : Bok r r' -> blob_only e -> (Inv (rs r') -> step_ok None (rs r') e) -> Bok r (emit r' e).
  Proof.
    intros H Hb Hs. apply (Bok_trans _ _ _ H). exists [e]. split; [reflexivity|].
    split; [constructor; [exact Hb | constructor] | intros HI; split; [apply Hs, HI | exact I]].
  Qed.

  Definition debris_only (e : effect) : Prop :=
    match e with
    | EAddDebris (DColon _ _) => False
    | EAddDebris _ | ERmDebris _ | EFixPartial _ | EPartRec _ _ _ | ERmPart _ _ => True
    | _ => False
    end.

  Lemma Bok_debris r r' e : Bok r r' -> debris_only e -> Bok r (emit r' e).
  Proof.
    intros H He. apply Bok_emit; [exact H | | intros _];
      destruct e as [[]| | | | | | | | | | | ]; try contradiction; exact I.
  Qed.

  Lemma Bok_mans r r' : Bok r r' -> mans (rs r') = mans (rs r).
  Proof. intros [es [-> [H _]]]. rewrite emits_rs. apply blob_only_apply_mans, H. Qed.

  Lemma step_ok_None t s e : step_ok None s e -> step_ok t s e.
  Proof. destruct e as [| | | | |n|n [m|]|n| | | | ]; cbn; try tauto; try discriminate. intros [H _]. discriminate. Qed.

  Lemma ok_trace_None t es : forall s, ok_trace None s es -> ok_trace t s es.
  Proof. induction es as [|e es IH]; intros s; cbn; [auto|]. intros [H1 H2]. split; [apply step_ok_None, H1 | apply IH, H2]. Qed.

  Lemma Rok_emits t s0 es : forall r, Rok t s0 r -> ok_trace t (rs r) es -> Rok t s0 (emits r es).
  Proof.
    induction es as [|e es IH]; intros r H Hes; [exact H|]. destruct Hes as [H1 H2].
    apply (IH (emit r e)); [apply Rok_emit; assumption | exact H2].
  Qed.

  Lemma Rok_Bok t s0 r r' : Inv s0 -> Rok t s0 r -> Bok r r' -> Rok t s0 r'.
  Proof.
    intros HI H [es [-> [_ Hes]]]. apply Rok_emits; [exact H|]. apply ok_trace_None, Hes. eapply Rok_inv; eassumption.
  Qed.

  Lemma Bok_inv r r' : Inv (rs r) -> Bok r r' -> Inv (rs r').
  Proof. intros HI [es [-> [_ H]]]. rewrite emits_rs. apply (ok_trace_inv size_of None); [exact HI | apply H, HI]. Qed.
End Bok.

(** models that can be shown have a model layer *)
Definition has_model_b (m : manifest) : bool := existsb (fun l => lmt l =? MT_MODEL) (mlayers m).

Definition op_has_model (o : op) : bool :=
  match o with
  | OCreate q => match cr_base q with
                 | BFiles _ parts _ _ => existsb (fun p => fst p =? MT_MODEL) parts
                 | BFrom _ => true
                 end
  | OPull _ (Some v) _ => has_model_b (sv_manifest v)
  | _ => true
  end.
Definition ops_have_model (os : list op) : bool := forallb op_has_model os.

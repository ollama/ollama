(** Byte strings as [list N] with Go's [strings] primitives (definitions + characterising lemmas). *)
From Coq Require Import List NArith Bool Arith Lia.
Import ListNotations.

Definition str := list N.

Fixpoint eqb_str (a b : str) : bool :=
  match a, b with
  | [], [] => true
  | x :: a', y :: b' => N.eqb x y && eqb_str a' b'
  | _, _ => false
  end.

(** [strings.HasPrefix s p] *)
Fixpoint prefixb (p s : str) : bool :=
  match p, s with
  | [], _ => true
  | a :: p', b :: s' => N.eqb a b && prefixb p' s'
  | _ :: _, [] => false
  end.

(** [strings.Index s t]: least i with t a prefix of [skipn i s] *)
Fixpoint index_from (i : nat) (s t : str) : option nat :=
  if prefixb t s then Some i
  else match s with
       | [] => None
       | _ :: s' => index_from (S i) s' t
       end.
Definition index_of (s t : str) : option nat := index_from 0 s t.
Definition containsb (s t : str) : bool := match index_of s t with Some _ => true | None => false end.

(** [strings.HasSuffix s t] *)
Definition suffixb (t s : str) : bool := prefixb (rev t) (rev s).

Definition Prefix (p s : str) : Prop := exists r, s = p ++ r.
Definition Suffix (t s : str) : Prop := exists r, s = r ++ t.
Definition Infix (t s : str) : Prop := exists a b, s = a ++ t ++ b.

Lemma eqb_str_spec a b : eqb_str a b = true <-> a = b.
Proof.
  revert b; induction a as [|x a IH]; intros [|y b]; cbn; split; intro H; try congruence; try reflexivity.
  - apply andb_true_iff in H as [H1 H2]. apply N.eqb_eq in H1. apply IH in H2. congruence.
  - inversion H; subst. rewrite N.eqb_refl. cbn. apply IH. reflexivity.
Qed.

Lemma prefixb_spec p s : prefixb p s = true <-> Prefix p s.
Proof.
  revert s; induction p as [|a p IH]; intros s; cbn.
  - split; [intros _; exists s; reflexivity | reflexivity].
  - destruct s as [|b s].
    + split; [discriminate | intros [r Hr]; discriminate].
    + rewrite andb_true_iff, N.eqb_eq, IH. split.
      * intros [-> [r ->]]. exists r. reflexivity.
      * intros [r Hr]. inversion Hr; subst. split; [reflexivity | exists r; reflexivity].
Qed.

Lemma prefixb_false p s : prefixb p s = false <-> ~ Prefix p s.
Proof.
  rewrite <- prefixb_spec. destruct (prefixb p s); intuition congruence.
Qed.

Lemma suffixb_spec t s : suffixb t s = true <-> Suffix t s.
Proof.
  unfold suffixb. rewrite prefixb_spec. split.
  - intros [r Hr]. exists (rev r). apply (f_equal (@rev N)) in Hr. rewrite rev_involutive, rev_app_distr, rev_involutive in Hr. exact Hr.
  - intros [r ->]. exists (rev r). apply rev_app_distr.
Qed.

Lemma Prefix_nil s : Prefix [] s.
Proof. exists s; reflexivity. Qed.

Lemma Prefix_refl s : Prefix s s.
Proof. exists []; symmetry; apply app_nil_r. Qed.

Lemma Prefix_trans a b c : Prefix a b -> Prefix b c -> Prefix a c.
Proof. intros [r ->] [r' ->]. exists (r ++ r'). symmetry; apply app_assoc. Qed.

Lemma Prefix_app_r a b : Prefix a (a ++ b).
Proof. exists b; reflexivity. Qed.

Lemma Prefix_length a b : Prefix a b -> length a <= length b.
Proof. intros [r ->]. rewrite app_length. lia. Qed.

Lemma Prefix_firstn n s : Prefix (firstn n s) s.
Proof. exists (skipn n s). symmetry. apply firstn_skipn. Qed.

Lemma Prefix_is_firstn p s : Prefix p s -> p = firstn (length p) s.
Proof.
  intros [r ->]. rewrite firstn_app, firstn_all, Nat.sub_diag. cbn. symmetry; apply app_nil_r.
Qed.

(** two prefixes of one string are comparable *)
Lemma Prefix_cmp a b s : Prefix a s -> Prefix b s -> length a <= length b -> Prefix a b.
Proof.
  intros Ha Hb Hl. rewrite (Prefix_is_firstn _ _ Ha), (Prefix_is_firstn _ _ Hb).
  exists (skipn (length a) (firstn (length b) s)).
  rewrite <- (firstn_skipn (length a) (firstn (length b) s)) at 1.
  f_equal. rewrite firstn_firstn. f_equal. lia.
Qed.

Lemma Suffix_app_l a b : Suffix b (a ++ b).
Proof. exists a; reflexivity. Qed.

Lemma Suffix_length a b : Suffix a b -> length a <= length b.
Proof. intros [r ->]. rewrite app_length. lia. Qed.

Lemma Infix_refl s : Infix s s.
Proof. exists [], []. rewrite app_nil_r. reflexivity. Qed.

Lemma Infix_trans a b c : Infix a b -> Infix b c -> Infix a c.
Proof. intros [x [y ->]] [u [v ->]]. exists (u ++ x), (y ++ v). rewrite <- !app_assoc. reflexivity. Qed.

Lemma Infix_app_l t a s : Infix t s -> Infix t (a ++ s).
Proof. intros [x [y ->]]. exists (a ++ x), y. rewrite <- app_assoc. reflexivity. Qed.

Lemma Infix_app_r t a s : Infix t s -> Infix t (s ++ a).
Proof. intros [x [y ->]]. exists x, (y ++ a). rewrite <- !app_assoc. reflexivity. Qed.

Lemma Infix_prefix t p s : Prefix p s -> Infix t p -> Infix t s.
Proof. intros [r ->] H. apply Infix_app_r, H. Qed.

(** index_from characterisation *)
Lemma index_from_some i s t k :
  index_from i s t = Some k ->
  exists a b, s = a ++ t ++ b /\ k = i + length a /\
    (forall a' b', s = a' ++ t ++ b' -> length a <= length a').
Proof.
  revert i k; induction s as [|c s IH]; intros i k; cbn [index_from].
  - destruct (prefixb t []) eqn:E; [|discriminate].
    intros [= <-]. apply prefixb_spec in E as [r Hr].
    exists [], r. cbn. split; [exact Hr|]. split; [lia|]. intros; cbn; lia.
  - destruct (prefixb t (c :: s)) eqn:E.
    + intros [= <-]. apply prefixb_spec in E as [r Hr].
      exists [], r. cbn. split; [exact Hr|]. split; [lia|]. intros; cbn; lia.
    + intros H. apply IH in H as [a [b [-> [-> Hmin]]]].
      exists (c :: a), b. split; [reflexivity|]. split; [cbn; lia|].
      intros a' b' Heq. destruct a' as [|c' a'].
      * cbn in Heq. apply prefixb_false in E. exfalso; apply E. exists b'. exact Heq.
      * cbn in Heq. inversion Heq; subst. cbn. apply le_n_S. eapply Hmin. eassumption.
Qed.

Lemma index_from_none i s t : index_from i s t = None -> ~ Infix t s.
Proof.
  revert i; induction s as [|c s IH]; intros i; cbn [index_from].
  - destruct (prefixb t []) eqn:E; [discriminate|]. intros _ [a [b H]].
    apply prefixb_false in E. apply E. destruct a; [|discriminate]. exists b. exact H.
  - destruct (prefixb t (c :: s)) eqn:E; [discriminate|]. intros H [a [b Hab]].
    destruct a as [|c' a].
    + apply prefixb_false in E. apply E. exists b. exact Hab.
    + cbn in Hab. inversion Hab; subst. eapply IH; [exact H|]. exists a, b. reflexivity.
Qed.

Lemma index_of_some s t k :
  index_of s t = Some k ->
  exists a b, s = a ++ t ++ b /\ k = length a /\
    (forall a' b', s = a' ++ t ++ b' -> length a <= length a').
Proof. intros H. apply index_from_some in H as [a [b [H1 [H2 H3]]]]. exists a, b. auto. Qed.

Lemma index_of_none s t : index_of s t = None <-> ~ Infix t s.
Proof.
  split; [apply index_from_none|].
  intros H. unfold index_of. destruct (index_from 0 s t) eqn:E; [|reflexivity].
  apply index_from_some in E as [a [b [-> _]]]. exfalso; apply H. exists a, b; reflexivity.
Qed.

Lemma containsb_spec s t : containsb s t = true <-> Infix t s.
Proof.
  unfold containsb. destruct (index_of s t) eqn:E.
  - apply index_of_some in E as [a [b [-> _]]]. split; [intros _; exists a, b; reflexivity | reflexivity].
  - apply index_of_none in E. split; [discriminate | contradiction].
Qed.

Lemma containsb_false s t : containsb s t = false <-> ~ Infix t s.
Proof.
  rewrite <- containsb_spec. destruct (containsb s t); intuition congruence.
Qed.

(** an occurrence of [t] in [a ++ b] lies in [a], lies in [b], or straddles the boundary *)
Lemma Infix_app_cases t a b :
  Infix t (a ++ b) ->
  Infix t a \/ Infix t b \/
  exists u v, t = u ++ v /\ u <> [] /\ v <> [] /\ Suffix u a /\ Prefix v b.
Proof.
  intros [x [y H]].
  apply app_eq_app in H as [l [[Ha Hb]|[Hx Hb]]].
  - (* a = x ++ l, t ++ y = l ++ b *)
    apply app_eq_app in Hb as [l' [[Ht Hy]|[Hl Hy]]].
    + (* t = l ++ l' : straddles or degenerate *)
      destruct l as [|c l].
      * right; left. cbn in Ht. subst t. exists [], y. cbn. rewrite Hy. reflexivity.
      * destruct l' as [|c' l'].
        -- left. rewrite app_nil_r in Ht. subst t. exists x, []. rewrite app_nil_r. exact Ha.
        -- right; right. exists (c :: l), (c' :: l'). split; [exact Ht|].
           split; [discriminate|]. split; [discriminate|].
           split; [exists x; exact Ha | exists y; exact Hy].
    + (* l = t ++ l' *)
      left. subst l. exists x, l'. exact Ha.
  - (* x = a ++ l, b = l ++ t ++ y *)
    right; left. exists l, y. exact Hb.
Qed.

Lemma concat_app_single {A} (l : list (list A)) (x : list A) : concat (l ++ [x]) = concat l ++ x.
Proof. rewrite concat_app. cbn. rewrite app_nil_r. reflexivity. Qed.

(* Structural invariants of the repaired scheduler: what [loaded] contains, where fresh runners live, what a thread
   about to hand out / shut down a runner knows about it. *)
From Coq Require Import List ZArith NArith Bool Lia Arith.
From V Require Import Sched.Lts Sched.Tac Sched.Rule Sched.Reach Sched.InvOwn Sched.InvLock.
Import ListNotations.

Definition rclosed (s : state) (r : nat) : bool := getf r_closed true (runners s) r.
Definition rmodel (s : state) (r : nat) : option nat := getf (fun x => Some (r_model x)) None (runners s) r.
Definition qmodel (s : state) (q : nat) : option nat := getf (fun x => Some (q_model x)) None (reqs s) q.

(* the pending loop has decided to start a runner for q (nothing is loaded for q's model) *)
Fixpoint inplace (p : pc) : option nat :=
  match p with
  | PNs q | PFlt q | PUfs q _ | PUfsR q _ _ | PLd1 q _ | PLd2 q _ => Some q
  | TEntry p' => inplace p'
  | _ => None
  end.

(* the runner has been created but is not yet registered in [loaded] *)
Fixpoint freshpc (p : pc) : option (nat * nat) :=
  match p with
  | PLd1 q r | PLd2 q r => Some (q, r)
  | TEntry p' => freshpc p'
  | _ => None
  end.

Definition freshr (r : nat) (p : pc) : nat := match freshpc p with Some (_, r') => eqn r' r | None => 0 end.

(* threads inside a critical section of refMu(r) that rely on r still being loaded *)
Fixpoint livepc (p : pc) : option nat :=
  match p with
  | PUseSend _ r | LWWait _ r | LWErr _ r | LWExp r | LWOk _ r => Some r
  | TEntry p' => livepc p'
  | _ => None
  end.

Fixpoint cevpc (p : pc) : option nat :=
  match p with CEV r => Some r | TEntry p' => cevpc p' | _ => None end.

Definition okreply (rp : reply) : Prop := match rp with ROk _ c => c = false | _ => True end.

Record L2 (s : state) : Prop := mkL2 {
  l2_nodup : NoDup (map fst (loaded s));
  l2_loaded : forall m r, lookup (loaded s) m = Some r -> rmodel s r = Some m /\ rclosed s r = false;
  l2_absent : forall t p q, nth_error (thr s) t = Some p -> inplace p = Some q ->
              exists m, qmodel s q = Some m /\ lookup (loaded s) m = None;
  l2_fresh : forall t p q r, nth_error (thr s) t = Some p -> freshpc p = Some (q, r) ->
             rclosed s r = false /\ (exists m, qmodel s q = Some m /\ rmodel s r = Some m) /\
             (forall m, lookup (loaded s) m <> Some r);
  l2_live : forall r, rclosed s r = false ->
            (exists m, rmodel s r = Some m /\ lookup (loaded s) m = Some r) \/ 1 <= cnt (freshr r) (thr s);
  l2_cev : forall t p r, nth_error (thr s) t = Some p -> cevpc p = Some r ->
           exists m, rmodel s r = Some m /\ lookup (loaded s) m = Some r;
  l2_livepc : forall t p r, nth_error (thr s) t = Some p -> livepc p = Some r -> rclosed s r = false;
  l2_replies : forall q x, getq s q = Some x -> Forall okreply (q_replies x)
}.

Lemma fresh_thread s r : 1 <= cnt (freshr r) (thr s) -> exists t p q, nth_error (thr s) t = Some p /\ freshpc p = Some (q, r).
Proof.
  intros Hc. destruct (cnt_pos_In (freshr r) (thr s)) as (p & Hin & Hp); [lia|].
  apply In_nth_error in Hin. destruct Hin as [t Ht]. unfold freshr in Hp.
  destruct (freshpc p) as [[q r']|] eqn:E; [|lia]. unfold eqn in Hp. destruct (Nat.eqb r' r) eqn:Q; [|lia].
  apply Nat.eqb_eq in Q. subst. eauto.
Qed.

Lemma remove_key_fst l m : ~ In m (map fst (remove_key l m)).
Proof.
  induction l as [|[k v] tl IH]; simpl; auto. destruct (Nat.eqb k m) eqn:E; auto.
  simpl. intros [H|H]; auto. apply Nat.eqb_neq in E. congruence.
Qed.

Lemma remove_key_NoDup l m : NoDup (map fst l) -> NoDup (map fst (remove_key l m)).
Proof.
  induction l as [|[k v] tl IH]; simpl; intros N; auto. inv N.
  destruct (Nat.eqb k m); auto. simpl. constructor; auto.
  intros H. apply H1. apply in_map_iff in H. destruct H as ([k' v'] & E & H). simpl in E; subst.
  apply remove_key_incl in H. apply in_map_iff. exists (k, v'). tauto.
Qed.

Lemma insert_NoDup l m r : NoDup (map fst l) -> NoDup (map fst (insert l m r)).
Proof. intros N. unfold insert. simpl. constructor. apply remove_key_fst. apply remove_key_NoDup; auto. Qed.

Lemma lookup_remove_key_none l m m' : lookup l m' = None -> lookup (remove_key l m) m' = None.
Proof.
  induction l as [|[k v] tl IH]; simpl; auto. destruct (Nat.eqb k m') eqn:E; try discriminate.
  intros H. destruct (Nat.eqb k m); auto. simpl. rewrite E. auto.
Qed.

Lemma lookup_remove_key_some l m m' r : lookup (remove_key l m) m' = Some r -> lookup l m' = Some r /\ m <> m'.
Proof.
  intros H. destruct (Nat.eq_dec m m') as [->|N].
  - rewrite lookup_remove_key_eq in H. discriminate.
  - rewrite lookup_remove_key_neq in H; auto.
Qed.

Lemma lookup_insert_some l m r m' r' :
  lookup (insert l m r) m' = Some r' -> (m = m' /\ r = r') \/ (m <> m' /\ lookup l m' = Some r').
Proof.
  intros H. destruct (Nat.eq_dec m m') as [->|N].
  - rewrite lookup_insert_eq in H. inv H. auto.
  - rewrite lookup_insert_neq in H; auto.
Qed.

Lemma rclosed_setr s r x y j : getr s r = Some x -> r_closed y = r_closed x -> rclosed (setr s r y) j = rclosed s j.
Proof. intros E C. unfold rclosed, setr. simpl. eapply getf_upd_same; eauto. Qed.

Lemma rmodel_setr s r x y j : getr s r = Some x -> r_model y = r_model x -> rmodel (setr s r y) j = rmodel s j.
Proof. intros E C. unfold rmodel, setr. simpl. eapply getf_upd_same; eauto; simpl; congruence. Qed.

Lemma qmodel_setq s q x y j : getq s q = Some x -> q_spec y = q_spec x -> qmodel (setq s q y) j = qmodel s j.
Proof. intros E C. unfold qmodel, setq. simpl. eapply getf_upd_same; eauto; unfold q_model; simpl; congruence. Qed.

Lemma rclosed_false s r : rclosed s r = false -> exists x, getr s r = Some x /\ r_closed x = false.
Proof. unfold rclosed, getf, getr. destruct (nth_error (runners s) r); intros H; try discriminate. eauto. Qed.

Lemma rclosed_get s r x : getr s r = Some x -> rclosed s r = r_closed x.
Proof. unfold rclosed, getr. intros E. erewrite getf_some; eauto. Qed.

Lemma rmodel_get s r x : getr s r = Some x -> rmodel s r = Some (r_model x).
Proof. unfold rmodel, getr. intros E. erewrite getf_some; eauto. Qed.

Lemma qmodel_get s q x : getq s q = Some x -> qmodel s q = Some (q_model x).
Proof. unfold qmodel, getq. intros E. erewrite getf_some; eauto. Qed.

Lemma rclosed_range s r : rclosed s r = false -> r < length (runners s).
Proof. intros H. apply rclosed_false in H. destruct H as (x & E & _). apply nth_error_Some. unfold getr in E. congruence. Qed.

Ltac acc_unfold := unfold rclosed, rmodel, qmodel, getr, getq in *.

Ltac acc_norm :=
  repeat first
  [ erewrite getf_upd_same by (first [eassumption | simpl; reflexivity | simpl; congruence])
  | erewrite getf_upd by eassumption
  | rewrite getf_snoc ].

Lemma tick_rclosed s d r : rclosed (tick s d) r = rclosed s r.
Proof. unfold rclosed. rewrite tick_runners. apply fire_getf. reflexivity. Qed.
Lemma tick_rmodel s d r : rmodel (tick s d) r = rmodel s r.
Proof. unfold rmodel. rewrite tick_runners. apply fire_getf. reflexivity. Qed.
Lemma tick_qmodel s d q : qmodel (tick s d) q = qmodel s q.
Proof. unfold qmodel. rewrite tick_reqs. reflexivity. Qed.

Ltac acc_s1 := acc_unfold; simpl; acc_norm.

Lemma rule_rmodel {c s t p alt s1 p' sp e r m} :
  rule c s t p alt s1 p' sp e -> rmodel s r = Some m -> rmodel s1 r = Some m.
Proof.
  intros R A. destruct R; try exact A; acc_s1; eqb_cases; try exact A.
  rewrite getf_none in A by lia. discriminate A.
Qed.

Lemma rule_qmodel {c s t p alt s1 p' sp e q m} :
  rule c s t p alt s1 p' sp e -> qmodel s q = Some m -> qmodel s1 q = Some m.
Proof. intros R A. destruct R; try exact A; acc_s1; eqb_cases; exact A. Qed.

Lemma rule_rclosed {c s t p alt s1 p' sp e r} :
  rule c s t p alt s1 p' sp e -> rclosed s r = false -> rclosed s1 r = false \/ p = CEV r.
Proof.
  intros R A. pose proof (rclosed_range _ _ A).
  destruct R; try (left; exact A); acc_s1; eqb_cases; auto; lia.
Qed.

Lemma rule_rclosed_back {c s t p alt s1 p' sp e r} :
  rule c s t p alt s1 p' sp e -> rclosed s1 r = false -> rclosed s r = false \/ exists q, p' = PLd1 q r.
Proof.
  intros R. destruct R; auto; acc_s1; eqb_cases; eauto; simpl; intros A; try exact (or_introl A); discriminate A.
Qed.

Lemma rule_CEV_closed {c s t r alt s1 p' sp e} : rule c s t (CEV r) alt s1 p' sp e -> rclosed s1 r = true.
Proof.
  intros R. inversion R; subst; unfold rclosed, getr in *; simpl; erewrite getf_upd by eassumption;
  rewrite Nat.eqb_refl; simpl; auto.
Qed.

Lemma rule_loaded {c s t p alt s1 p' sp e} :
  rule c s t p alt s1 p' sp e ->
  (loaded s1 = loaded s /\ forall r, rclosed s r = false -> rclosed s1 r = false) \/
  (exists q r x, p = PLd2 q r /\ getr s r = Some x /\ loaded s1 = insert (loaded s) (r_model x) r) \/
  (exists r x, p = CEV r /\ getr s r = Some x /\ loaded s1 = remove_key (loaded s) (r_model x)).
Proof.
  intros R.
  assert (C : forall r, rclosed s r = false -> rclosed s1 r = false \/ p = CEV r) by (intro; apply (rule_rclosed R)).
  destruct R;
  try (left; split; [reflexivity|];
       intros r0 A; destruct (C r0 A) as [|X]; [assumption|discriminate X]).
  - right; left. exists q, r, x. auto.
  - right; right. exists r, x. auto.
  - right; right. exists r, x. auto.
Qed.

Section Step.
Variables (c : config) (s s' : state) (l : label) (e : list event).
Hypothesis Hf : fixed c.
Hypothesis IM : I_muc s.
Hypothesis IL : I_lmuc s.
Hypothesis IO : I_one s.
Hypothesis I : L2 s.
Hypothesis H : step c s l = Some (s', e).

Lemma two_P t1 t2 p1 p2 :
  t1 <> t2 -> nth_error (thr s) t1 = Some p1 -> nth_error (thr s) t2 = Some p2 -> isP p1 = 1 -> isP p2 = 1 -> False.
Proof.
  intros N H1 H2 P1 P2. pose proof (cnt_two isP _ _ _ _ _ N H1 H2). destruct IO as [IP _]. lia.
Qed.

Lemma inplace_isP p q : inplace p = Some q -> isP p = 1.
Proof. induction p; simpl; intros E; try discriminate; auto. Qed.

Lemma two_lmu t1 t2 p1 p2 :
  t1 <> t2 -> nth_error (thr s) t1 = Some p1 -> nth_error (thr s) t2 = Some p2 -> hl p1 = 1 -> hl p2 = 1 -> False.
Proof.
  intros N H1 H2 P1 P2. pose proof (cnt_two hl _ _ _ _ _ N H1 H2). unfold I_lmuc, lm1 in IL. destruct (lmu s); lia.
Qed.

Lemma lmu_held t p : nth_error (thr s) t = Some p -> hl p = 1 -> is_none (lmu s) = true -> False.
Proof.
  intros H1 P1 N. pose proof (cnt_ge hl _ _ _ H1). unfold I_lmuc, lm1 in IL. destruct (lmu s); simpl in N; try discriminate; lia.
Qed.

Lemma two_mu r t1 t2 p1 p2 :
  t1 <> t2 -> nth_error (thr s) t1 = Some p1 -> nth_error (thr s) t2 = Some p2 -> hr r p1 = 1 -> hr r p2 = 1 -> False.
Proof.
  intros N H1 H2 P1 P2. pose proof (cnt_two (hr r) _ _ _ _ _ N H1 H2). specialize (IM r).
  unfold getd, mu1 in IM. destruct (nth_error (runners s) r) as [x|]; [destruct (r_mu x)|]; lia.
Qed.

Lemma cevpc_hl p r : cevpc p = Some r -> hl p = 1 /\ hr r p = 1.
Proof. induction p; simpl; intros E; try discriminate; auto. inv E. unfold eqn. rewrite Nat.eqb_refl. auto. Qed.

Lemma livepc_hr p r : livepc p = Some r -> hr r p = 1.
Proof. induction p; simpl; intros E; try discriminate; auto; inv E; unfold eqn; rewrite Nat.eqb_refl; auto. Qed.

Lemma freshpc_isP p q r : freshpc p = Some (q, r) -> isP p = 1.
Proof. induction p; simpl; intros E; try discriminate; auto. Qed.

Lemma freshpc_inplace p q r : freshpc p = Some (q, r) -> inplace p = Some q.
Proof. induction p; simpl; intros E; try discriminate; auto; inv E; auto. Qed.

Lemma l2_absent_step : forall t p q, nth_error (thr s') t = Some p -> inplace p = Some q ->
  exists m, qmodel s' q = Some m /\ lookup (loaded s') m = None.
Proof.
  pose proof (l2_absent s I) as A. intros t' p' q' Hn Hp. apply step_stepR in H.
  destruct H as [sp _|sp _|q y Eq _|m|d _|t alt p s1 p1 o e0 Ht R].
  1,2: destruct (A _ _ _ Hn Hp) as (m & A1 & A2); exists m; split; auto; acc_unfold; simpl; rewrite getf_snoc;
    eqb_cases; auto; rewrite getf_none in A1 by lia; discriminate.
  - destruct (A _ _ _ Hn Hp) as (m & A1 & A2). exists m. split; auto. erewrite qmodel_setq; eauto.
  - simpl in Hn. apply nth_error_snoc in Hn. destruct Hn as [Hn|[-> ->]]; [exact (A _ _ _ Hn Hp)|discriminate Hp].
  - destruct (tick_thr_obs Hn Hp) as (p0 & Hn0 & Hp0); try reflexivity. rewrite tick_loaded. destruct (A _ _ _ Hn0 Hp0) as (m' & A1 & A2); exists m'; split; auto.
    rewrite tick_qmodel; auto.
  - (* nothing is registered under a model for which nothing was, except by the pending loop at PLd2 *)
    assert (Stable : forall m, qmodel s q' = Some m -> lookup (loaded s) m = None -> (forall q r, p <> PLd2 q r) ->
                     exists m, qmodel s1 q' = Some m /\ lookup (loaded s1) m = None).
    { intros m Q L NP. exists m. split; [eapply rule_qmodel; eassumption|].
      destruct (rule_loaded R) as [[-> _]|[(q & r & x & -> & _)|(r & x & _ & _ & ->)]]; auto.
      - exfalso. eapply NP. reflexivity.
      - apply lookup_remove_key_none. exact L. }
    destruct (rule_thr_cases R Hn) as [[Ne Hn']|[[-> ->]|(x & -> & Sx)]].
    + destruct (A _ _ _ Hn' Hp) as (m & A1 & A2). apply (Stable _ A1 A2). intros q r ->.
      eapply (two_P t' t); eauto using inplace_isP.
    + (* the stepping thread stays inside the placement, or enters it after a lookup that found nothing *)
      destruct R; try discriminate Hp;
      try (destruct (A _ _ _ Ht Hp) as (m & A1 & A2); apply (Stable _ A1 A2); discriminate).
      1-3: inv Hp; apply (Stable (q_model y)); [apply qmodel_get; assumption|assumption|discriminate].
    + destruct x; try contradiction; discriminate Hp.
Qed.

Lemma l2_fresh_step : forall t p q r, nth_error (thr s') t = Some p -> freshpc p = Some (q, r) ->
  rclosed s' r = false /\ (exists m, qmodel s' q = Some m /\ rmodel s' r = Some m) /\
  (forall m, lookup (loaded s') m <> Some r).
Proof.
  pose proof (l2_fresh s I) as A. pose proof (l2_loaded s I) as K. intros t' p' q' r' Hn Hp. apply step_stepR in H.
  destruct H as [sp _|sp _|q y Eq _|m|d _|t alt p s1 p1 o e0 Ht R].
  1,2: destruct (A _ _ _ _ Hn Hp) as (A1 & (m' & A2 & A3) & A4); (split; [|split]); auto; exists m'; split; auto;
    acc_unfold; simpl; rewrite getf_snoc; eqb_cases; auto; rewrite getf_none in A2 by lia; discriminate.
  - destruct (A _ _ _ _ Hn Hp) as (A1 & (m' & A2 & A3) & A4). (split; [|split]); auto; exists m'; split; auto.
    erewrite qmodel_setq; eauto.
  - simpl in Hn. apply nth_error_snoc in Hn. destruct Hn as [Hn|[-> ->]]; [exact (A _ _ _ _ Hn Hp)|discriminate Hp].
  - destruct (tick_thr_obs Hn Hp) as (p0 & Hn0 & Hp0); try reflexivity. rewrite tick_loaded, tick_rclosed, tick_rmodel, tick_qmodel. eauto.
  - (* a fresh runner stays as it is while the stepping thread neither registers a runner nor unloads this one *)
    assert (Stable : forall p0, nth_error (thr s) t' = Some p0 -> freshpc p0 = Some (q', r') ->
                     (forall q r, p <> PLd2 q r) ->
                     rclosed s1 r' = false /\ (exists m, qmodel s1 q' = Some m /\ rmodel s1 r' = Some m) /\
                     (forall m, lookup (loaded s1) m <> Some r')).
    { intros p0 Hn0 Hp0 NP. destruct (A _ _ _ _ Hn0 Hp0) as (A1 & (m & A2 & A3) & A4).
      assert (NC : p <> CEV r').
      { intros ->. destruct (l2_cev s I _ _ _ Ht eq_refl) as (m3 & _ & C2). eapply A4; eauto. }
      split; [|split].
      - destruct (rule_rclosed R A1); [assumption|contradiction].
      - exists m. split; [eapply rule_qmodel|eapply rule_rmodel]; eassumption.
      - intros m2 Hm. destruct (rule_loaded R) as [[E _]|[(q & r & x & -> & _)|(r & x & _ & _ & E)]].
        + rewrite E in Hm. eapply A4; eauto.
        + eapply NP. reflexivity.
        + rewrite E in Hm. apply lookup_remove_key_some in Hm. destruct Hm as [Hm _]. eapply A4; eauto. }
    destruct (rule_thr_cases R Hn) as [[Ne Hn']|[[-> ->]|(x & -> & Sx)]].
    + apply (Stable _ Hn' Hp). intros q r ->. eapply (two_P t' t); eauto using freshpc_isP.
    + destruct R; try discriminate Hp; try (apply (Stable _ Ht Hp); discriminate).
      * (* PNs: the runner has just been created *)
        inv Hp. acc_unfold; simpl. rewrite !getf_snoc, Nat.eqb_refl. split; [reflexivity|split].
        -- exists (q_model y). split; [erewrite getf_some by eassumption|]; reflexivity.
        -- intros m2 Hm. destruct (K _ _ Hm) as [_ K2]. apply rclosed_range in K2. lia.
    + destruct x; try contradiction; discriminate Hp.
Qed.

Lemma l2_live_step : forall r, rclosed s' r = false ->
  (exists m, rmodel s' r = Some m /\ lookup (loaded s') m = Some r) \/ 1 <= cnt (freshr r) (thr s').
Proof.
  pose proof (l2_live s I) as V. intros r' Hc. apply step_stepR in H.
  destruct H as [sp _|sp _|q y Eq _|m|d _|t alt p s1 p1 o e0 Ht R]; try exact (V _ Hc).
  - destruct (V _ Hc) as [?|V1]; auto. right. simpl. rewrite cnt_snoc. simpl. lia.
  - rewrite tick_rclosed in Hc. rewrite tick_loaded, tick_cnt by reflexivity.
    destruct (V _ Hc) as [(m' & V1 & V2)|V1]; [left; exists m'; rewrite tick_rmodel; auto|right; exact V1].
  - destruct (rule_cnt (freshr r') R Ht) as [Ge C].
    change (rclosed s1 r' = false) in Hc.
    change ((exists m, rmodel s1 r' = Some m /\ lookup (loaded s1) m = Some r') \/ 1 <= cnt (freshr r') (thr (finish s1 t p1 o))).
    destruct (rule_rclosed_back R Hc) as [Hc0|(q & ->)].
    2: { right.
         assert (F : freshr r' (PLd1 q r') = 1) by (unfold freshr, eqn; simpl; rewrite Nat.eqb_refl; reflexivity).
         rewrite F in C. lia. }
    destruct (V _ Hc0) as [(m & V1 & V2)|V1].
    + (* a registered runner stays registered unless it is the one being unloaded *)
      left. exists m. split; [eapply rule_rmodel; eassumption|].
      destruct (rule_loaded R) as [[-> _]|[(q & r & x & -> & Ex & ->)|(r & x & -> & Ex & ->)]]; auto.
      * destruct (l2_absent s I _ _ _ Ht eq_refl) as (mq & A1 & A2).
        destruct (l2_fresh s I _ _ _ _ Ht eq_refl) as (_ & (mf & F2 & F3) & _).
        rewrite A1 in F2. inv F2. rewrite (rmodel_get _ _ _ Ex) in F3. inv F3.
        rewrite lookup_insert_neq; auto. congruence.
      * destruct (l2_cev s I _ _ _ Ht eq_refl) as (m3 & C1 & C2). rewrite (rmodel_get _ _ _ Ex) in C1. inv C1.
        rewrite lookup_remove_key_neq; auto. intros <-. rewrite C2 in V2. inv V2.
        rewrite (rule_CEV_closed R) in Hc. discriminate Hc.
    + (* the pending loop keeps its fresh runner until it registers it *)
      unfold freshr in *. destruct R; try (right; simpl in C |- *; lia).
      * destruct (Nat.eq_dec r r') as [->|NE].
        -- left. exists (r_model x). split; [erewrite rmodel_setr by (eassumption || reflexivity); apply rmodel_get; assumption|apply lookup_insert_eq].
        -- right. simpl in C, Ge |- *. unfold eqn in *. apply Nat.eqb_neq in NE. rewrite NE in *. lia.
Qed.

Lemma l2_cev_step : forall t p r, nth_error (thr s') t = Some p -> cevpc p = Some r ->
  exists m, rmodel s' r = Some m /\ lookup (loaded s') m = Some r.
Proof.
  pose proof (l2_cev s I) as A. intros t' p' r' Hn Hp. apply step_stepR in H.
  destruct H as [sp _|sp _|q y Eq _|m|d _|t alt p s1 p1 o e0 Ht R]; try exact (A _ _ _ Hn Hp).
  - simpl in Hn. apply nth_error_snoc in Hn. destruct Hn as [Hn|[-> ->]]; [exact (A _ _ _ Hn Hp)|discriminate Hp].
  - destruct (tick_thr_obs Hn Hp) as (p0 & Hn0 & Hp0); try reflexivity. rewrite tick_loaded. destruct (A _ _ _ Hn0 Hp0) as (m' & A1 & A2); exists m'; split; auto.
    rewrite tick_rmodel; auto.
  - change (exists m, rmodel s1 r' = Some m /\ lookup (loaded s1) m = Some r').
    assert (Stable : forall m, rmodel s r' = Some m -> lookup (loaded s) m = Some r' -> loaded s1 = loaded s ->
                     exists m, rmodel s1 r' = Some m /\ lookup (loaded s1) m = Some r').
    { intros m Q L E. exists m. split; [eapply rule_rmodel; eassumption|rewrite E; exact L]. }
    destruct (rule_thr_cases R Hn) as [[Ne Hn']|[[-> ->]|(x & -> & Sx)]].
    + (* another thread is at CEV: it holds loadedMu, so the stepping thread neither registers nor unloads a runner *)
      destruct (A _ _ _ Hn' Hp) as (m & A1 & A2). apply (Stable _ A1 A2). destruct (cevpc_hl _ _ Hp) as [L _].
      destruct (rule_loaded R) as [[E _]|[(q & r & x & -> & _)|(r & x & -> & _)]]; auto; exfalso.
      * inversion R; subst. eapply lmu_held; eauto. match goal with E : lmu s = None |- _ => rewrite E end. reflexivity.
      * eapply (two_lmu t' t); eauto.
    + fix_cfg c Hf. destruct R; try discriminate Hp; fixed_only.
      * (* CE2 -> CEV: the stale test just failed *)
        inv Hp. unfold stale in *. simpl in *. destruct (lookup (loaded s) (r_model x)) as [r2|] eqn:EL; try discriminate.
        match goal with E : negb _ = false |- _ => apply negb_false_iff, Nat.eqb_eq in E; subst r2 end.
        exists (r_model x). split; [erewrite rmodel_setr by (eassumption || reflexivity); apply rmodel_get; assumption|exact EL].
      * destruct (A _ _ _ Ht Hp) as (m & A1 & A2). apply (Stable _ A1 A2). reflexivity.
    + destruct x; try contradiction; discriminate Hp.
Qed.

Lemma L2_step : L2 s'.
Proof.
  constructor.
  { (* l2_nodup *)
  pose proof (l2_nodup s I) as N. clear IM IL IO I Hf. apply step_stepR in H.
  destruct H as [sp _|sp _|q y _ _|m|d _|t alt p s1 p' o e0 _ R]; try exact N.
  - rewrite tick_loaded. exact N.
  - change (NoDup (map fst (loaded s1))).
    destruct (rule_loaded R) as [[-> _]|[(q & r & x & _ & _ & ->)|(r & x & _ & _ & ->)]];
    auto using insert_NoDup, remove_key_NoDup.
  }
  { (* l2_loaded *)
  pose proof (l2_loaded s I) as K. intros m0 r0 Hl. apply step_stepR in H.
  destruct H as [sp _|sp _|q y _ _|m|d _|t alt p s1 p' o e0 Ht R]; try exact (K _ _ Hl).
  - rewrite tick_loaded in Hl. rewrite tick_rmodel, tick_rclosed. auto.
  - change (rmodel s1 r0 = Some m0 /\ rclosed s1 r0 = false). change (lookup (loaded s1) m0 = Some r0) in Hl.
    destruct (rule_loaded R) as [[E C]|[(q & r & x & -> & Ex & E)|(r & x & -> & Ex & E)]]; rewrite E in Hl.
    + destruct (K _ _ Hl) as [K1 K2]. split; [eapply rule_rmodel; eauto|auto].
    + (* PLd2: the fresh runner is registered *)
      destruct (l2_fresh s I _ _ _ _ Ht eq_refl) as (F1 & _).
      apply lookup_insert_some in Hl. destruct Hl as [[<- <-]|[N Hl]].
      * split; [apply (rule_rmodel R), rmodel_get, Ex|].
        destruct (rule_rclosed R F1) as [|X]; [auto|discriminate X].
      * destruct (K _ _ Hl) as [K1 K2]. split; [eapply rule_rmodel; eauto|].
        destruct (rule_rclosed R K2) as [|X]; [auto|discriminate X].
    + (* CEV: the runner is shut down (unless it already was) and removed *)
      apply lookup_remove_key_some in Hl. destruct Hl as [Hl N]. destruct (K _ _ Hl) as [K1 K2].
      split; [eapply rule_rmodel; eauto|].
      destruct (rule_rclosed R K2) as [|X]; [auto|]. inv X.
      rewrite (rmodel_get _ _ _ Ex) in K1. inv K1. congruence.
  }
  { exact l2_absent_step. }
  { exact l2_fresh_step. }
  { exact l2_live_step. }
  { exact l2_cev_step. }
  { (* l2_livepc *)
  pose proof (l2_livepc s I) as A. intros t' p' r' Hn Hp. apply step_stepR in H.
  destruct H as [sp _|sp _|q y Eq _|m|d _|t alt p s1 p1 o e0 Ht R]; try exact (A _ _ _ Hn Hp).
  - simpl in Hn. apply nth_error_snoc in Hn. destruct Hn as [Hn|[-> ->]]; [exact (A _ _ _ Hn Hp)|discriminate Hp].
  - destruct (tick_thr_obs Hn Hp) as (p0 & Hn0 & Hp0); try reflexivity. rewrite tick_rclosed. eauto.
  - change (rclosed s1 r' = false).
    (* a runner is shut down under its refMu only *)
    assert (Stable : rclosed s r' = false -> p <> CEV r' -> rclosed s1 r' = false).
    { intros C NP. destruct (rule_rclosed R C) as [|X]; auto. contradiction. }
    destruct (rule_thr_cases R Hn) as [[Ne Hn']|[[-> ->]|(x & -> & Sx)]].
    + apply Stable; [exact (A _ _ _ Hn' Hp)|]. intros ->. eapply (two_mu r' t' t); eauto using livepc_hr.
      simpl. unfold eqn. rewrite Nat.eqb_refl. reflexivity.
    + fix_cfg c Hf. destruct R; try discriminate Hp; fixed_only;
      try (inv Hp; apply Stable; [exact (A _ _ _ Ht eq_refl)|discriminate]).
      * (* useLoadedRunner's re-check *)
        inv Hp. simpl in *. apply Stable; [erewrite rclosed_get by eassumption; assumption|discriminate].
      * apply Stable; [exact (A _ _ _ Ht Hp)|discriminate].
    + (* the load goroutine starts with the fresh runner *)
      destruct x; try contradiction; try discriminate Hp. simpl in Sx. subst p. inv Hp.
      destruct (l2_fresh s I _ _ _ _ Ht eq_refl) as (F1 & _). apply Stable; [exact F1|discriminate].
  }
  { (* l2_replies *)
  pose proof (l2_replies s I) as A. pose proof (l2_livepc s I) as G. intros q' x' Hq. apply step_stepR in H.
  destruct H as [sp _|sp _|q y Eq _|m|d _|t alt p s1 p1 o e0 Ht R]; try exact (A _ _ Hq).
  - apply nth_error_snoc in Hq. destruct Hq as [Hq|[-> ->]]; [exact (A _ _ Hq)|constructor].
  - apply nth_error_snoc in Hq. destruct Hq as [Hq|[-> ->]]; [exact (A _ _ Hq)|repeat constructor].
  - apply nth_error_upd in Hq. destruct Hq as [(-> & -> & _)|[N Hq]]; [exact (A _ _ Eq)|exact (A _ _ Hq)].
  - unfold getq in *. rewrite tick_reqs in Hq. exact (A _ _ Hq).
  - fix_cfg c Hf.
    destruct R; try exact (A _ _ Hq); fixed_only;
    apply nth_error_upd in Hq; destruct Hq as [(-> & -> & _)|[N Hq]]; try exact (A _ _ Hq); simpl;
    try (eapply A; eassumption); apply Forall_app; (split; [eapply A; eassumption|]); repeat constructor; simpl;
    (* a success reply carries a runner that is not shut down *)
    pose proof (G _ _ _ Ht eq_refl) as G1; erewrite rclosed_get in G1 by eassumption; exact G1.
  }
Qed.

End Step.

Lemma L2_init m : L2 (init_m m).
Proof.
  constructor; simpl; intros; try discriminate;
  try (destruct t as [|[|[|t]]]; simpl in *; try discriminate; inv H; simpl in *; discriminate).
  - constructor.
  - unfold rclosed, getf in H. destruct r; discriminate.
  - unfold getq in H. destruct q; discriminate.
Qed.

Lemma L2_Reach c s ev : fixed c -> Reach c s ev -> L2 s.
Proof.
  intros Hf R. induction R as [m|s ev l s' e R IH Hs].
  - apply L2_init.
  - destruct (I_locks_Reach _ _ _ Hf R) as (A & B & C). eapply L2_step; eauto.
Qed.

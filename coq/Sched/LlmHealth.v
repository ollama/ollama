(* Sched/LlmHealth.v - the health check of an llm server, as the scheduler relies on it (C01).  needsReload hands a
   loaded runner out only if its Ping succeeds; the runner is shut down by the scheduler's unload (Close), by
   Completion's crash path (broken stream -> Close) or by its process exiting.  State machine: alive -> closed, never
   back.  A health probe (Ping, WaitUntilRunning) succeeds exactly while the server is alive; in particular, in every
   history of operations a successful probe implies that no Close / crash / exit came before it.  The real
   llm.llmServer is held to this machine by the llm stage of the scheduler harness (harness/overlay/llm/sched_llm_test.go). *)
From Coq Require Import List Bool Arith Lia.
Import ListNotations.

Inductive hop := HPing | HWait | HCrash | HClose | HExit | HSleep.

Definition closes (o : hop) : bool := match o with HCrash | HClose | HExit => true | _ => false end.

(* new state, result of a health probe (None for the other operations) *)
Definition hstep (alive : bool) (o : hop) : bool * option bool :=
  match o with
  | HPing | HWait => (alive, Some alive)
  | HCrash | HClose | HExit => (false, None)
  | HSleep => (alive, None)
  end.

Fixpoint hrun (alive : bool) (ops : list hop) : list (option bool) :=
  match ops with
  | [] => []
  | o :: tl => let (a, r) := hstep alive o in r :: hrun a tl
  end.

Definition ob_eqb (a b : option bool) : bool :=
  match a, b with Some x, Some y => Bool.eqb x y | None, None => true | _, _ => false end.

Fixpoint obs_eqb (a b : list (option bool)) : bool :=
  match a, b with [] , [] => true | x :: ta, y :: tb => ob_eqb x y && obs_eqb ta tb | _, _ => false end.

(* the observed probe results of a run of the real server agree with the machine *)
Definition chk_health (ops : list hop) (obs : list (option bool)) : bool := obs_eqb (hrun true ops) obs.

Lemma probe_ok_alive : forall ops a k,
  nth_error (hrun a ops) k = Some (Some true) -> a = true /\ forallb (fun o => negb (closes o)) (firstn k ops) = true.
Proof.
  induction ops as [|o tl IH]; intros a k H.
  - destruct k; discriminate H.
  - destruct k as [|k]; simpl in H.
    + destruct o; simpl in H; inversion H; subst; auto.
    + destruct (hstep a o) as [a' r] eqn:E. simpl in H. apply IH in H. destruct H as [-> F].
      destruct o; simpl in E; inversion E; subst; try discriminate; simpl; auto.
Qed.

Theorem ping_ok_not_closed : forall ops k,
  nth_error (hrun true ops) k = Some (Some true) -> forallb (fun o => negb (closes o)) (firstn k ops) = true.
Proof. intros ops k H. apply (probe_ok_alive ops true k H). Qed.

Theorem alive_probe_ok : forall ops k o,
  nth_error ops k = Some o -> (o = HPing \/ o = HWait) -> forallb (fun o => negb (closes o)) (firstn k ops) = true ->
  nth_error (hrun true ops) k = Some (Some true).
Proof.
  assert (G : forall ops a k o, a = true -> nth_error ops k = Some o -> (o = HPing \/ o = HWait) ->
              forallb (fun o => negb (closes o)) (firstn k ops) = true -> nth_error (hrun a ops) k = Some (Some true)).
  { induction ops as [|x tl IH]; intros a k o Ha Hn Ho F; destruct k as [|k]; simpl in *; try discriminate.
    - inversion Hn; subst. destruct Ho as [->| ->]; reflexivity.
    - apply andb_prop in F. destruct F as [Fx F]. destruct (hstep a x) as [a' r] eqn:E. simpl.
      eapply IH; eauto. subst. destruct x; simpl in E; inversion E; subst; simpl in Fx; auto; discriminate. }
  intros; eapply G; eauto.
Qed.

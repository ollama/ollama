(* Sched/Reach.v - reachability with history, and the generic "invariant by induction over the run" principle. *)
From Coq Require Import List ZArith NArith Bool Lia Arith.
From V Require Import Sched.Lts Sched.Tac.
Import ListNotations.

Inductive Reach (c : config) : state -> list event -> Prop :=
| Reach_init : forall m, Reach c (init_m m) []
| Reach_step : forall s ev l s' e, Reach c s ev -> step c s l = Some (s', e) -> Reach c s' (ev ++ e).

Lemma run_from_Reach c : forall ls s ev s' e, Reach c s ev -> run c s ls = Some (s', e) -> Reach c s' (ev ++ e).
Proof.
  induction ls as [|l tl IH]; simpl; intros s ev s' e R H.
  - inv H. rewrite app_nil_r. exact R.
  - destruct (step c s l) as [[s1 e1]|] eqn:E1; try discriminate.
    destruct (run c s1 tl) as [[s2 e2]|] eqn:E2; try discriminate. inv H.
    rewrite app_assoc. eapply IH; eauto. eapply Reach_step; eauto.
Qed.

Lemma run_Reach c m ls s ev : run c (init_m m) ls = Some (s, ev) -> Reach c s ev.
Proof. intros H. change ev with ([] ++ ev). eapply run_from_Reach; eauto. constructor. Qed.

Lemma reachable_Reach c s : reachable c s -> exists ev, Reach c s ev.
Proof. intros (m & ls & ev & H). exists ev. eapply run_Reach; eauto. Qed.

Lemma run_snoc c : forall ls s l s1 e1 s2 e2,
  run c s ls = Some (s1, e1) -> step c s1 l = Some (s2, e2) -> run c s (ls ++ [l]) = Some (s2, e1 ++ e2).
Proof.
  induction ls as [|l0 tl IH]; simpl; intros s l s1 e1 s2 e2 H1 H2.
  - inv H1. rewrite H2. simpl. rewrite app_nil_r. reflexivity.
  - destruct (step c s l0) as [[sa ea]|] eqn:Ea; try discriminate.
    destruct (run c sa tl) as [[sb eb]|] eqn:Eb; try discriminate. inv H1.
    rewrite (IH _ _ _ _ _ _ Eb H2). rewrite app_assoc. reflexivity.
Qed.

Lemma Reach_run c s ev : Reach c s ev -> exists m ls, run c (init_m m) ls = Some (s, ev).
Proof.
  induction 1 as [m|s ev l s' e R (m & ls & IH) H].
  - exists m, []. reflexivity.
  - exists m, (ls ++ [l]). eapply run_snoc; eauto.
Qed.

Lemma Reach_reachable c s ev : Reach c s ev -> reachable c s.
Proof. intros R. destruct (Reach_run _ _ _ R) as (m & ls & H). exists m, ls, ev. exact H. Qed.

Lemma Reach_ind_inv c (I : state -> list event -> Prop) :
  (forall m, I (init_m m) []) ->
  (forall s ev l s' e, Reach c s ev -> I s ev -> step c s l = Some (s', e) -> I s' (ev ++ e)) ->
  forall s ev, Reach c s ev -> I s ev.
Proof. intros H0 HS s ev R. induction R; eauto. Qed.

(* a witness for [exists s ev, run c i ls = Some (s, ev) /\ ...]: the run is evaluated once, outside the proof term, and
   its result is given explicitly, so that what remains are closed equations about a small state *)
Ltac run_witness :=
  match goal with |- context [run ?c ?i ?ls = Some _] =>
    match eval vm_compute in (run c i ls) with Some (?s0, ?e0) => exists s0, e0 end end.

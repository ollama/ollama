(* Sched/InvLock.v - mutex bookkeeping of the repaired scheduler: a runner's refMu (the global loadedMu) is held
   exactly when one thread is at a program point inside the corresponding critical section. *)
From Coq Require Import List ZArith NArith Bool Lia Arith.
From V Require Import Sched.Lts Sched.Tac Sched.Rule Sched.Reach Sched.InvOwn.
Import ListNotations.

Fixpoint hr (r : nat) (p : pc) : nat :=
  match p with
  | PPing _ r' | PUseSend _ r' | PExpSend _ r' | PLd2 _ r' | CFSend r' | CEV r' | LWWait _ r' | LWErr _ r'
  | LWExp r' | LWOk _ r' | TMSend r' | AXSend r' => eqn r' r
  | TEntry p' => hr r p'
  | _ => 0
  end.

Fixpoint hl (p : pc) : nat :=
  match p with PUfsR _ _ _ | CE2 _ | CEV _ | AXLr _ | AXSend _ => 1 | TEntry p' => hl p' | _ => 0 end.

(* program points of the pending loop (exactly one thread is the pending loop) *)
Fixpoint isP (p : pc) : nat :=
  match p with
  | PSel | PLk _ | PNr _ _ | PPing _ _ | PUse _ _ | PUseSend _ _ | PFv _ | PFvR _ _ _ | PExp _ _ | PExpSend _ _
  | PWait _ _ | PErr _ | PFlt _ | PUfs _ _ | PUfsR _ _ _ | PNs _ | PLd1 _ _ | PLd2 _ _ => 1
  | TEntry p' => isP p'
  | _ => 0
  end.

Fixpoint isC (p : pc) : nat :=
  match p with
  | CSel | CFLk _ | CFR _ _ | CFSend _ | CE1 _ | CE2 _ | CEV _ | CEFin | CETok => 1
  | TEntry p' => isC p'
  | _ => 0
  end.

Definition mu1 (x : runner) : nat := match r_mu x with Some _ => 1 | None => 0 end.
Definition lm1 (s : state) : nat := match lmu s with Some _ => 1 | None => 0 end.

Definition I_muc (s : state) : Prop := forall r, cnt (hr r) (thr s) = getd mu1 (runners s) r.
Definition I_lmuc (s : state) : Prop := cnt hl (thr s) = lm1 s.
Definition I_one (s : state) : Prop := cnt isP (thr s) = 1 /\ cnt isC (thr s) = 1.

Definition fixed (c : config) : Prop := c_fix c = fixes_on.

Ltac fix_cfg c Hf := destruct c as [?mq ?fx ?ng]; unfold fixed in Hf; simpl in Hf; subst.

(* a rule of the repaired scheduler: the alternatives of the scheduler as found do not apply *)
Ltac fixed_only :=
  try match goal with
      | E : fxA _ = false |- _ => discriminate E
      | E : fxB _ = false |- _ => discriminate E
      | E : fxC _ = false |- _ => discriminate E
      end.

Lemma I_muc_Reach c s ev : fixed c -> Reach c s ev -> I_muc s.
Proof.
  intros Hf. revert s ev. apply Reach_ind_inv.
  { intros m r. unfold getd. simpl. destruct r; reflexivity. }
  intros s ev l s' e _ I H r. fix_cfg c Hf. specialize (I r). unfold I_muc in *. apply step_stepR in H.
  destruct H as [sp _|sp _|q0 y _ _|m|d _|t alt p s1 p' o e Ht R]; try exact I.
  - simpl. rewrite cnt_snoc. simpl. lia.
  - rewrite tick_cnt, tick_runners, (fire_getd mu1) by reflexivity. exact I.
  - (* a rule takes or releases refMu(r) exactly when it enters or leaves a program point inside its critical section *)
    destruct (rule_cnt (hr r) R Ht) as [Ge C].
    destruct R; fixed_only; simpl in C, Ge |- *; unfold getq, getr in *;
    repeat (erewrite getd_upd by eassumption); rewrite ?getd_snoc; unfold mu1 in *; simpl in *;
    try lia; eqb_cases; simpl in *; rewrite ?getd_none in * by lia; use_nth; simpl in *;
    repeat match goal with E : r_mu _ = _ |- _ => rewrite E in * end; simpl in *;
    repeat match goal with
    | H : context [match r_mu ?x with _ => _ end] |- _ => destruct (r_mu x) eqn:?
    | |- context [match r_mu ?x with _ => _ end] => destruct (r_mu x) eqn:?
    end; simpl in *; lia.
Qed.

Lemma I_lmuc_Reach c s ev : fixed c -> Reach c s ev -> I_lmuc s.
Proof.
  intros Hf. revert s ev. apply Reach_ind_inv; [reflexivity|].
  intros s ev l s' e _ I H. fix_cfg c Hf. unfold I_lmuc, lm1 in *. apply step_stepR in H.
  destruct H as [sp _|sp _|q0 y _ _|m|d _|t alt p s1 p' o e Ht R]; try exact I.
  - simpl. rewrite cnt_snoc. simpl. lia.
  - rewrite tick_cnt, tick_lmu by reflexivity. exact I.
  - destruct (rule_cnt hl R Ht) as [Ge C].
    destruct R; fixed_only; simpl in C, Ge |- *; repeat match goal with E : lmu _ = _ |- _ => rewrite E in * end; simpl in *;
    try lia; destruct (lmu s); simpl in *; lia.
Qed.

Lemma I_one_Reach c s ev : Reach c s ev -> I_one s.
Proof.
  revert s ev. apply Reach_ind_inv; [split; reflexivity|].
  intros s ev l s' e _ [IP IC] H. unfold I_one. apply step_stepR in H.
  destruct H as [sp _|sp _|q0 y _ _|m|d _|t alt p s1 p' o e Ht R]; auto.
  - simpl. rewrite !cnt_snoc. simpl. lia.
  - rewrite !tick_cnt by reflexivity. auto.
  - destruct (rule_cnt isP R Ht) as [GeP CP]. destruct (rule_cnt isC R Ht) as [GeC CC].
    destruct R; simpl in *; lia.
Qed.

Lemma I_locks_Reach c s ev : fixed c -> Reach c s ev -> I_muc s /\ I_lmuc s /\ I_one s.
Proof. intros Hf R. split; [|split]; [eapply I_muc_Reach|eapply I_lmuc_Reach|eapply I_one_Reach]; eassumption. Qed.

(* Sched/Thm.v - the theorems about the repaired scheduler, derived from the invariants. *)
From Coq Require Import List ZArith NArith Bool Lia Arith.
From V Require Import Sched.Lts Sched.Tac Sched.Rule Sched.Reach Sched.InvOwn Sched.InvLock Sched.InvStruct Sched.InvCount.
Import ListNotations.

Lemma bound c s ev :
  fixed c -> 1 <= c_ngpus c -> Reach c s ev ->
  (0 < maxr s -> nlive s <= maxr s) /\ (maxr s = 0 -> nlive s = 0).
Proof.
  intros Hf Hg R. destruct (counts_Reach _ _ _ Hf Hg R) as [IC [I0 I1]]. unfold I_count in IC.
  pose proof (cnt_mono freshp inpl (thr s) freshp_inpl) as M. split; intros Hm.
  - specialize (I1 Hm). lia.
  - destruct (I0 Hm) as [L0 C0]. rewrite L0 in IC. simpl in IC. lia.
Qed.

Lemma one_per_model c s ev r1 r2 x1 x2 :
  fixed c -> Reach c s ev ->
  getr s r1 = Some x1 -> getr s r2 = Some x2 -> r_closed x1 = false -> r_closed x2 = false ->
  r_model x1 = r_model x2 -> r1 = r2.
Proof.
  intros Hf R E1 E2 C1 C2 M. pose proof (L2_Reach _ _ _ Hf R) as I2.
  destruct (I_locks_Reach _ _ _ Hf R) as (_ & _ & IO).
  assert (L1 : rclosed s r1 = false) by (rewrite (rclosed_get _ _ _ E1); auto).
  assert (L2' : rclosed s r2 = false) by (rewrite (rclosed_get _ _ _ E2); auto).
  pose proof (rmodel_get _ _ _ E1) as M1. pose proof (rmodel_get _ _ _ E2) as M2.
  destruct (l2_live s I2 _ L1) as [(m1 & A1 & B1)|F1]; destruct (l2_live s I2 _ L2') as [(m2 & A2 & B2)|F2].
  - rewrite M1 in A1. rewrite M2 in A2. inv A1. inv A2. rewrite M in B1. congruence.
  - exfalso. apply fresh_thread in F2. destruct F2 as (t & p & q & Ht & Hp).
    destruct (l2_fresh s I2 _ _ _ _ Ht Hp) as (_ & (m & Q1 & Q2) & _).
    destruct (l2_absent s I2 _ _ _ Ht (freshpc_inplace _ _ _ Hp)) as (m' & Q3 & Q4).
    rewrite M1 in A1. inv A1. rewrite M2 in Q2. inv Q2. rewrite Q1 in Q3. inv Q3. rewrite M in B1. congruence.
  - exfalso. apply fresh_thread in F1. destruct F1 as (t & p & q & Ht & Hp).
    destruct (l2_fresh s I2 _ _ _ _ Ht Hp) as (_ & (m & Q1 & Q2) & _).
    destruct (l2_absent s I2 _ _ _ Ht (freshpc_inplace _ _ _ Hp)) as (m' & Q3 & Q4).
    rewrite M2 in A2. inv A2. rewrite M1 in Q2. inv Q2. rewrite Q1 in Q3. inv Q3. rewrite <- M in B2. congruence.
  - apply fresh_thread in F1. apply fresh_thread in F2.
    destruct F1 as (t1 & p1 & q1 & Ht1 & Hp1). destruct F2 as (t2 & p2 & q2 & Ht2 & Hp2).
    destruct (Nat.eq_dec t1 t2) as [->|N].
    + rewrite Ht1 in Ht2. inv Ht2. rewrite Hp1 in Hp2. inv Hp2. reflexivity.
    + exfalso. pose proof (cnt_two isP _ _ _ _ _ N Ht1 Ht2). destruct IO as [IP _].
      rewrite (freshpc_isP _ _ _ Hp1), (freshpc_isP _ _ _ Hp2) in H. lia.
Qed.

Definition okev (e : event) : Prop := match e with EReply _ (ROk _ c) => c = false | _ => True end.

Lemma events_ok c s ev : fixed c -> Reach c s ev -> Forall okev ev.
Proof.
  intros Hf R. induction R as [m|s ev l s' e R IH H]; [constructor|].
  apply Forall_app. split; auto. pose proof (l2_livepc s (L2_Reach _ _ _ Hf R)) as G. clear R IH. apply step_stepR in H.
  destruct H as [sp _|sp _|q y _ _|m|d _|t alt p s1 p1 o e0 Ht R]; repeat constructor.
  (* a success reply is sent from a program point inside the runner's critical section *)
  apply Forall_forall. intros [q [r cl| |]| | | |] Hin; simpl; auto.
  destruct (rule_reply_ok R Hin) as [[->| ->] (x & Ex & ->)]; rewrite <- (rclosed_get _ _ _ Ex); exact (G _ _ _ Ht eq_refl).
Qed.

(* C01, third clause: a runner that has been shut down is never handed to a request *)
Lemma no_grant_closed c s ev q r cl : fixed c -> Reach c s ev -> In (EReply q (ROk r cl)) ev -> cl = false.
Proof.
  intros Hf R Hin. pose proof (events_ok _ _ _ Hf R) as F. rewrite Forall_forall in F. apply (F _ Hin).
Qed.

Lemma step_new_absent c s l s' e m res :
  fixed c -> L2 s -> step c s l = Some (s', e) -> In (ENew m res) e -> lookup (loaded s) m = None.
Proof.
  intros Hf I2 H Hin. pose proof (l2_absent s I2) as A. apply step_stepR in H.
  destruct H as [sp _|sp _|q y _ _|m0|d _|t alt p s1 p1 o e0 Ht R]; simpl in Hin; try tauto.
  - destruct Hin as [Hin|[]]. discriminate Hin.
  - destruct (rule_new R Hin) as (q & y & -> & Ey & ->). destruct (A _ _ _ Ht eq_refl) as (m' & A1 & A2).
    rewrite (qmodel_get _ _ _ Ey) in A1. inv A1. exact A2.
Qed.

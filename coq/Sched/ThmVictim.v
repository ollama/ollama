(* Sched/ThmVictim.v - findRunnerToUnload: candidates in (keep-alive, model) order, the first idle one is chosen,
   otherwise the first. *)
From Coq Require Import List ZArith NArith Bool Lia Arith Sorting.Sorted Permutation.
From V Require Import Sched.Lts Sched.Tac.
Import ListNotations.

Lemma vless_asym s a b : vless s a b = true -> vless s b a = false.
Proof.
  unfold vless. destruct (getr s a) as [x|]; destruct (getr s b) as [y|]; try discriminate.
  destruct (Z.eqb (r_dur x) (r_dur y)) eqn:E.
  - apply Z.eqb_eq in E. rewrite E, Z.eqb_refl. intros L. apply Nat.ltb_lt in L. apply Nat.ltb_ge. lia.
  - intros L. apply Z.ltb_lt in L. rewrite Z.eqb_sym, E. apply Z.ltb_ge. lia.
Qed.

Definition vle (s : state) (a b : nat) : Prop := vless s b a = false.

Lemma vinsert_perm s a l : Permutation (vinsert s a l) (a :: l).
Proof.
  induction l as [|b tl IH]; simpl; auto. destruct (vless s b a); auto.
  eapply perm_trans; [apply perm_skip; exact IH|apply perm_swap].
Qed.

Lemma vsort_perm s l : Permutation (vsort s l) l.
Proof.
  induction l as [|a tl IH]; simpl; auto. eapply perm_trans; [apply vinsert_perm|]. auto.
Qed.

Lemma vinsert_hd s a l d : vle s (hd d (vinsert s a l)) a.
Proof.
  destruct l as [|b tl]; simpl.
  - unfold vle. unfold vless. destruct (getr s a); auto. rewrite Z.eqb_refl. apply Nat.ltb_irrefl.
  - destruct (vless s b a) eqn:E; simpl.
    + unfold vle. apply vless_asym. exact E.
    + unfold vle. unfold vless. destruct (getr s a); auto. rewrite Z.eqb_refl. apply Nat.ltb_irrefl.
Qed.

Lemma vinsert_sorted s a l : LocallySorted (vle s) l -> LocallySorted (vle s) (vinsert s a l).
Proof.
  induction 1 as [|b|b c tl L IH Hbc]; simpl.
  - constructor.
  - destruct (vless s b a) eqn:E; repeat constructor; unfold vle; auto using vless_asym.
  - destruct (vless s b a) eqn:E.
    + simpl in IH. destruct (vless s c a) eqn:E2.
      * constructor; auto.
      * constructor; auto. unfold vle. apply vless_asym. exact E.
    + repeat constructor; auto.
Qed.

Lemma vsort_sorted s l : LocallySorted (vle s) (vsort s l).
Proof. induction l as [|a tl IH]; simpl; [constructor|]. apply vinsert_sorted. exact IH. Qed.

Lemma victim_snapshot c s t q f rest :
  lmu s = None -> vsort s (map snd (loaded s)) = f :: rest ->
  run_pc c s t (PFv q) 0%Z = Some (goto s t (PFvR q (f :: rest) f), []).
Proof. intros L E. unfold run_pc, guard. rewrite L, E. reflexivity. Qed.

Lemma victim_idle c s t q r tl first x :
  getr s r = Some x -> r_mu x = None -> r_ref x = 0%N ->
  run_pc c s t (PFvR q (r :: tl) first) 0%Z = Some (goto s t (PExp q r), []).
Proof. intros E M R. unfold run_pc, guard. rewrite E, M, R. reflexivity. Qed.

Lemma victim_busy c s t q r tl first x :
  getr s r = Some x -> r_mu x = None -> r_ref x <> 0%N ->
  run_pc c s t (PFvR q (r :: tl) first) 0%Z =
    Some (goto s t (match tl with [] => PExp q first | _ => PFvR q tl first end), []).
Proof.
  intros E M R. unfold run_pc, guard. rewrite E, M. simpl.
  destruct (N.eqb (r_ref x) 0) eqn:Q; [apply N.eqb_eq in Q; congruence|]. destruct tl; reflexivity.
Qed.

(* Sched/InvQueue.v - admission to the pending queue.  A request enters the queue in one atomic step (the select with
   default in GetRunner; the re-queue send of the reschedule goroutine waits for room), so in every reachable state
   the queue holds at most OLLAMA_MAX_QUEUE requests, whatever the number of concurrent submitters.  (Any configuration.) *)
From Coq Require Import List ZArith NArith Bool Lia Arith.
From V Require Import Sched.Lts Sched.Tac Sched.Rule Sched.Reach.
Import ListNotations.

Theorem queue_bound c s ev : Reach c s ev -> length (pendq s) <= c_maxq c.
Proof.
  revert s ev. apply Reach_ind_inv.
  { intros m. simpl. lia. }
  intros s ev l s' e _.
  intros B H. apply step_stepR in H.
  destruct H as [sp L|sp _|q y _ _|m|d _|t alt p s1 p' o e Ht R]; auto.
  - simpl. rewrite app_length. simpl. apply Nat.ltb_lt in L. lia.
  - rewrite tick_pendq. auto.
  - destruct R; try exact B; simpl.
    1,2: match goal with E : pendq _ = _ |- _ => rewrite E in B; simpl in B; lia end.
    rewrite app_length. simpl. match goal with E : Nat.ltb _ _ = true |- _ => apply Nat.ltb_lt in E; lia end.
Qed.

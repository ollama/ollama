(* C11 - loaded-runner limit, one runner per model, reuse when compatible.   Theorems only. *)
From Coq Require Import List ZArith NArith Bool Lia Arith.
From V Require Import Sched.Lts Sched.Reach Sched.InvLock Sched.InvStruct Sched.InvCount Sched.Thm Sched.ThmVictim Sched.ThmFit Sched.EnvCfg Sched.Refute Sched.Examples.
Import ListNotations.

(* Reuse: when the pending loop looks up a request's model and finds a runner, it goes on to needsReload for that
   runner and no server is started in that step; when needsReload finds the runner loaded (its load completed), with compatible options,
   it pings it; when the ping succeeds it goes on to useLoadedRunner.  (Any state, any configuration.) *)
Theorem C11_reuse_lookup :
  forall c s t q x r, getq s q = Some x -> lmu s = None -> lookup (loaded s) (q_model x) = Some r ->
  run_pc c s t (PLk q) 0%Z = Some (goto s t (PNr q r), []).
Proof. intros c s t q x r Hq Hl Hr. unfold run_pc, guard. rewrite Hl, Hq, Hr. reflexivity. Qed.
Print Assumptions C11_reuse_lookup.

Theorem C11_reuse_compatible :
  forall c s t q r x y, getr s r = Some x -> getq s q = Some y -> r_mu x = None ->
  r_closed x = false -> r_loading x = false -> compat (r_key x) (sp_key (q_spec y)) = true ->
  run_pc c s t (PNr q r) 0%Z = Some (goto (setr s r (r_set_mu x (Some t))) t (PPing q r), []) /\
  forall s1 x1, getr s1 r = Some x1 ->
    run_pc c s1 t (PPing q r) 0%Z = Some (goto (setr s1 r (r_set_mu x1 None)) t (PUse q r), [EPing r true]).
Proof.
  intros c s t q r x y Hr Hq Hm Hc Hl Hk. split.
  - unfold run_pc, guard, reusable. rewrite Hr, Hq, Hm, Hc, Hl, Hk. reflexivity.
  - intros s1 x1 H1. unfold run_pc. rewrite H1. reflexivity.
Qed.
Print Assumptions C11_reuse_compatible.

(* Repaired scheduler, at least one GPU (or the CPU entry) in the inventory.  In every reachable state the number of
   runners that have been started and not shut down is at most the maximum - the configured OLLAMA_MAX_LOADED_MODELS
   or, when that was unset, the value the scheduler assigned itself on its first placement - and nothing is running
   as long as no maximum is known. *)
Theorem C11_bound :
  forall c m ls s ev, fixed c -> 1 <= c_ngpus c -> run c (init_m m) ls = Some (s, ev) ->
  (0 < maxr s -> nlive s <= maxr s) /\ (maxr s = 0 -> nlive s = 0).
Proof. intros c m ls s ev Hf Hg H. eapply bound; eauto. eapply run_Reach; eauto. Qed.
Print Assumptions C11_bound.

(* Repaired scheduler: two runners that are both running (started, not shut down) serve different models. *)
Theorem C11_one_per_model :
  forall c m ls s ev r1 r2 x1 x2, fixed c -> run c (init_m m) ls = Some (s, ev) ->
  getr s r1 = Some x1 -> getr s r2 = Some x2 -> r_closed x1 = false -> r_closed x2 = false ->
  r_model x1 = r_model x2 -> r1 = r2.
Proof. intros c m ls s ev r1 r2 x1 x2 Hf H. eapply one_per_model; eauto. eapply run_Reach; eauto. Qed.
Print Assumptions C11_one_per_model.

(* Repaired scheduler: a server is started (newServerFn is called) only for a model for which no runner is
   registered at that moment; together with C11_reuse_* : a request whose model has a compatible, responsive runner
   is served by that runner and no server is started for it. *)
Theorem C11_new_only_when_absent :
  forall c m ls s ev l s' e mo res, fixed c -> run c (init_m m) ls = Some (s, ev) ->
  step c s l = Some (s', e) -> In (ENew mo res) e -> lookup (loaded s) mo = None.
Proof.
  intros c m ls s ev l s' e mo res Hf H Hs Hin. eapply step_new_absent; eauto. eapply L2_Reach; eauto. eapply run_Reach; eauto.
Qed.
Print Assumptions C11_new_only_when_absent.

(* Fit before start (any configuration).  newServerFn is called by one rule only, the one at program counter PNs;
   in every reachable state a step after which a thread stands at PNs was taken by the pending loop either with
   nothing registered in [loaded], or through the alternative in which the placement oracle (the model's
   abstraction of pickBestFullFitByLibrary / PredictServerFit on the free memory left by updateFreeSpace) answered
   "fits" - [fit_answer], Sched/ThmFit.v.  What the oracle stands for is tied to the code by the `no-fit-start`
   monitor (independent llm.EstimateGPULayers computation at every newServerFn call), not by this theorem. *)
Theorem C11_fit_before_start :
  forall c m ls s ev0 t alt s' ev q p, run c (init_m m) ls = Some (s, ev0) ->
  nth_error (thr s) t = Some p -> step c s (LRun t alt) = Some (s', ev) ->
  nth_error (thr s') t = Some (PNs q) -> fit_answer s p alt.
Proof. intros c m ls s ev0 t alt s' ev q p H. eapply fit_before_start. eapply run_Reach; eauto. Qed.
Print Assumptions C11_fit_before_start.

Theorem C11_new_only_at_newserver_rule :
  forall c s t p alt s' ev m res, run_pc c s t p alt = Some (s', ev) -> In (ENew m res) ev -> exists q, p = PNs q.
Proof. intros. eapply new_only_at_PNs; eauto. Qed.
Print Assumptions C11_new_only_at_newserver_rule.

Example C11_nonvacuous :
  fixed cfg_on /\ 1 <= c_ngpus cfg_on /\
  exists s ev, run cfg_on (init_m 1) (firstn 10 ex_load_unload) = Some (s, ev) /\ nlive s = 1 /\ maxr s = 1 /\ In (ENew 0 (Some 0)) ev.
Proof.
  split. reflexivity. split. simpl; auto. run_witness. split; [vm_compute; reflexivity|].
  repeat split; try reflexivity. simpl. tauto.
Qed.

(* Over all configurations (including the scheduler as found) the bound and the one-runner-per-model clause are
   false: a stale expired event removes a NEW runner from [loaded] (Sched/Refute.v, replayed from corpus/C11). *)
Definition C11_bound_full : Prop := bound_full.
Theorem C11_bound_refuted : ~ C11_bound_full.
Proof. exact bound_refuted. Qed.
Print Assumptions C11_bound_refuted.

Definition C11_one_per_model_full : Prop := one_per_model_full.
Theorem C11_one_per_model_refuted : ~ C11_one_per_model_full.
Proof. exact one_per_model_refuted. Qed.
Print Assumptions C11_one_per_model_refuted.

(* Making room (findRunnerToUnload): the candidates are the registered runners in non-decreasing (keep-alive,
   model path) order; the first candidate found idle (refCount 0, read under its refMu) is the victim; when every
   candidate is busy the victim is the first of that order.  (Any state, any configuration.) *)
Theorem C11_victim_order :
  forall s l, Sorted.LocallySorted (vle s) (vsort s l) /\ Permutation.Permutation (vsort s l) l.
Proof. intros s l. split. apply vsort_sorted. apply vsort_perm. Qed.
Print Assumptions C11_victim_order.

Theorem C11_idle_victim_first :
  forall c s t q r tl first x, getr s r = Some x -> r_mu x = None ->
  (r_ref x = 0%N -> run_pc c s t (PFvR q (r :: tl) first) 0%Z = Some (goto s t (PExp q r), [])) /\
  (r_ref x <> 0%N -> run_pc c s t (PFvR q (r :: tl) first) 0%Z =
                      Some (goto s t (match tl with [] => PExp q first | _ => PFvR q tl first end), [])).
Proof. intros c s t q r tl first x E M. split; intros R. eapply victim_idle; eauto. eapply victim_busy; eauto. Qed.
Print Assumptions C11_idle_victim_first.

(* The configured limits are what the environment says (Sched/EnvCfg.v: strip white space, strip quotes, parse, else
   the default): a limit spelled with padding and quotes around the digits - as env files and container runtimes pass
   it - means the same as the plain number.  The real envconfig readers are compared with this model on generated
   spellings by the environment stage of the harness; a share of the scheduler runs spell their limits that way. *)
Theorem C11_limit_spelling :
  forall def ws1 q1 d q2 ws2,
  forallb is_space ws1 = true -> forallb is_space ws2 = true ->
  forallb is_quote q1 = true -> forallb is_quote q2 = true -> forallb is_digit d = true ->
  read_uint def (ws1 ++ q1 ++ d ++ q2 ++ ws2) = read_uint def d.
Proof. exact read_uint_spelling. Qed.
Print Assumptions C11_limit_spelling.

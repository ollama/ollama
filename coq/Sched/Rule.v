(* The rules of [run_pc] as a relation.  A rule of thread t at program counter p changes the data of the state
   (everything but the thread list), moves t to its next program counter and creates at most one goroutine:
   [run_pc c s t p alt = Some (s', e)] implies [rule c s t p alt s1 p' sp e] and [s' = finish s1 t p' sp] for some s1, p',
   sp ([run_pc_rule]; the converse is not proved, the invariants only need this direction).  What a rule does to the
   threads is the same for all rules ([rule_thr_cases], [rule_cnt]); what it does to the data is read off the constructor. *)
From Coq Require Import List ZArith NArith Bool Lia Arith.
From V Require Import Sched.Lts Sched.Tac.
Import ListNotations.

Definition spl (sp : option pc) : list pc := match sp with Some p => [TEntry p] | None => [] end.

Definition finish (s1 : state) (t : nat) (p' : pc) (sp : option pc) : state :=
  s_thr s1 (upd (match sp with Some p => thr s1 ++ [TEntry p] | None => thr s1 end) t p').
Arguments finish : simpl never.

(* the maximum the scheduler assigns itself on its first placement *)
Definition set_max (c : config) (s : state) (y : req) : state :=
  s_maxr s (if Nat.eqb (maxr s) 0
            then models_per_gpu * (if Z.eqb (k_ngpu (sp_key (q_spec y))) 0 then 1 else c_ngpus c)
            else maxr s).

Definition any_loading (s : state) : bool :=
  existsb (fun mr => match getr s (snd mr) with
                     | Some x => r_loading x && negb (Z.eqb (k_ngpu (r_key x)) 0)
                     | None => false end) (loaded s).

Definition new_runner (y : req) : runner :=
  mkR (q_model y) (sp_key (q_spec y)) 1%N (match sp_ka (q_spec y) with Some d => d | None => default_ka end)
      TNone true false None 0.

(* useLoadedRunner: refCount++, the keep-alive timer is stopped, the request's keep-alive (if any) is taken over *)
Definition use_runner (x : runner) (y : req) : runner :=
  mkR (r_model x) (r_key x) (N.succ (r_ref x)) (match sp_ka (q_spec y) with Some d => d | None => r_dur x end)
      TNone (r_loading x) (r_closed x) (r_mu x) (r_closes x).

(* the runner is marked for expiry: timer stopped, keep-alive 0 *)
Definition expire_now (x : runner) : runner := r_set_dur (r_set_tm x TNone) 0%Z.

Section Rule.
Variables (c : config) (s : state) (t : nat).

Inductive rule : pc -> Z -> state -> pc -> option pc -> list event -> Prop :=
| R_PSel_drop q rest y : pendq s = q :: rest -> getq s q = Some y -> q_cancelled y = true ->
    rule PSel 0 (s_pendq s rest) PSel None []
| R_PSel_take q rest y : pendq s = q :: rest -> getq s q = Some y -> q_cancelled y = false ->
    rule PSel 0 (s_pendq s rest) (PLk q) None []
| R_PSel_tok n : unlq s = S n -> rule PSel 1 (s_unlq s n) PSel None []
| R_PLk_found q y r : lmu s = None -> getq s q = Some y -> lookup (loaded s) (q_model y) = Some r ->
    rule (PLk q) 0 s (PNr q r) None []
| R_PLk_full q y : lmu s = None -> getq s q = Some y -> lookup (loaded s) (q_model y) = None ->
    Nat.ltb 0 (maxr s) = true -> Nat.leb (maxr s) (length (loaded s)) = true ->
    rule (PLk q) 0 s (PFv q) None []
| R_PLk_bad q y : lmu s = None -> getq s q = Some y -> lookup (loaded s) (q_model y) = None ->
    Nat.ltb 0 (maxr s) && Nat.leb (maxr s) (length (loaded s)) = false -> sp_bad (q_spec y) = true ->
    rule (PLk q) 0 (set_max c s y) (PErr q) None []
| R_PLk_first q y : lmu s = None -> getq s q = Some y -> lookup (loaded s) (q_model y) = None ->
    Nat.ltb 0 (maxr s) && Nat.leb (maxr s) (length (loaded s)) = false -> sp_bad (q_spec y) = false ->
    Nat.eqb (length (loaded s)) 0 = true ->
    rule (PLk q) 0 (set_max c s y) (PNs q) None []
| R_PLk_cpu_fit q y : lmu s = None -> getq s q = Some y -> lookup (loaded s) (q_model y) = None ->
    Nat.ltb 0 (maxr s) && Nat.leb (maxr s) (length (loaded s)) = false -> sp_bad (q_spec y) = false ->
    Nat.eqb (length (loaded s)) 0 = false -> Z.eqb (k_ngpu (sp_key (q_spec y))) 0 = true ->
    rule (PLk q) 0 (set_max c s y) (PNs q) None []
| R_PLk_cpu_evict q y : lmu s = None -> getq s q = Some y -> lookup (loaded s) (q_model y) = None ->
    Nat.ltb 0 (maxr s) && Nat.leb (maxr s) (length (loaded s)) = false -> sp_bad (q_spec y) = false ->
    Nat.eqb (length (loaded s)) 0 = false -> Z.eqb (k_ngpu (sp_key (q_spec y))) 0 = true ->
    rule (PLk q) 1 (set_max c s y) (PFv q) None []
| R_PLk_gpu q y : lmu s = None -> getq s q = Some y -> lookup (loaded s) (q_model y) = None ->
    Nat.ltb 0 (maxr s) && Nat.leb (maxr s) (length (loaded s)) = false -> sp_bad (q_spec y) = false ->
    Nat.eqb (length (loaded s)) 0 = false -> Z.eqb (k_ngpu (sp_key (q_spec y))) 0 = false ->
    rule (PLk q) 0 (set_max c s y) (PFlt q) None []
| R_PFlt q : lmu s = None -> rule (PFlt q) 0 s (PUfs q (any_loading s)) None []
| R_PUfs_fit q ld : lmu s = None -> map snd (loaded s) = [] -> rule (PUfs q ld) 0 s (PNs q) None []
| R_PUfs_wait q : lmu s = None -> map snd (loaded s) = [] ->
    rule (PUfs q true) 1 s PSel (Some (RSSleep q resched_ms)) []
| R_PUfs_evict q : lmu s = None -> map snd (loaded s) = [] -> rule (PUfs q false) 1 s (PFv q) None []
| R_PUfs_visit q ld r rest : lmu s = None -> map snd (loaded s) = r :: rest ->
    rule (PUfs q ld) 0 (s_lmu s (Some t)) (PUfsR q ld (r :: rest)) None []
| R_PUfsR_fit q ld rest alt r x : (0 <= alt)%Z -> nth_error rest (Z.to_nat (alt mod 4)) = Some r ->
    getr s r = Some x -> r_mu x = None -> remove_nth rest (Z.to_nat (alt mod 4)) = [] -> (alt / 4 = 0)%Z ->
    rule (PUfsR q ld rest) alt (s_lmu s None) (PNs q) None []
| R_PUfsR_wait q rest alt r x : (0 <= alt)%Z -> nth_error rest (Z.to_nat (alt mod 4)) = Some r ->
    getr s r = Some x -> r_mu x = None -> remove_nth rest (Z.to_nat (alt mod 4)) = [] -> (alt / 4 = 1)%Z ->
    rule (PUfsR q true rest) alt (s_lmu s None) PSel (Some (RSSleep q resched_ms)) []
| R_PUfsR_evict q rest alt r x : (0 <= alt)%Z -> nth_error rest (Z.to_nat (alt mod 4)) = Some r ->
    getr s r = Some x -> r_mu x = None -> remove_nth rest (Z.to_nat (alt mod 4)) = [] -> (alt / 4 = 1)%Z ->
    rule (PUfsR q false rest) alt (s_lmu s None) (PFv q) None []
| R_PUfsR_next q ld rest alt r x r' rest' : (0 <= alt)%Z -> nth_error rest (Z.to_nat (alt mod 4)) = Some r ->
    getr s r = Some x -> r_mu x = None -> remove_nth rest (Z.to_nat (alt mod 4)) = r' :: rest' -> (alt / 4 = 0)%Z ->
    rule (PUfsR q ld rest) alt s (PUfsR q ld (r' :: rest')) None []
| R_PNs_ok q y : getq s q = Some y ->
    rule (PNs q) 0 (s_runners s (runners s ++ [new_runner y])) (PLd1 q (length (runners s))) None
         [ENew (q_model y) (Some (length (runners s)))]
| R_PNs_err q y : getq s q = Some y -> rule (PNs q) 1 s (PErr q) None [ENew (q_model y) None]
| R_PLd1 q r x : getr s r = Some x -> r_mu x = None ->
    rule (PLd1 q r) 0 (setr s r (r_set_mu x (Some t))) (PLd2 q r) None []
| R_PLd2 q r x : getr s r = Some x -> lmu s = None ->
    rule (PLd2 q r) 0
         (setr (s_loaded s (insert (loaded s) (r_model x) r)) r (r_set_mu x (Some (length (thr s)))))
         PSel (Some (LWWait q r)) []
| R_PNr_expire q r x y : getr s r = Some x -> getq s q = Some y -> r_mu x = None ->
    r_closed x || negb (reusable x (sp_key (q_spec y))) = true ->
    rule (PNr q r) 0 s (PExp q r) None []
| R_PNr_ping q r x y : getr s r = Some x -> getq s q = Some y -> r_mu x = None ->
    r_closed x || negb (reusable x (sp_key (q_spec y))) = false ->
    rule (PNr q r) 0 (setr s r (r_set_mu x (Some t))) (PPing q r) None []
| R_PPing_ok q r x : getr s r = Some x ->
    rule (PPing q r) 0 (setr s r (r_set_mu x None)) (PUse q r) None [EPing r true]
| R_PPing_fail q r x : getr s r = Some x ->
    rule (PPing q r) 1 (setr s r (r_set_mu x None)) (PExp q r) None [EPing r false]
| R_PUse_again q r x y : getr s r = Some x -> getq s q = Some y -> r_mu x = None ->
    fxB (c_fix c) = true -> r_closed x = true ->
    rule (PUse q r) 0 s (PLk q) None []
| R_PUse q r x y : getr s r = Some x -> getq s q = Some y -> r_mu x = None ->
    fxB (c_fix c) && r_closed x = false ->
    rule (PUse q r) 0 (setr s r (r_set_mu (use_runner x y) (Some t))) (PUseSend q r) None []
| R_PUseSend q r x y : getr s r = Some x -> getq s q = Some y ->
    rule (PUseSend q r) 0
         (setr (setq s q (q_add_reply y (ROk r (r_closed x)))) r (r_set_mu x None))
         PSel (Some (FWDone q)) [EReply q (ROk r (r_closed x))]
| R_PFv_none q : lmu s = None -> vsort s (map snd (loaded s)) = [] -> rule (PFv q) 0 s (PLk q) None []
| R_PFv_some q f rest : lmu s = None -> vsort s (map snd (loaded s)) = f :: rest ->
    rule (PFv q) 0 s (PFvR q (f :: rest) f) None []
| R_PFvR_idle q r tl first x : getr s r = Some x -> r_mu x = None -> N.eqb (r_ref x) 0 = true ->
    rule (PFvR q (r :: tl) first) 0 s (PExp q r) None []
| R_PFvR_last q r first x : getr s r = Some x -> r_mu x = None -> N.eqb (r_ref x) 0 = false ->
    rule (PFvR q [r] first) 0 s (PExp q first) None []
| R_PFvR_next q r a tl first x : getr s r = Some x -> r_mu x = None -> N.eqb (r_ref x) 0 = false ->
    rule (PFvR q (r :: a :: tl) first) 0 s (PFvR q (a :: tl) first) None []
| R_PExp_idle q r x : getr s r = Some x -> r_mu x = None -> N.eqb (r_ref x) 0 = true ->
    rule (PExp q r) 0 (setr s r (r_set_mu (expire_now x) (Some t))) (PExpSend q r) None []
| R_PExp_busy q r x : getr s r = Some x -> r_mu x = None -> N.eqb (r_ref x) 0 = false ->
    rule (PExp q r) 0 (setr s r (expire_now x)) (PWait q r) None []
| R_PExpSend q r x : getr s r = Some x ->
    rule (PExpSend q r) 0 (setr (s_expq s (expq s ++ [r])) r (r_set_mu x None)) (PWait q r) None []
| R_PWait q r n : unlq s = S n -> rule (PWait q r) 0 (s_unlq s n) (PLk q) None []
| R_PErr q y : getq s q = Some y ->
    rule (PErr q) 0 (setq s q (q_add_reply y RErr)) PSel None [EReply q RErr]
| R_CSel_fin q rest : finq s = q :: rest -> rule CSel 0 (s_finq s rest) (CFLk q) None []
| R_CSel_exp r rest : expq s = r :: rest -> rule CSel 1 (s_expq s rest) (CE1 r) None []
| R_CFLk_gone q y : getq s q = Some y -> lmu s = None -> lookup (loaded s) (q_model y) = None ->
    rule (CFLk q) 0 s CSel None []
| R_CFLk_found q y r : getq s q = Some y -> lmu s = None -> lookup (loaded s) (q_model y) = Some r ->
    rule (CFLk q) 0 s (CFR q r) None []
| R_CFR_expire q r x y : getr s r = Some x -> getq s q = Some y -> r_mu x = None ->
    N.eqb (pred_wrap (r_ref x)) 0 = true -> Z.leb (r_dur x) 0 = true ->
    rule (CFR q r) 0
         (setr (setq s q (q_finish y)) r (r_set_mu (r_set_tm (r_set_ref x (pred_wrap (r_ref x))) TNone) (Some t)))
         (CFSend r) None []
| R_CFR_arm q r x y : getr s r = Some x -> getq s q = Some y -> r_mu x = None ->
    N.eqb (pred_wrap (r_ref x)) 0 = true -> Z.leb (r_dur x) 0 = false ->
    rule (CFR q r) 0
         (setr (setq s q (q_finish y)) r (r_set_tm (r_set_ref x (pred_wrap (r_ref x))) (TArmed (deadline s (r_dur x)))))
         CSel None []
| R_CFR_busy q r x y : getr s r = Some x -> getq s q = Some y -> r_mu x = None ->
    N.eqb (pred_wrap (r_ref x)) 0 = false ->
    rule (CFR q r) 0 (setr (setq s q (q_finish y)) r (r_set_ref x (pred_wrap (r_ref x)))) CSel None []
| R_CFSend r x : getr s r = Some x ->
    rule (CFSend r) 0 (setr (s_expq s (expq s ++ [r])) r (r_set_mu x None)) CSel None []
| R_CE1_lock r x : getr s r = Some x -> fxC (c_fix c) = true -> lmu s = None ->
    rule (CE1 r) 0 (s_lmu s (Some t)) (CE2 r) None []
| R_CE1_retry_old r x : getr s r = Some x -> fxC (c_fix c) = false -> r_mu x = None -> N.ltb 0 (r_ref x) = true ->
    rule (CE1 r) 0 s CSel (Some (RTSleep r retry_ms)) []
| R_CE1_lock_old r x : getr s r = Some x -> fxC (c_fix c) = false -> r_mu x = None -> N.ltb 0 (r_ref x) = false ->
    rule (CE1 r) 0 (setr s r (r_set_mu x (Some t))) (CE2 r) None []
| R_CE2_retry r x : getr s r = Some x -> fxC (c_fix c) = true -> r_mu x = None -> N.ltb 0 (r_ref x) = true ->
    rule (CE2 r) 0 (s_lmu s None) CSel (Some (RTSleep r retry_ms)) []
| R_CE2_stale r x : getr s r = Some x -> fxC (c_fix c) = true -> r_mu x = None -> N.ltb 0 (r_ref x) = false ->
    fxA (c_fix c) = true -> stale s r x = true ->
    rule (CE2 r) 0 (s_lmu s None) CSel None []
| R_CE2_unload r x : getr s r = Some x -> fxC (c_fix c) = true -> r_mu x = None -> N.ltb 0 (r_ref x) = false ->
    fxA (c_fix c) && stale s r x = false ->
    rule (CE2 r) 0 (setr s r (r_set_mu x (Some t))) (CEV r) None []
| R_CE2_stale_old r x : getr s r = Some x -> fxC (c_fix c) = false -> lmu s = None ->
    fxA (c_fix c) = true -> stale s r x = true ->
    rule (CE2 r) 0 (setr s r (r_set_mu x None)) CSel None []
| R_CE2_unload_old r x : getr s r = Some x -> fxC (c_fix c) = false -> lmu s = None ->
    fxA (c_fix c) && stale s r x = false ->
    rule (CE2 r) 0 (s_lmu s (Some t)) (CEV r) None []
| R_CEV_closed r x : getr s r = Some x -> r_closed x = true ->
    rule (CEV r) 0
         (s_lmu (s_loaded (setr s r (r_set_mu (r_set_tm x TNone) None)) (remove_key (loaded s) (r_model x))) None)
         CEFin None []
| R_CEV_close r x : getr s r = Some x -> r_closed x = false ->
    rule (CEV r) 0
         (s_lmu (s_loaded (setr s r (r_close (r_set_mu (r_set_tm x TNone) None))) (remove_key (loaded s) (r_model x))) None)
         CEFin None [EClose r]
| R_CEFin : rule CEFin 0 s CETok None []
| R_CETok : rule CETok 0 (s_unlq s (S (unlq s))) CSel None []
| R_LWWait_ok q r x : getr s r = Some x ->
    rule (LWWait q r) 0 (setr s r (r_set_loading x false)) (LWOk q r) (Some (FWDone q)) [EWait r true]
| R_LWWait_err q r x : getr s r = Some x ->
    rule (LWWait q r) 1 (setr s r (r_set_ref x (pred_wrap (r_ref x)))) (LWErr q r) None [EWait r false]
| R_LWErr q r y : getq s q = Some y ->
    rule (LWErr q r) 0 (setq s q (q_add_reply y RErr)) (LWExp r) None [EReply q RErr]
| R_LWExp r x : getr s r = Some x ->
    rule (LWExp r) 0 (setr (s_expq s (expq s ++ [r])) r (r_set_mu x None)) TDone None []
| R_LWOk q r x y : getr s r = Some x -> getq s q = Some y ->
    rule (LWOk q r) 0 (setr (setq s q (q_add_reply y (ROk r (r_closed x)))) r (r_set_mu x None)) TDone None
         [EReply q (ROk r (r_closed x))]
| R_FWDone q y : getq s q = Some y -> q_cancelled y = true -> rule (FWDone q) 0 s (FWSend q) None []
| R_FWSend q : rule (FWSend q) 0 (s_finq s (finq s ++ [q])) TDone None []
| R_TMLk r x : getr s r = Some x -> r_mu x = None ->
    rule (TMLk r) 0 (setr s r (r_set_mu (r_set_tm x TNone) (Some t))) (TMSend r) None []
| R_TMSend r x : getr s r = Some x ->
    rule (TMSend r) 0 (setr (s_expq s (expq s ++ [r])) r (r_set_mu x None)) TDone None []
| R_RTSend r : rule (RTSend r) 0 (s_expq s (expq s ++ [r])) TDone None []
| R_RSSend q : Nat.ltb (length (pendq s)) (c_maxq c) = true ->
    rule (RSSend q) 0 (s_pendq s (pendq s ++ [q])) TDone None []
| R_AXLm_gone m : lmu s = None -> lookup (loaded s) m = None -> rule (AXLm m) 0 s TDone None []
| R_AXLm_found m r : lmu s = None -> lookup (loaded s) m = Some r ->
    rule (AXLm m) 0 (s_lmu s (Some t)) (AXLr r) None []
| R_AXLr_idle r x : getr s r = Some x -> r_mu x = None -> N.eqb (r_ref x) 0 = true ->
    rule (AXLr r) 0 (setr s r (r_set_mu (expire_now x) (Some t))) (AXSend r) None []
| R_AXLr_busy r x : getr s r = Some x -> r_mu x = None -> N.eqb (r_ref x) 0 = false ->
    rule (AXLr r) 0 (s_lmu (setr s r (expire_now x)) None) TDone None []
| R_AXSend r x : getr s r = Some x ->
    rule (AXSend r) 0 (s_lmu (setr (s_expq s (expq s ++ [r])) r (r_set_mu x None)) None) TDone None []
| R_TEntry_retry r d : rule (TEntry (RTSleep r d)) 0 s (RTSleep r (now s + d)%Z) None []
| R_TEntry_requeue q d : rule (TEntry (RSSleep q d)) 0 s (RSSleep q (now s + d)%Z) None []
| R_TEntry p : (forall r d, p <> RTSleep r d) -> (forall q d, p <> RSSleep q d) -> rule (TEntry p) 0 s p None [].

End Rule.

Ltac break_hyp H :=
  match type of H with
  | context [match ?x with _ => _ end] =>
      match x with
      | context [match _ with _ => _ end] => fail 1
      | _ => let E := fresh "E" in destruct x eqn:E
      end
  end.

(* split a hypothesis  run_pc ... = Some (s', e)  (after unfolding) into its branches *)
Ltac break_all H :=
  repeat (first [ discriminate H | break_hyp H ]); try discriminate H.

Lemma finish_stay s t p : nth_error (thr s) t = Some p -> finish s t p None = s.
Proof. intros H. unfold finish. rewrite (upd_same _ _ _ H). destruct s; reflexivity. Qed.

Theorem run_pc_rule {c s t p alt s' e} :
  run_pc c s t p alt = Some (s', e) ->
  exists s1 p' sp, rule c s t p alt s1 p' sp e /\ (nth_error (thr s) t = Some p -> s' = finish s1 t p' sp).
Proof.
  intros H.
  destruct p; unfold run_pc, guard, decide, do_reply in H; break_all H; inv H;
  repeat match goal with
  | E : _ && _ = true |- _ => apply andb_prop in E; destruct E
  | E : Z.eqb ?a _ = true |- _ => is_var a; apply Z.eqb_eq in E; subst a
  | E : Z.eqb (_ / _) _ = true |- _ => apply Z.eqb_eq in E
  | E : Z.leb 0 _ = true |- _ => apply Z.leb_le in E
  | E : is_none ?o = true |- _ => destruct o eqn:?; [discriminate E|clear E]
  end;
  try (do 3 eexists; split;
       [ first [ solve [apply R_TEntry; intros; discriminate] | solve [econstructor; eassumption] ]
       | intros Ht; first [ reflexivity
               | symmetry; apply finish_stay; assumption
               | unfold use_runner, new_runner, set_max; repeat match goal with E : _ = _ |- _ => rewrite E end; reflexivity ] ]).
Qed.

(* the goroutines a rule creates: sleepers, finish waiters, and load()'s goroutine when the pending loop registers its runner *)
Definition spawns (p x : pc) : Prop :=
  match x with
  | RSSleep _ _ | RTSleep _ _ | FWDone _ => True
  | LWWait q r => p = PLd2 q r
  | _ => False
  end.

Lemma rule_thr {c s t p alt s1 p' sp e} : rule c s t p alt s1 p' sp e -> thr s1 = thr s.
Proof. destruct 1; reflexivity. Qed.

Lemma finish_thr s1 t p' sp : thr (finish s1 t p' sp) = upd (thr s1 ++ spl sp) t p'.
Proof. destruct sp; simpl; [|rewrite app_nil_r]; reflexivity. Qed.

Lemma rule_thr_cases {c s t p alt s1 p' sp e t' q} :
  rule c s t p alt s1 p' sp e -> nth_error (thr (finish s1 t p' sp)) t' = Some q ->
  (t' <> t /\ nth_error (thr s) t' = Some q) \/ (t' = t /\ q = p') \/ (exists x, q = TEntry x /\ spawns p x).
Proof.
  intros R H. rewrite finish_thr, (rule_thr R) in H. apply nth_error_upd in H.
  destruct H as [(-> & -> & _)|[N H]]; auto. destruct sp as [x|]; simpl in H.
  - apply nth_error_snoc in H. destruct H as [H|[_ ->]]; auto. right; right. exists x. split; auto.
    inversion R; subst; simpl; auto.
  - rewrite app_nil_r in H. auto.
Qed.

Lemma rule_cnt {c s t p alt s1 p' sp e} (f : pc -> nat) :
  rule c s t p alt s1 p' sp e -> nth_error (thr s) t = Some p ->
  f p <= cnt f (thr s) /\ cnt f (thr (finish s1 t p' sp)) + f p = cnt f (thr s) + cnt f (spl sp) + f p'.
Proof.
  intros R H. split; [exact (cnt_ge f _ _ _ H)|]. rewrite finish_thr, (rule_thr R).
  rewrite (cnt_upd f (thr s ++ spl sp) t p p'), cnt_app; [lia|]. rewrite nth_error_app1; auto.
  apply nth_error_Some. congruence.
Qed.

Lemma rule_Forall {c s t p alt s1 p' sp e} (P : pc -> Prop) :
  rule c s t p alt s1 p' sp e -> Forall P (thr s) -> P p' -> Forall P (spl sp) -> Forall P (thr (finish s1 t p' sp)).
Proof.
  intros R F Hp Hs. rewrite finish_thr, (rule_thr R). apply Forall_upd; [apply Forall_app; split|]; assumption.
Qed.

(* which rules send a success reply, and which one starts a server *)
Lemma rule_reply_ok {c s t p alt s1 p' sp e q r cl} :
  rule c s t p alt s1 p' sp e -> In (EReply q (ROk r cl)) e ->
  (p = PUseSend q r \/ p = LWOk q r) /\ exists x, getr s r = Some x /\ cl = r_closed x.
Proof.
  intros R Hin. destruct R; simpl in Hin; try tauto; destruct Hin as [Hin|[]]; try discriminate Hin; inv Hin; eauto.
Qed.

Lemma rule_new {c s t p alt s1 p' sp e m res} :
  rule c s t p alt s1 p' sp e -> In (ENew m res) e -> exists q y, p = PNs q /\ getq s q = Some y /\ m = q_model y.
Proof.
  intros R Hin. destruct R; simpl in Hin; try tauto; destruct Hin as [Hin|[]]; try discriminate Hin; inv Hin; eauto.
Qed.

Inductive stepR (c : config) (s : state) : label -> state -> list event -> Prop :=
| S_submit sp : Nat.ltb (length (pendq s)) (c_maxq c) = true ->
    stepR c s (LSubmit sp)
          (s_pendq (s_reqs s (reqs s ++ [mkQ sp false [] None false])) (pendq s ++ [length (reqs s)])) []
| S_busy sp : Nat.ltb (length (pendq s)) (c_maxq c) = false ->
    stepR c s (LSubmit sp) (s_reqs s (reqs s ++ [mkQ sp false [RBusy] None false])) [EReply (length (reqs s)) RBusy]
| S_cancel q y : getq s q = Some y -> q_cancelled y = false -> stepR c s (LCancel q) (setq s q (q_cancel y)) []
| S_expire m : stepR c s (LExpire m) (spawn s (AXLm m)) []
| S_tick d : (0 < d)%Z -> stepR c s (LTick d) (tick s d) []
| S_run t alt p s1 p' sp e : nth_error (thr s) t = Some p -> rule c s t p alt s1 p' sp e ->
    stepR c s (LRun t alt) (finish s1 t p' sp) e.

Theorem step_stepR c s l s' e : step c s l = Some (s', e) -> stepR c s l s' e.
Proof.
  intros H. destruct l as [sp|q|m|d|t alt]; simpl in H.
  - destruct (Nat.ltb (length (pendq s)) (c_maxq c)) eqn:E; inv H; constructor; auto.
  - destruct (getq s q) as [y|] eqn:E; [|discriminate]. destruct (q_cancelled y) eqn:C; inv H. econstructor; eauto.
  - inv H. constructor.
  - destruct (Z.ltb 0 d) eqn:E; inv H. constructor. apply Z.ltb_lt. exact E.
  - destruct (nth_error (thr s) t) as [p|] eqn:E; [|discriminate].
    destruct (run_pc_rule H) as (s1 & p' & sp & R & Es). rewrite (Es E). econstructor; eauto.
Qed.

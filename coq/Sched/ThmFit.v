(* Sched/ThmFit.v - fit before start.  newServerFn is called by exactly one rule (PNs, the only rule that emits ENew).
   The pending loop arrives at that rule only from a state in which nothing is registered, or through an alternative
   in which the placement oracle - the abstraction of pickBestFullFitByLibrary / PredictServerFit on the free memory
   left by updateFreeSpace - answered "fits".  No goroutine is ever created at that program counter. *)
From Coq Require Import List ZArith NArith Bool Lia Arith.
From V Require Import Sched.Lts Sched.Tac Sched.Rule Sched.Reach Sched.InvStruct.
Import ListNotations.

(* the alternative taken by the pending loop at program counter p is "the oracle answered fits" (or nothing is loaded) *)
Definition fit_answer (s : state) (p : pc) (alt : Z) : Prop :=
  match p with
  | PLk q => loaded s = [] \/
             (alt = 0%Z /\ exists x, getq s q = Some x /\ k_ngpu (sp_key (q_spec x)) = 0%Z)   (* CPU request: system memory *)
  | PUfs q ld => alt = 0%Z                        (* loaded became empty since the lookup; oracle alternative 0 = fits *)
  | PUfsR q ld rest => (alt / 4 = 0)%Z            (* last runner visited by updateFreeSpace, decision 0 = fits *)
  | _ => False
  end.

Lemma fit_before_start_pc c s t p alt s' ev q :
  nth_error (thr s) t = Some p -> p <> TEntry (PNs q) -> run_pc c s t p alt = Some (s', ev) ->
  nth_error (thr s') t = Some (PNs q) -> fit_answer s p alt.
Proof.
  intros Ht Hp H H1. destruct (run_pc_rule H) as (s1 & p' & sp & R & Es). rewrite (Es Ht) in H1.
  destruct (rule_thr_cases R H1) as [[N _]|[[_ E]|(x & X & _)]]; try congruence. subst p'.
  (* the rules that lead to PNs *)
  inversion R; subst; simpl; auto.
  - left. destruct (loaded s); [reflexivity|discriminate].
  - right. split; auto. eexists; split; [eassumption|apply Z.eqb_eq; assumption].
Qed.

(* goroutines are created only at program counters outside the pending loop (the pending loop itself starts at PSel) *)
Definition ent_ok (p : pc) : Prop :=
  match p with
  | TEntry PSel | TEntry CSel | TEntry (LWWait _ _) | TEntry (FWDone _) | TEntry (TMLk _)
  | TEntry (RTSleep _ _) | TEntry (RSSleep _ _) | TEntry (AXLm _) => True
  | TEntry _ => False
  | _ => True
  end.
Definition I_ent (s : state) : Prop := Forall ent_ok (thr s).

Lemma wake_ent_ok t' p : ent_ok p -> ent_ok (wake t' p).
Proof. destruct p; simpl; auto; destruct (Z.leb _ t'); simpl; auto. Qed.

Lemma I_ent_Reach c s ev : Reach c s ev -> I_ent s.
Proof.
  revert s ev. apply Reach_ind_inv.
  { intros m. repeat constructor. }
  intros s ev l s' e _.
  unfold I_ent. intros I H. apply step_stepR in H.
  destruct H as [sp _|sp _|q y _ _|m|d _|t alt p s1 p1 o e0 Ht R]; auto.
  - apply Forall_snoc; simpl; auto.
  - rewrite tick_thr. apply Forall_app. split.
    + rewrite Forall_forall in *. intros p Hin. apply in_map_iff in Hin. destruct Hin as (p0 & <- & Hin). apply wake_ent_ok; auto.
    + rewrite Forall_forall. intros p Hin. apply fire_pcs_In in Hin. destruct Hin as (r & ->). simpl. auto.
  - pose proof (Forall_nth_error _ _ _ _ I Ht) as Ip.
    apply (rule_Forall _ R I); [|destruct R; repeat constructor].
    destruct R; simpl in *; auto. destruct p; simpl in *; tauto.
Qed.

Theorem fit_before_start c s ev0 t alt s' ev q p :
  Reach c s ev0 -> nth_error (thr s) t = Some p -> step c s (LRun t alt) = Some (s', ev) ->
  nth_error (thr s') t = Some (PNs q) -> fit_answer s p alt.
Proof.
  intros R Ht H H1. pose proof (Forall_nth_error _ _ _ _ (I_ent_Reach _ _ _ R) Ht) as Ie.
  unfold step in H. rewrite Ht in H. eapply fit_before_start_pc; eauto.
  intros ->. simpl in Ie. exact Ie.
Qed.

Lemma new_only_at_PNs c s t p alt s' ev m res :
  run_pc c s t p alt = Some (s', ev) -> In (ENew m res) ev -> exists q, p = PNs q.
Proof.
  intros H Hin. destruct (run_pc_rule H) as (s1 & p' & sp & R & _).
  destruct (rule_new R Hin) as (q & _ & -> & _). eauto.
Qed.

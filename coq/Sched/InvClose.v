(* Sched/InvClose.v - a runner is shut down at most once (C01, second clause). *)
From Coq Require Import List ZArith NArith Bool Lia Arith.
From V Require Import Sched.Lts Sched.Tac Sched.Rule Sched.Reach.
Import ListNotations.

Definition closes_ok (x : runner) : Prop := r_closes x = if r_closed x then 1 else 0.

Definition I_closes (s : state) : Prop := Forall closes_ok (runners s).

Lemma I_closes_Reach c s ev : Reach c s ev -> I_closes s.
Proof.
  revert s ev. apply Reach_ind_inv.
  { intros m. constructor. }
  intros s ev l s' e _.
  unfold I_closes. intros I H. apply step_stepR in H.
  destruct H as [sp _|sp _|q y _ _|m|d _|t alt p s1 p' o e Ht R]; auto.
  - rewrite tick_runners. apply fire_Forall; auto.
  - (* every field update except [r_close] keeps the two fields; [r_close] sets one and counts the other up from 0 *)
    destruct R; try exact I; simpl;
    repeat match goal with E : getr _ _ = Some ?x |- _ => apply (Forall_nth_error _ _ _ _ I) in E end;
    first [apply Forall_upd | apply Forall_snoc]; try exact I; unfold closes_ok in *; simpl; auto.
    match goal with E : r_closed _ = false |- _ => rewrite E in *; auto end.
Qed.

Fixpoint n_close (r : nat) (ev : list event) : nat :=
  match ev with
  | [] => 0
  | EClose r' :: tl => (if Nat.eqb r r' then 1 else 0) + n_close r tl
  | _ :: tl => n_close r tl
  end.

Lemma n_close_app r a b : n_close r (a ++ b) = n_close r a + n_close r b.
Proof. induction a as [|x tl IH]; simpl; auto. destruct x; auto. rewrite IH. lia. Qed.

Definition I_hist (s : state) (ev : list event) : Prop := forall r, n_close r ev = getd r_closes (runners s) r.

Lemma I_hist_Reach c s ev : Reach c s ev -> I_hist s ev.
Proof.
  revert s ev. apply Reach_ind_inv.
  - intros m r. unfold getd. simpl. destruct r; reflexivity.
  - intros s ev l s' e _. unfold I_hist. intros I H r. rewrite n_close_app, I. clear I. apply step_stepR in H.
    destruct H as [sp _|sp _|q y _ _|m|d _|t alt p s1 p' o e Ht R]; simpl; auto.
    + rewrite tick_runners, fire_getd by reflexivity. lia.
    + (* only CEV_close touches [r_closes], and it emits the Close event *)
      destruct R; simpl; auto; unfold getr in *;
      first [ erewrite getd_upd_same by (eauto; reflexivity) | rewrite getd_snoc | erewrite getd_upd by eauto ];
      simpl; eqb_cases; simpl; rewrite ?getd_none by lia; unfold getd; use_nth; lia.
Qed.

(* C01, second clause: in the history of any run every runner is shut down at most once *)
Lemma close_once c s ev r : Reach c s ev -> n_close r ev <= 1.
Proof.
  intros R. rewrite (I_hist_Reach _ _ _ R r). pose proof (I_closes_Reach _ _ _ R) as I.
  unfold getd. destruct (nth_error (runners s) r) as [x|] eqn:E; [|lia].
  apply (Forall_nth_error _ _ _ _ I) in E. unfold closes_ok in E. rewrite E. destruct (r_closed x); lia.
Qed.

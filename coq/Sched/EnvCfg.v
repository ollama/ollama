(* Sched/EnvCfg.v - how the scheduler's limits are read from the environment (envconfig/config.go): strip (Var:
   surrounding white space, then surrounding quote characters), parse, default.  Strings are lists of byte values.
   Readers: Uint / Uint64 (OLLAMA_MAX_LOADED_MODELS, OLLAMA_NUM_PARALLEL, OLLAMA_MAX_QUEUE, OLLAMA_CONTEXT_LENGTH,
   OLLAMA_GPU_OVERHEAD), Bool (OLLAMA_SCHED_SPREAD, OLLAMA_FLASH_ATTENTION), KeepAlive (OLLAMA_KEEP_ALIVE; durations
   restricted to one optionally signed integer with at most one unit).  Theorem: a number spelled with padding and
   quotes around it means the same as the plain number.  The real readers are compared with these functions on
   generated spellings by the environment stage of the scheduler harness. *)
From Coq Require Import List Bool Arith NArith ZArith Lia.
Import ListNotations.

Definition str := list nat.

Definition is_space (c : nat) : bool :=
  Nat.eqb c 32 || Nat.eqb c 9 || Nat.eqb c 10 || Nat.eqb c 11 || Nat.eqb c 12 || Nat.eqb c 13.
Definition is_quote (c : nat) : bool := Nat.eqb c 34 || Nat.eqb c 39.
Definition is_digit (c : nat) : bool := Nat.leb 48 c && Nat.leb c 57.

Fixpoint dropwhile (p : nat -> bool) (l : str) : str :=
  match l with [] => [] | c :: tl => if p c then dropwhile p tl else l end.
Definition trim (p : nat -> bool) (l : str) : str := rev (dropwhile p (rev (dropwhile p l))).

(* envconfig.Var *)
Definition var (l : str) : str := trim is_quote (trim is_space l).

Fixpoint digits_val (acc : N) (l : str) : option N :=
  match l with
  | [] => Some acc
  | c :: tl => if is_digit c then digits_val (acc * 10 + N.of_nat (c - 48))%N tl else None
  end.

Definition max_u64 : N := 18446744073709551615%N.

(* strconv.ParseUint(s, 10, 64) *)
Definition parse_uint (l : str) : option N :=
  match l with
  | [] => None
  | _ => match digits_val 0%N l with Some n => if N.leb n max_u64 then Some n else None | None => None end
  end.

(* envconfig.Uint / Uint64 *)
Definition read_uint (def : N) (l : str) : N :=
  match var l with
  | [] => def
  | s => match parse_uint s with Some n => n | None => def end
  end.

Definition str_eqb (a b : str) : bool := if list_eq_dec Nat.eq_dec a b then true else false.

(* strconv.ParseBool *)
Definition parse_bool (l : str) : option bool :=
  if existsb (str_eqb l) [[49]; [116]; [84]; [84;82;85;69]; [116;114;117;101]; [84;114;117;101]] then Some true
  else if existsb (str_eqb l) [[48]; [102]; [70]; [70;65;76;83;69]; [102;97;108;115;101]; [70;97;108;115;101]] then Some false
  else None.

(* envconfig.Bool *)
Definition read_bool (l : str) : bool :=
  match var l with
  | [] => false
  | s => match parse_bool s with Some b => b | None => true end
  end.

(* one optionally signed integer, optionally followed by one unit; nanoseconds *)
Definition unit_ns (u : str) : option Z :=
  if str_eqb u [110;115] then Some 1%Z
  else if str_eqb u [117;115] then Some 1000%Z
  else if str_eqb u [109;115] then Some 1000000%Z
  else if str_eqb u [115] then Some 1000000000%Z
  else if str_eqb u [109] then Some 60000000000%Z
  else if str_eqb u [104] then Some 3600000000000%Z
  else None.

Fixpoint span_digits (l : str) : str * str :=
  match l with
  | c :: tl => if is_digit c then let (d, r) := span_digits tl in (c :: d, r) else ([], l)
  | [] => ([], [])
  end.

Definition max_i64 : Z := 9223372036854775807%Z.

Definition signed (l : str) : Z * str :=
  match l with
  | 45 :: tl => ((-1)%Z, tl)
  | 43 :: tl => (1%Z, tl)
  | _ => (1%Z, l)
  end.

(* envconfig.KeepAlive on this fragment: time.ParseDuration, else strconv.ParseInt seconds, else the default; a
   negative duration means "for ever" *)
Definition read_keep_alive (l : str) : Z :=
  let def := 300000000000%Z in
  let v :=
    match var l with
    | [] => def
    | s =>
        let (sg, body) := signed s in
        let (d, u) := span_digits body in
        match d, digits_val 0%N d with
        | _ :: _, Some n =>
            match u with
            | [] => if N.eqb n 0 then 0%Z else (sg * Z.of_N n * 1000000000)%Z       (* "0" is a duration; else seconds *)
            | _ => match unit_ns u with Some k => (sg * Z.of_N n * k)%Z | None => def end
            end
        | _, _ => def
        end
    end in
  if Z.ltb v 0 then max_i64 else v.

Lemma dropwhile_all p l : forallb p l = true -> dropwhile p l = [].
Proof. induction l as [|c tl IH]; simpl; auto. intros H. apply andb_prop in H. destruct H as [-> H]. auto. Qed.

Lemma dropwhile_app_all p a b : forallb p a = true -> dropwhile p (a ++ b) = dropwhile p b.
Proof. induction a as [|c tl IH]; simpl; auto. intros H. apply andb_prop in H. destruct H as [-> H]. auto. Qed.

Lemma dropwhile_none p l : forallb (fun c => negb (p c)) l = true -> dropwhile p l = l.
Proof. destruct l as [|c tl]; simpl; auto. intros H. apply andb_prop in H. destruct H as [H _]. apply negb_true_iff in H. rewrite H. reflexivity. Qed.

Lemma forallb_rev (p : nat -> bool) l : forallb p (rev l) = forallb p l.
Proof.
  induction l as [|c tl IH]; simpl; auto. rewrite forallb_app, IH. simpl. rewrite andb_true_r. apply andb_comm.
Qed.

Lemma trim_pad p a m b :
  forallb p a = true -> forallb p b = true -> forallb (fun c => negb (p c)) m = true -> trim p (a ++ m ++ b) = m.
Proof.
  intros Ha Hb Hm. unfold trim. rewrite dropwhile_app_all by exact Ha.
  destruct m as [|x m'].
  - simpl. rewrite (dropwhile_all p b Hb). reflexivity.
  - assert (E : dropwhile p ((x :: m') ++ b) = (x :: m') ++ b).
    { simpl in Hm. apply andb_prop in Hm. destruct Hm as [Hx _]. apply negb_true_iff in Hx. simpl. rewrite Hx. reflexivity. }
    rewrite E, rev_app_distr. rewrite dropwhile_app_all by (rewrite forallb_rev; exact Hb).
    rewrite dropwhile_none by (rewrite forallb_rev; exact Hm). apply rev_involutive.
Qed.

Lemma digit_not_space c : is_digit c = true -> is_space c = false /\ is_quote c = false.
Proof.
  unfold is_digit, is_space, is_quote. intros H. apply andb_prop in H. destruct H as [A B].
  apply Nat.leb_le in A. apply Nat.leb_le in B.
  assert (N : forall k, (k < 48 \/ 57 < k) -> Nat.eqb c k = false) by (intros k Hk; apply Nat.eqb_neq; lia).
  rewrite !N by lia. auto.
Qed.

Lemma quote_not_space c : is_quote c = true -> is_space c = false.
Proof.
  unfold is_quote, is_space. intros H. apply orb_prop in H.
  destruct H as [H|H]; apply Nat.eqb_eq in H; subst; reflexivity.
Qed.

Theorem var_spelling ws1 q1 d q2 ws2 :
  forallb is_space ws1 = true -> forallb is_space ws2 = true ->
  forallb is_quote q1 = true -> forallb is_quote q2 = true -> forallb is_digit d = true ->
  var (ws1 ++ q1 ++ d ++ q2 ++ ws2) = d.
Proof.
  intros W1 W2 Q1 Q2 D. unfold var.
  replace (ws1 ++ q1 ++ d ++ q2 ++ ws2) with (ws1 ++ (q1 ++ d ++ q2) ++ ws2) by (rewrite <- !app_assoc; reflexivity).
  rewrite trim_pad; auto.
  - apply trim_pad; auto. rewrite forallb_forall in *. intros c Hc. destruct (digit_not_space c (D c Hc)) as [_ ->]. reflexivity.
  - rewrite !forallb_app. rewrite forallb_forall in *.
    assert (forallb (fun c => negb (is_space c)) q1 = true) by (apply forallb_forall; intros c Hc; rewrite (quote_not_space c (Q1 c Hc)); reflexivity).
    assert (forallb (fun c => negb (is_space c)) q2 = true) by (apply forallb_forall; intros c Hc; rewrite (quote_not_space c (Q2 c Hc)); reflexivity).
    assert (forallb (fun c => negb (is_space c)) d = true) by (apply forallb_forall; intros c Hc; destruct (digit_not_space c (D c Hc)) as [-> _]; reflexivity).
    repeat (apply andb_true_intro; split); auto.
Qed.

Theorem read_uint_spelling def ws1 q1 d q2 ws2 :
  forallb is_space ws1 = true -> forallb is_space ws2 = true ->
  forallb is_quote q1 = true -> forallb is_quote q2 = true -> forallb is_digit d = true ->
  read_uint def (ws1 ++ q1 ++ d ++ q2 ++ ws2) = read_uint def d.
Proof.
  intros W1 W2 Q1 Q2 D. unfold read_uint. rewrite (var_spelling ws1 q1 d q2 ws2) by auto.
  pose proof (var_spelling [] [] d [] [] eq_refl eq_refl eq_refl eq_refl D) as E. simpl in E. rewrite app_nil_r in E. rewrite E. reflexivity.
Qed.

Example read_uint_examples :
  read_uint 0 [34; 32; 49; 32; 34] = 0%N /\        (* "\" 1 \"": the quotes are not outermost after trimming spaces only once: not a number *)
  read_uint 0 [32; 34; 49; 34; 32] = 1%N /\        (* " \"1\" " *)
  read_uint 0 [39; 48; 49; 39] = 1%N /\            (* '01' *)
  read_uint 7 [43; 49] = 7%N /\                     (* +1 : not accepted by ParseUint, the default *)
  read_uint 512 [] = 512%N.
Proof. vm_compute. repeat split. Qed.

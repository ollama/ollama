(* Sched/InvLoad.v - a runner is handed out only after its load has completed.  load()'s goroutine holds refMu(r)
   from the registration of r until WaitUntilRunning has returned; needsReload (rule PNr, under refMu(r)) sends a
   runner that is still marked loading - its load was abandoned - to the expiry path.  Hence every thread that is on
   its way to a success reply with r (after needsReload's check, or load()'s goroutine after a successful wait) refers
   to a runner whose [loading] flag is false, and the flag never becomes true again.  (Any configuration.) *)
From Coq Require Import List ZArith NArith Bool Lia Arith.
From V Require Import Sched.Lts Sched.Tac Sched.Rule Sched.Reach Sched.InvLock Sched.InvStruct.
Import ListNotations.

Definition rloading (s : state) (r : nat) : bool := getf r_loading true (runners s) r.

(* program counters between "the runner is known to be loaded" and the success reply *)
Fixpoint ldpc (p : pc) : option nat :=
  match p with PPing _ r | PUse _ r | PUseSend _ r | LWOk _ r => Some r | TEntry p' => ldpc p' | _ => None end.

Definition I_ld (s : state) : Prop :=
  forall t p r, nth_error (thr s) t = Some p -> ldpc p = Some r -> rloading s r = false.

Lemma tick_rloading s d r : rloading (tick s d) r = rloading s r.
Proof. unfold rloading. rewrite tick_runners. apply fire_getf. reflexivity. Qed.

Lemma rloading_range s r : rloading s r = false -> r < length (runners s).
Proof.
  unfold rloading, getf. destruct (nth_error (runners s) r) eqn:E; [|discriminate]. intros _. apply nth_error_Some. congruence.
Qed.

Lemma rloading_get s r x : getr s r = Some x -> rloading s r = r_loading x.
Proof. unfold rloading, getr. intros E. erewrite getf_some; eauto. Qed.

Lemma loading_mono c s l s' e r : step c s l = Some (s', e) -> rloading s r = false -> rloading s' r = false.
Proof.
  intros H A. pose proof (rloading_range _ _ A) as Rg. apply step_stepR in H.
  destruct H as [sp _|sp _|q y _ _|m|d _|t alt p s1 p' o e _ R]; auto.
  - rewrite tick_rloading. exact A.
  - revert A.
    destruct R; auto; unfold rloading, getr in *; simpl; acc_norm; eqb_cases; auto; lia.
Qed.

Lemma I_ld_Reach c s ev : Reach c s ev -> I_ld s.
Proof.
  revert s ev. apply Reach_ind_inv.
  { intros m t p r Hn Hp. simpl in Hn. destruct t as [|[|t]]; simpl in Hn; try (inv Hn; discriminate Hp). destruct t; discriminate Hn. }
  intros s ev l s' e _.
  intros A H t' p' r' Hn Hp. pose proof (fun r => loading_mono c s l s' e r H) as Mono. apply step_stepR in H.
  assert (Old : forall p, nth_error (thr s) t' = Some p -> ldpc p = Some r' -> rloading s' r' = false)
    by (intros p Hn' Hp'; exact (Mono _ (A _ _ _ Hn' Hp'))).
  destruct H as [sp _|sp _|q y _ _|m|d _|t alt p s1 p1 o e Ht R]; try (exact (Old _ Hn Hp)).
  - apply nth_error_snoc in Hn. destruct Hn as [Hn|[-> ->]]; [exact (Old _ Hn Hp)|discriminate Hp].
  - destruct (tick_thr_obs Hn Hp) as (p0 & Hn0 & Hp0); try reflexivity. exact (Old _ Hn0 Hp0).
  - destruct (rule_thr_cases R Hn) as [[_ Hn']|[[-> ->]|(x & -> & Sx)]]; [exact (Old _ Hn' Hp)| |].
    + (* the stepping thread: it was already past the check, or passes it with this rule *)
      destruct R; try discriminate Hp; try (apply (Old _ Ht); exact Hp).
      * (* needsReload saw loading = false under refMu(r) *)
        inv Hp. apply orb_false_elim in H2. destruct H2 as [_ H2]. apply negb_false_iff, andb_prop in H2.
        destruct H2 as [H2 _]. apply negb_true_iff in H2. apply Mono. rewrite (rloading_get _ _ _ H). exact H2.
      * (* WaitUntilRunning returned nil *)
        inv Hp. unfold rloading, getr in *. simpl. erewrite getf_upd by eassumption. rewrite Nat.eqb_refl. reflexivity.
    + destruct x; try contradiction; discriminate Hp.
Qed.

Theorem no_grant_loading c s ev l s' e q r cl :
  Reach c s ev -> step c s l = Some (s', e) -> In (EReply q (ROk r cl)) e -> rloading s r = false.
Proof.
  intros R H Hin. pose proof (I_ld_Reach _ _ _ R) as A. apply step_stepR in H.
  destruct H as [sp _|sp _|q0 y _ _|m|d _|t alt p s1 p1 o e Ht Ru]; simpl in Hin; try tauto.
  - destruct Hin as [Hin|[]]. discriminate Hin.
  - destruct (rule_reply_ok Ru Hin) as [[->| ->] _]; exact (A _ _ _ Ht eq_refl).
Qed.

Lemma rloading_false s r : rloading s r = false -> exists x, getr s r = Some x /\ r_loading x = false.
Proof. unfold rloading, getf, getr. destruct (nth_error (runners s) r); intros H; try discriminate. eauto. Qed.

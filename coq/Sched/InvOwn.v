(* Sched/InvOwn.v - every request is owned by at most one place (pending queue, a scheduler thread that has not
   answered it yet) and owned + answered <= 1: a request receives at most one reply (C02, safety clause). *)
From Coq Require Import List ZArith NArith Bool Lia Arith.
From V Require Import Sched.Lts Sched.Tac Sched.Rule Sched.Reach.
Import ListNotations.

Fixpoint ownf (q : nat) (p : pc) : nat :=
  match p with
  | PLk q' | PNr q' _ | PPing q' _ | PUse q' _ | PUseSend q' _ | PFv q' | PFvR q' _ _ | PExp q' _ | PExpSend q' _
  | PWait q' _ | PErr q' | PFlt q' | PUfs q' _ | PUfsR q' _ _ | PNs q' | PLd1 q' _ | PLd2 q' _
  | LWWait q' _ | LWErr q' _ | LWOk q' _ | RSSleep q' _ | RSSend q' => eqn q' q
  | TEntry p' => ownf q p'
  | _ => 0
  end.

Definition occ (q : nat) (l : list nat) : nat := cnt (fun x => eqn x q) l.
Definition nrep (s : state) (q : nat) : nat := getd (fun x => length (q_replies x)) (reqs s) q.
Definition owned (s : state) (q : nat) : nat := occ q (pendq s) + cnt (ownf q) (thr s).

Definition I_own (s : state) : Prop :=
  forall q, owned s q + nrep s q <= (if Nat.ltb q (length (reqs s)) then 1 else 0).

Lemma occ_snoc q l x : occ q (l ++ [x]) = occ q l + eqn x q.
Proof. unfold occ. rewrite cnt_snoc. reflexivity. Qed.

Lemma I_own_Reach c s ev : Reach c s ev -> I_own s.
Proof.
  revert s ev. apply Reach_ind_inv.
  { intros m q. unfold owned, nrep, occ, getd. simpl. destruct q; simpl; lia. }
  intros s ev l s' e _.
  unfold I_own, owned, nrep, occ. intros I H q. specialize (I q). apply step_stepR in H.
  destruct H as [sp L|sp L|q0 y Eq Cn|m|d _|t alt p s1 p' o e Ht R].
  1,2: simpl; sums I; simpl; eqb_cases; simpl in *; lia.
  - simpl. unfold getq in *. sums I. simpl.
    destruct (Nat.eqb q0 q) eqn:Q; [apply Nat.eqb_eq in Q; subst; unfold getd in I; rewrite Eq in I; simpl in *|]; eqb_cases; lia.
  - simpl; sums I; simpl; eqb_cases; lia.
  - rewrite tick_cnt, tick_reqs, tick_pendq by reflexivity. exact I.
  - (* a rule moves the ownership of a request between the queue and a thread, or answers it *)
    destruct (rule_cnt (ownf q) R Ht) as [_ C].
    destruct R; simpl in C |- *; unfold getq in *;
    repeat match goal with E : pendq s = _ |- _ => rewrite E in I; simpl in I end;
    rewrite ?cnt_snoc, ?upd_length; repeat (erewrite getd_upd by eassumption); simpl; rewrite ?app_length; simpl;
    try lia; eqb_cases; simpl in *; use_nth; simpl in *; lia.
Qed.

Fixpoint n_reply (q : nat) (ev : list event) : nat :=
  match ev with
  | [] => 0
  | EReply q' _ :: tl => eqn q' q + n_reply q tl
  | _ :: tl => n_reply q tl
  end.

Lemma n_reply_app q a b : n_reply q (a ++ b) = n_reply q a + n_reply q b.
Proof. induction a as [|x tl IH]; simpl; auto. destruct x; auto. rewrite IH. lia. Qed.

Definition I_rhist (s : state) (ev : list event) : Prop := forall q, n_reply q ev = nrep s q.

Lemma I_rhist_Reach c s ev : Reach c s ev -> I_rhist s ev.
Proof.
  revert s ev. apply Reach_ind_inv.
  { intros m q. unfold nrep, getd. simpl. destruct q; reflexivity. }
  intros s ev l s' e _.
  unfold I_rhist, nrep. intros I H q. rewrite n_reply_app, I. clear I. apply step_stepR in H.
  destruct H as [sp _|sp _|q0 y Eq _|m|d _|t alt p s1 p' o e Ht R]; simpl; try lia.
  1,2: rewrite getd_snoc; unfold eqn; eqb_cases; simpl; rewrite ?getd_none by lia; lia.
  - erewrite getd_upd by eassumption. unfold getq in Eq. eqb_cases; unfold getd; use_nth; simpl; lia.
  - rewrite tick_reqs. lia.
  - (* the rules that send a reply record it in the request *)
    destruct R; simpl; try lia; unfold getq in *; erewrite getd_upd by eassumption;
    eqb_cases; simpl; unfold getd; use_nth; rewrite ?app_length; simpl; lia.
Qed.

(* C02, safety clause: no request ever receives a second reply *)
Lemma at_most_one_reply c s ev q : Reach c s ev -> n_reply q ev <= 1.
Proof.
  intros R. rewrite (I_rhist_Reach _ _ _ R q). pose proof (I_own_Reach _ _ _ R q) as I.
  destruct (Nat.ltb q (length (reqs s))); lia.
Qed.

Lemma replies_length c s ev q x : Reach c s ev -> getq s q = Some x -> length (q_replies x) <= 1.
Proof.
  intros R E. pose proof (I_own_Reach _ _ _ R q) as I. unfold nrep, getd in I. unfold getq in E. rewrite E in I.
  destruct (Nat.ltb q (length (reqs s))); lia.
Qed.

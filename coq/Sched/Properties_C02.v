(* C02 - every runner request is answered exactly once; queue full => busy error at once; the scheduler drains.
   Theorems only. *)
From Coq Require Import List ZArith NArith Bool Lia Arith.
From V Require Import Sched.Lts Sched.Reach Sched.InvOwn Sched.InvLock Sched.Refute Sched.Dead Sched.InvRef Sched.Drain Sched.Quiesce Sched.InvLoad Sched.InvQueue Sched.Term Sched.Examples.
Import ListNotations.

(* A submit that finds the pending queue full is answered in the same step with the busy error, the request is
   never queued, and no scheduler thread is touched (nothing blocks); a submit that finds room is queued and
   produces no reply in that step.  Any state, any configuration. *)
Theorem C02_queue_full_not_blocking :
  forall c s sp, c_maxq c <= length (pendq s) ->
  step c s (LSubmit sp) =
    Some (s_reqs s (reqs s ++ [mkQ sp false [RBusy] None false]), [EReply (length (reqs s)) RBusy]).
Proof.
  intros c s sp H. unfold step. destruct (Nat.ltb (length (pendq s)) (c_maxq c)) eqn:E; auto.
  apply Nat.ltb_lt in E. lia.
Qed.
Print Assumptions C02_queue_full_not_blocking.

Theorem C02_queue_not_full_enqueues :
  forall c s sp, length (pendq s) < c_maxq c ->
  step c s (LSubmit sp) =
    Some (s_pendq (s_reqs s (reqs s ++ [mkQ sp false [] None false])) (pendq s ++ [length (reqs s)]), []).
Proof.
  intros c s sp H. unfold step. destruct (Nat.ltb (length (pendq s)) (c_maxq c)) eqn:E; auto.
  apply Nat.ltb_ge in E. lia.
Qed.
Print Assumptions C02_queue_not_full_enqueues.

Example C02_queue_full_nonvacuous :
  exists s ev, run (mkC 1 fixes_on 1) (init_m 1) [LSubmit (sp 0 None); LSubmit (sp 1 None)] = Some (s, ev)
               /\ ev = [EReply 1 RBusy] /\ pendq s = [0].
Proof. run_witness. repeat split; vm_compute; reflexivity. Qed.

(* In the event history of ANY run (any configuration, repaired or not, any interleaving) no request receives a
   second reply - neither two runners, nor two errors, nor a runner and an error. *)
Theorem C02_at_most_one_reply :
  forall c m ls s ev q, run c (init_m m) ls = Some (s, ev) -> n_reply q ev <= 1.
Proof. intros c m ls s ev q H. eapply at_most_one_reply. eapply run_Reach; eauto. Qed.
Print Assumptions C02_at_most_one_reply.

Example C02_at_most_one_reply_nonvacuous :
  exists s ev, run cfg_on (init_m 1) ex_load_unload = Some (s, ev) /\ n_reply 0 ev = 1.
Proof. run_witness. split; [vm_compute|]; reflexivity. Qed.

(* Repaired scheduler: in every reachable state in which some scheduler thread waits for a mutex (loadedMu or a
   runner's refMu), some scheduler thread can take a step: the chain "waits for loadedMu -> its holder waits for
   refMu(r) -> its holder" ends in a runnable thread, because a refMu of a registered runner is never held while
   waiting for loadedMu (one lock order), and the only refMu held while waiting for loadedMu belongs to a runner
   nobody else refers to yet.  No lock deadlock. *)
Theorem C02_no_lock_deadlock :
  forall c m ls s ev t, fixed c -> run c (init_m m) ls = Some (s, ev) -> waits_for_mutex c s t ->
  exists t' alt, step c s (LRun t' alt) <> None.
Proof. intros c m ls s ev t Hf H W. eapply no_lock_deadlock; eauto. eapply run_Reach; eauto. Qed.
Print Assumptions C02_no_lock_deadlock.

(* Over all configurations (the scheduler as found) the statement is false: processCompleted's expired branch
   takes refMu then loadedMu, expireRunner loadedMu then refMu (Sched/Refute.v, replayed from corpus/C02). *)
Definition C02_no_lock_deadlock_full : Prop := no_lock_deadlock_full.
Theorem C02_no_lock_deadlock_refuted : ~ C02_no_lock_deadlock_full.
Proof. exact no_lock_deadlock_refuted. Qed.
Print Assumptions C02_no_lock_deadlock_refuted.

Example C02_no_lock_deadlock_nonvacuous :
  (* in the repaired model the same schedule prefix leaves expireRunner waiting for refMu while the completed loop
     holds loadedMu and refMu and can run *)
  fixed cfg_on /\ exists s ev, run cfg_on (init_m 1) (firstn 22 w_deadlock ++ [LExpire 0; LRun 4 0%Z; LRun 1 0%Z; LRun 1 0%Z]) = Some (s, ev).
Proof. split. reflexivity. run_witness. vm_compute. reflexivity. Qed.

(* Drain clause.  [quiescent c s]: no scheduler thread can take a step (not even with a load / ping / newServer
   outcome); [settled s]: every request that holds a runner has been cancelled (= has finished) and no live runner
   has a keep-alive timer pending; [no_sleepers s]: no retry / re-queue goroutine is sleeping.
   For the repaired scheduler (pending queue of at least one slot): in every such reachable state nothing is
   registered as loaded, every runner that was started has been shut down, and every request that was not
   cancelled has exactly one reply.  "Provided loads in flight finish and the requests ahead complete" is the
   hypothesis [settled] + quiescence: a load in flight or an unfinished holder keeps a step enabled or a holder
   un-cancelled.  Rests on C02_no_lock_deadlock, refCount = holders (InvRef), "an idle registered runner always has a
   pending reason to expire", "a pending loop waiting for an unload gets its token", "an un-cancelled request is owned
   or answered" (InvProg), and a case analysis over the 46 program counters (Quiesce.stuck_or_waits). *)
Theorem C02_quiescent_complete :
  forall c m ls s ev, fixed c -> 1 <= c_maxq c -> run c (init_m m) ls = Some (s, ev) ->
  quiescent c s -> settled s -> no_sleepers s ->
  loaded s = [] /\
  (forall r x, getr s r = Some x -> r_closed x = true) /\
  (forall q x, getq s q = Some x -> q_cancelled x = false -> length (q_replies x) = 1).
Proof. intros c m ls s ev Hf Hq H. eapply quiescent_drained; eauto. eapply run_Reach; eauto. Qed.
Print Assumptions C02_quiescent_complete.

(* The same conclusion from the explicit description of the idle configuration (both loops at their select with
   empty queues, every other goroutine finished or waiting for an un-cancelled request's context). *)
Theorem C02_idle_drained :
  forall c m ls s ev, fixed c -> run c (init_m m) ls = Some (s, ev) -> idle s -> settled s ->
  loaded s = [] /\
  (forall r x, getr s r = Some x -> r_closed x = true) /\
  (forall q x, getq s q = Some x -> q_cancelled x = false -> length (q_replies x) = 1).
Proof. intros c m ls s ev Hf H. eapply drained; eauto. eapply run_Reach; eauto. Qed.
Print Assumptions C02_idle_drained.

Example C02_quiescent_complete_nonvacuous :
  (* after the load / grant / cancel / finish / expire / unload run, and the pending loop consuming the stray
     unloaded event, the scheduler is idle and settled - and drained *)
  fixed cfg_on /\ exists s ev, run cfg_on (init_m 1) (ex_load_unload ++ [LRun 0 1%Z]) = Some (s, ev) /\
    pendq s = [] /\ finq s = [] /\ expq s = [] /\ thr s = [PSel; CSel; TDone; TDone] /\ unlq s = 0 /\ loaded s = [].
Proof. split. reflexivity. run_witness. repeat split; vm_compute; reflexivity. Qed.

(* "Answered" means: with an error or with a runner that can be used - a success reply is only sent for a runner
   whose load has completed (any configuration; Sched/InvLoad.v, also exported as C01_no_grant_loading). *)
Theorem C02_reply_success_loaded :
  forall c m ls s ev l s' e q r cl, run c (init_m m) ls = Some (s, ev) ->
  step c s l = Some (s', e) -> In (EReply q (ROk r cl)) e -> exists x, getr s r = Some x /\ r_loading x = false.
Proof.
  intros c m ls s ev l s' e q r cl H Hs Hin. apply rloading_false.
  eapply no_grant_loading; eauto. eapply run_Reach; eauto.
Qed.
Print Assumptions C02_reply_success_loaded.

(* Admission is one atomic step (C02_queue_full_not_blocking / C02_queue_not_full_enqueues: every Submit step is
   defined - the call returns - and either queues the request or answers busy), hence with any number of concurrent
   submitters the pending queue never holds more than OLLAMA_MAX_QUEUE requests: accepted <= capacity.  (Any
   configuration.)  The implementation's GetRunner is held to this by the `admission` stage of the harness: each
   call runs in a goroutine of its own, interleaved at the synchronisation operations inside GetRunner. *)
Theorem C02_admission_bound :
  forall c m ls s ev, run c (init_m m) ls = Some (s, ev) -> length (pendq s) <= c_maxq c.
Proof. intros c m ls s ev H. eapply queue_bound. eapply run_Reach; eauto. Qed.
Print Assumptions C02_admission_bound.

Theorem C02_submit_always_returns :
  forall c s sp, exists s' e, step c s (LSubmit sp) = Some (s', e).
Proof. intros c s sp. simpl. destruct (Nat.ltb (length (pendq s)) (c_maxq c)); eauto. Qed.
Print Assumptions C02_submit_always_returns.

(* ------------------------------------------------------------------ liveness: the scheduler reaches quiescence *)

(* Termination of the internal steps, modulo Tick.  [istep c s' s]: s' is the result of one step "LRun t alt" of s -
   a goroutine of the scheduler performs its next synchronisation operation; the outcome of a load (WaitUntilRunning
   ok / error), of a ping, of newServer and of the fit prediction is the alternative [alt] of that step, so loads in
   flight DO finish.  No Submit / Cancel / Expire / Tick happens.  For the repaired scheduler this relation is
   well-founded on every reachable state: no infinite run, whatever the interleaving and the outcomes.  The 10 ms
   expiry-retry loop and the 250 ms re-queue are goroutines that sleep until a Tick: within an instant they are inert,
   across instants the retry loop goes round once per Tick for as long as the runner's holder has not finished - that
   the holder finishes is the environment's obligation (hypothesis [settled] below), not something the scheduler
   can enforce.  Measure: Sched/Term.v. *)
Theorem C02_internal_terminates :
  forall c m ls s ev, fixed c -> run c (init_m m) ls = Some (s, ev) -> Acc (istep c) s.
Proof. intros c m ls s ev Hf H. eapply internal_terminates; eauto. eapply run_Reach; eauto. Qed.
Print Assumptions C02_internal_terminates.

(* Hence some (indeed every maximal) continuation by internal steps ends in a state where no step is enabled. *)
Theorem C02_reaches_quiescence :
  forall c m ls s ev, fixed c -> run c (init_m m) ls = Some (s, ev) ->
  exists ls' s' ev', internal ls' /\ run c s ls' = Some (s', ev') /\ quiescent c s'.
Proof. intros c m ls s ev Hf H. apply reaches_quiescent. eapply C02_internal_terminates; eauto. Qed.
Print Assumptions C02_reaches_quiescence.

Lemma run_app c : forall l1 l2 s s1 e1 s2 e2,
  run c s l1 = Some (s1, e1) -> run c s1 l2 = Some (s2, e2) -> run c s (l1 ++ l2) = Some (s2, e1 ++ e2).
Proof.
  induction l1 as [|l tl IH]; simpl; intros l2 s s1 e1 s2 e2 H1 H2.
  - inversion H1; subst. exact H2.
  - destruct (step c s l) as [[sa ea]|]; try discriminate.
    destruct (run c sa tl) as [[sb eb]|] eqn:Er; try discriminate. inversion H1; subst.
    rewrite (IH l2 sa s1 eb s2 e2 Er H2). rewrite app_assoc. reflexivity.
Qed.

(* Every un-cancelled request is answered exactly once, and the scheduler drains: from any reachable state of the
   repaired scheduler the internal steps lead to a quiescent state, and if in that state the environment has met its
   obligations - every request that was handed a runner has finished (is cancelled) and no keep-alive timer is
   pending ([settled]), no retry / re-queue goroutine is asleep ([no_sleepers]: time has passed) - then every
   un-cancelled request has exactly one reply, nothing is loaded and every runner that was started has been shut
   down.  (If the obligations are not met yet the quiescent state is the one in which the scheduler waits for them.) *)
Theorem C02_answered_exactly_once :
  forall c m ls s ev, fixed c -> 1 <= c_maxq c -> run c (init_m m) ls = Some (s, ev) ->
  exists ls' s' ev', internal ls' /\ run c s ls' = Some (s', ev') /\ quiescent c s' /\
    (settled s' -> no_sleepers s' ->
     forall q x, getq s' q = Some x -> q_cancelled x = false -> length (q_replies x) = 1).
Proof.
  intros c m ls s ev Hf Hq H.
  destruct (C02_reaches_quiescence c m ls s ev Hf H) as (ls' & s' & ev' & Il & Hr & Q).
  exists ls', s', ev'. split; [auto|]. split; [auto|]. split; [auto|]. intros St Ns.
  pose proof (run_app c _ _ _ _ _ _ _ H Hr) as H'.
  destruct (C02_quiescent_complete c m _ _ _ Hf Hq H' Q St Ns) as (_ & _ & A). exact A.
Qed.
Print Assumptions C02_answered_exactly_once.

Theorem C02_drains :
  forall c m ls s ev, fixed c -> 1 <= c_maxq c -> run c (init_m m) ls = Some (s, ev) ->
  exists ls' s' ev', internal ls' /\ run c s ls' = Some (s', ev') /\ quiescent c s' /\
    (settled s' -> no_sleepers s' -> loaded s' = [] /\ forall r x, getr s' r = Some x -> r_closed x = true).
Proof.
  intros c m ls s ev Hf Hq H.
  destruct (C02_reaches_quiescence c m ls s ev Hf H) as (ls' & s' & ev' & Il & Hr & Q).
  exists ls', s', ev'. split; [auto|]. split; [auto|]. split; [auto|]. intros St Ns.
  pose proof (run_app c _ _ _ _ _ _ _ H Hr) as H'.
  destruct (C02_quiescent_complete c m _ _ _ Hf Hq H' Q St Ns) as (A & B & _). split; auto.
Qed.
Print Assumptions C02_drains.

(* NOT proved (kept as the statement of record): liveness across Ticks - once every request has finished and no
   keep-alive is infinite, finitely many rounds of "Tick past every deadline, then internal steps" empty the
   scheduler.  What is missing is a measure over the rounds: a round shuts a runner down, or places a request the
   pending loop still holds (the pending loop does not look at the context again once it has dequeued a request, so it
   may still load a runner for a finished request, which then lives for one keep-alive), and a retry goroutine goes
   back to sleep only if a request was handed a runner in the same round.  Within a round termination is
   C02_internal_terminates, and the final state is characterised by C02_quiescent_complete. *)
Definition only_time_passes (ls : list label) : Prop :=
  Forall (fun l => match l with LRun _ _ | LTick _ => True | _ => False end) ls.
Definition finite_keep_alives (s : state) : Prop :=
  (forall q x, getq s q = Some x -> sp_ka (q_spec x) <> Some forever) /\
  (forall r x, getr s r = Some x -> r_dur x <> forever).
Definition C02_drains_full : Prop :=
  forall c m ls s ev, fixed c -> 1 <= c_maxq c -> run c (init_m m) ls = Some (s, ev) ->
  (forall q x, getq s q = Some x -> q_cancelled x = true) -> finite_keep_alives s ->
  exists ls' s' ev', only_time_passes ls' /\ run c s ls' = Some (s', ev') /\
    loaded s' = [] /\ (forall r x, getr s' r = Some x -> r_closed x = true).

Example C02_reaches_quiescence_nonvacuous :
  (* the load / grant / cancel / finish / expire / unload run ends in a state in which no step is enabled *)
  exists s ev, run cfg_on (init_m 1) (ex_load_unload ++ [LRun 0 1%Z]) = Some (s, ev) /\ internal [LRun 0 1%Z] /\
    enabled_b cfg_on s = false /\ loaded s = [].
Proof. run_witness. split; [vm_compute; reflexivity|]. split; [repeat constructor|]. split; vm_compute; reflexivity. Qed.

(* Sched/Refute.v - the scheduler as it was found ([fixes_off]) violates the properties: concrete runs of the model,
   evaluated by vm_compute.  The same schedules are replayed against the real code by the checks (corpus/C01, C02,
   C11).  Each statement is the full property quantified over all configurations; it is refuted by the unrepaired
   configuration, and proved in Properties_C01/C02/C11.v under the guard [fixed c] (the repaired scheduler). *)
From Coq Require Import List ZArith NArith Bool Lia.
From V Require Import Sched.Lts Sched.Tac Sched.Reach Sched.InvClose Sched.InvOwn Sched.InvLock Sched.InvCount Sched.Examples.
Import ListNotations.

(* B: an expired event that is already queued is consumed between needsReload and useLoadedRunner *)
Definition w_use_after_unload : list label :=
  [LSubmit (sp 0 (Some 0%Z))] ++ runs 0 6 ++ runs 2 3 ++ [LCancel 0] ++ runs 3 3 ++ runs 1 5 ++
  [LSubmit (sp 0 None)] ++ runs 0 4 ++ [LRun 1 1%Z] ++ runs 1 3 ++ runs 0 2.

(* A: two expired events for one runner (keep-alive timer + explicit unload); the second one is consumed after the
   model has been loaded again and deletes the NEW runner from [loaded] *)
Definition w_stale_event : list label :=
  [LSubmit (sp 0 (Some 5%Z))] ++ runs 0 6 ++ runs 2 3 ++ [LCancel 0] ++ runs 3 3 ++ runs 1 4 ++
  [LTick 5%Z] ++ runs 4 3 ++ [LExpire 0] ++ runs 5 4 ++
  [LRun 1 1%Z] ++ runs 1 5 ++
  [LSubmit (sp 0 (Some 5%Z))] ++ runs 0 5 ++
  [LRun 1 1%Z] ++ runs 1 5 ++
  runs 6 3 ++
  [LSubmit (sp 0 (Some 5%Z))] ++ runs 0 3.

(* ... continued: the orphaned runner's request finishes, the finish event is booked on the third runner, which is
   then shut down under the request that uses it *)
Definition w_close_in_use : list label :=
  w_stale_event ++ runs 0 2 ++ runs 8 3 ++ [LCancel 1] ++ runs 7 3 ++ runs 1 3 ++ [LTick 5%Z] ++ runs 10 3 ++
  [LRun 1 1%Z] ++ runs 1 3.

(* C: the expired branch of processCompleted holds refMu(r) and wants loadedMu; expireRunner holds loadedMu and
   wants refMu(r) *)
Definition w_deadlock : list label :=
  [LSubmit (sp 0 (Some 0%Z))] ++ runs 0 6 ++ runs 2 3 ++ [LCancel 0] ++ runs 3 3 ++ runs 1 5 ++ [LRun 1 1%Z] ++
  runs 1 1 ++ [LExpire 0] ++ runs 4 2.

Definition no_grant_closed_full : Prop :=
  forall c m ls s ev q r cl, run c (init_m m) ls = Some (s, ev) -> In (EReply q (ROk r cl)) ev -> cl = false.

Definition bound_full : Prop :=
  forall c m ls s ev, 1 <= c_ngpus c -> run c (init_m m) ls = Some (s, ev) -> 0 < maxr s -> nlive s <= maxr s.

Definition one_per_model_full : Prop :=
  forall c m ls s ev r1 r2 x1 x2, run c (init_m m) ls = Some (s, ev) ->
  getr s r1 = Some x1 -> getr s r2 = Some x2 -> r_closed x1 = false -> r_closed x2 = false ->
  r_model x1 = r_model x2 -> r1 = r2.

Definition no_close_in_use_full : Prop :=
  forall c m ls s ev q x r y, run c (init_m m) ls = Some (s, ev) ->
  getq s q = Some x -> q_grant x = Some r -> q_cancelled x = false -> getr s r = Some y -> r_closed y = false.

Inductive mutex := MLoaded | MRef (r : nat).

Definition wants (c : config) (p : pc) : option mutex :=
  match p with
  | PLk _ | PFlt _ | PUfs _ _ | PFv _ | PLd2 _ _ | CFLk _ | AXLm _ => Some MLoaded
  | PNr _ r | PUse _ r | PExp _ r | PLd1 _ r | CFR _ r | TMLk r | AXLr r => Some (MRef r)
  | PFvR _ (r :: _) _ => Some (MRef r)
  | PUfsR _ _ (r :: _) => Some (MRef r)
  | CE1 r => if fxC (c_fix c) then Some MLoaded else Some (MRef r)
  | CE2 r => if fxC (c_fix c) then Some (MRef r) else Some MLoaded
  | _ => None
  end.

Definition held (s : state) (m : mutex) : bool :=
  match m with
  | MLoaded => match lmu s with Some _ => true | None => false end
  | MRef r => match getr s r with Some x => match r_mu x with Some _ => true | None => false end | None => false end
  end.

Definition waits_for_mutex (c : config) (s : state) (t : nat) : Prop :=
  exists p m, nth_error (thr s) t = Some p /\ wants c p = Some m /\ held s m = true.

Definition no_lock_deadlock_full : Prop :=
  forall c m ls s ev t, run c (init_m m) ls = Some (s, ev) -> waits_for_mutex c s t ->
  exists t' alt, step c s (LRun t' alt) <> None.

Theorem no_grant_closed_refuted : ~ no_grant_closed_full.
Proof.
  intros F.
  assert (E : exists s ev, run cfg_off (init_m 1) w_use_after_unload = Some (s, ev) /\ In (EReply 1 (ROk 0 true)) ev).
  { vm_compute. eexists; eexists; split; [reflexivity|]. simpl. tauto. }
  destruct E as (s & ev & R & Hin). specialize (F _ _ _ _ _ _ _ _ R Hin). clear - F. discriminate F.
Qed.

Definition st_of (c : config) (m : nat) (ls : list label) : state :=
  match run c (init_m m) ls with Some (s, _) => s | None => init end.

Lemma st_of_run c m ls : run c (init_m m) ls <> None -> exists ev, run c (init_m m) ls = Some (st_of c m ls, ev).
Proof. unfold st_of. destruct (run c (init_m m) ls) as [[s ev]|]; intros H; [eauto|congruence]. Qed.

Theorem bound_refuted : ~ bound_full.
Proof.
  intros F. destruct (st_of_run cfg_off 1 w_stale_event) as (ev & R). { vm_compute. discriminate. }
  specialize (F cfg_off _ _ _ _ (le_n 1) R). revert F. clear. vm_compute. intros F. specialize (F (le_n 1)). lia.
Qed.

Theorem one_per_model_refuted : ~ one_per_model_full.
Proof.
  intros F. destruct (st_of_run cfg_off 1 w_stale_event) as (ev & R). { vm_compute. discriminate. }
  set (s := st_of cfg_off 1 w_stale_event) in *.
  assert (E : exists x1 x2, getr s 1 = Some x1 /\ getr s 2 = Some x2 /\ r_closed x1 = false /\ r_closed x2 = false /\
                            r_model x1 = r_model x2).
  { vm_compute. eexists; eexists; repeat split; reflexivity. }
  destruct E as (x1 & x2 & A & B & C & D & M). specialize (F cfg_off _ _ _ _ _ _ _ _ R A B C D M). clear - F. discriminate F.
Qed.

Theorem no_close_in_use_refuted : ~ no_close_in_use_full.
Proof.
  intros F. destruct (st_of_run cfg_off 1 w_close_in_use) as (ev & R). { vm_compute. discriminate. }
  set (s := st_of cfg_off 1 w_close_in_use) in *.
  assert (E : exists x y, getq s 2 = Some x /\ q_grant x = Some 2 /\ q_cancelled x = false /\ getr s 2 = Some y /\ r_closed y = true).
  { vm_compute. eexists; eexists; repeat split; reflexivity. }
  destruct E as (x & y & A & B & C & D & M). specialize (F cfg_off _ _ _ _ _ _ _ _ R A B C D). clear - F M. rewrite M in F. discriminate F.
Qed.

(* the deadlock: every LRun step of the witness state is disabled while two threads wait for mutexes *)
Definition s_deadlock : state := Eval vm_compute in st_of cfg_off 1 w_deadlock.

Lemma s_deadlock_stuck : forall t alt, step cfg_off s_deadlock (LRun t alt) = None.
Proof.
  intros t alt. destruct t as [|[|[|[|[|t]]]]]; cbn; try reflexivity; try (destruct t; reflexivity);
  destruct (Z.eqb alt 0); try reflexivity; destruct (Z.eqb alt 1); reflexivity.
Qed.

Theorem no_lock_deadlock_refuted : ~ no_lock_deadlock_full.
Proof.
  intros F. destruct (st_of_run cfg_off 1 w_deadlock) as (ev & R). { vm_compute. discriminate. }
  change (st_of cfg_off 1 w_deadlock) with s_deadlock in R.
  assert (W : waits_for_mutex cfg_off s_deadlock 1).
  { exists (CE2 0), MLoaded. repeat split; reflexivity. }
  destruct (F cfg_off _ _ _ _ _ R W) as (t' & alt & N). apply N. apply s_deadlock_stuck.
Qed.

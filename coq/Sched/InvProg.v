(* Progress bookkeeping of the repaired scheduler: an un-cancelled request is never dropped; a freshly created runner
   is referenced by nobody but the pending loop; a registered idle runner always has a pending reason to be expired; a
   pending loop that waits for an unload will get its token. *)
From Coq Require Import List ZArith NArith Bool Lia Arith.
From V Require Import Sched.Lts Sched.Tac Sched.Rule Sched.Reach Sched.InvOwn Sched.InvLock Sched.InvStruct Sched.InvRef.
Import ListNotations.

Definition I_ow (s : state) : Prop :=
  forall q, q < length (reqs s) -> qcanc s q = false -> 1 <= owned s q + nrep s q.

Lemma I_ow_Reach c s ev : Reach c s ev -> I_ow s.
Proof.
  revert s ev. apply Reach_ind_inv.
  { intros m q Hq. simpl in Hq. lia. }
  intros s ev l s' e _.
  unfold I_ow, owned, nrep, occ, qcanc. intros I H q Hq Hc. apply step_stepR in H.
  destruct H as [sp L|sp L|q0 y Eq Cn|m|d _|t alt p s1 p' o e Ht R].
  1,2: simpl in *; rewrite app_length in Hq; simpl in Hq; revert Hc;
    rewrite ?cnt_snoc, !getd_snoc, getf_snoc; unfold eqn in *;
    (destruct (Nat.eqb q (length (reqs s))) eqn:Q; simpl; intros Hc;
     [ apply Nat.eqb_eq in Q; subst q; rewrite ?Nat.eqb_refl; lia
     | apply Nat.eqb_neq in Q; specialize (I q ltac:(lia) Hc); try lia;
       destruct (Nat.eqb (length (reqs s)) q); lia ]).
  - unfold getq in *; simpl in *. rewrite upd_length in Hq. revert Hc. sums I. simpl.
    erewrite getf_upd by eassumption. destruct (Nat.eqb q0 q) eqn:Q; [simpl; discriminate|]. intros Hc. apply I; auto.
  - simpl in *. rewrite cnt_snoc. simpl. specialize (I q Hq Hc). lia.
  - rewrite tick_reqs in *. rewrite tick_cnt, tick_pendq by reflexivity. exact (I q Hq Hc).
  - (* ownership moves between the queue and the threads; only a cancelled request is dropped *)
    destruct (rule_cnt (ownf q) R Ht) as [Ge C].
    specialize (I q).
    destruct R; simpl in C, Hq, Hc |- *; unfold getq in *; rewrite ?upd_length in Hq; revert Hc;
    repeat match goal with E : pendq s = _ |- _ => rewrite E in I; simpl in I end;
    rewrite ?cnt_snoc; repeat (erewrite getd_upd by eassumption); repeat (erewrite getf_upd by eassumption);
    simpl; rewrite ?app_length; simpl; intros Hc;
    try (pose proof (I Hq Hc); lia); try (eqb_cases; simpl in *; unfold getf in *; use_nth; simpl in *; try discriminate; try congruence;
         try specialize (I Hq Hc); simpl in *; rewrite ?app_length; simpl; lia).
Qed.

Definition inl (r : nat) (l : list nat) : nat := if existsb (Nat.eqb r) l then 1 else 0.

(* every reference to a runner held in a program counter, except the pending loop's PLd1 / PLd2 *)
Fixpoint mentions (r : nat) (p : pc) : nat :=
  match p with
  | PNr _ r' | PPing _ r' | PUse _ r' | PUseSend _ r' | PExp _ r' | PExpSend _ r' | PWait _ r'
  | CFR _ r' | CFSend r' | CE1 r' | CE2 r' | CEV r' | LWWait _ r' | LWErr _ r' | LWExp r' | LWOk _ r'
  | TMLk r' | TMSend r' | RTSleep r' _ | RTSend r' | AXLr r' | AXSend r' => eqn r' r
  | PFvR _ rest first => inl r rest + eqn first r
  | PUfsR _ _ rest => inl r rest
  | TEntry p' => mentions r p'
  | _ => 0
  end.

Definition armedn (x : runner) : nat := match r_tm x with TNone => 0 | _ => 1 end.

Definition outf (s : state) (r : nat) : Prop := length (runners s) <= r \/ 1 <= cnt (freshr r) (thr s).

Definition I_nf (s : state) : Prop :=
  forall r, outf s r -> cnt (mentions r) (thr s) + occ r (expq s) + getd armedn (runners s) r = 0.

Lemma inl_In r l : inl r l = 1 <-> In r l.
Proof.
  unfold inl. destruct (existsb (Nat.eqb r) l) eqn:E.
  - apply existsb_exists in E. destruct E as (x & Hin & Hx). apply Nat.eqb_eq in Hx. subst. tauto.
  - split; [discriminate|]. intros Hin. exfalso.
    assert (existsb (Nat.eqb r) l = true) by (apply existsb_exists; exists r; split; auto; apply Nat.eqb_refl). congruence.
Qed.

Lemma inl_notin r l : ~ In r l -> inl r l = 0.
Proof. intros N. unfold inl. destruct (existsb (Nat.eqb r) l) eqn:E; auto. exfalso. apply N. apply inl_In. unfold inl. rewrite E. auto. Qed.

Lemma inl_le1 r l : inl r l <= 1.
Proof. unfold inl. destruct (existsb (Nat.eqb r) l); lia. Qed.

Lemma inl_cons r a l : inl r (a :: l) = if Nat.eqb r a then 1 else inl r l.
Proof. unfold inl. simpl. destruct (Nat.eqb r a); reflexivity. Qed.

Lemma inl_remove_nth r l i : inl r (remove_nth l i) <= inl r l.
Proof.
  revert i; induction l as [|a tl IH]; intros [|i]; simpl; auto.
  - rewrite inl_cons. destruct (Nat.eqb r a); auto using inl_le1.
  - rewrite !inl_cons. destruct (Nat.eqb r a); auto.
Qed.

Lemma vinsert_In s a l x : In x (vinsert s a l) -> x = a \/ In x l.
Proof.
  induction l as [|b tl IH]; simpl; intros H.
  - destruct H as [<-|[]]. auto.
  - destruct (vless s b a); simpl in H.
    + destruct H as [<-|H]; auto. apply IH in H. tauto.
    + destruct H as [<-|H]; auto.
Qed.

Lemma vsort_In s l x : In x (vsort s l) -> In x l.
Proof.
  induction l as [|a tl IH]; simpl; intros H; auto. apply vinsert_In in H. destruct H as [->|H]; auto.
Qed.

Lemma loaded_value_lookup l r : NoDup (map fst l) -> In r (map snd l) -> exists m, lookup l m = Some r.
Proof.
  induction l as [|[k v] tl IH]; simpl; intros N H; [tauto|]. inv N.
  destruct H as [<-|H].
  - exists k. rewrite Nat.eqb_refl. auto.
  - destruct (IH H3 H) as (m & Hm). exists m. destruct (Nat.eqb k m) eqn:E; auto.
    apply Nat.eqb_eq in E. subst. exfalso. apply H2. apply lookup_In in Hm. apply in_map_iff. exists (m, r). auto.
Qed.

Lemma freshr_isP r p : freshr r p <= isP p.
Proof. unfold freshr. destruct (freshpc p) as [[q r']|] eqn:E; [|lia]. rewrite (freshpc_isP _ _ _ E). unfold eqn. destruct (Nat.eqb r' r); lia. Qed.

Lemma fire_pcs_mentions r : forall rs i t',
  (forall k x, nth_error rs k = Some x -> i + k = r -> armedn x = 0) ->
  cnt (mentions r) (snd (fire rs i t')) = 0.
Proof.
  induction rs as [|x tl IH]; intros i t' Ha; simpl; auto.
  assert (IH' : cnt (mentions r) (snd (fire tl (S i) t')) = 0).
  { apply IH. intros k y Hk Hr. apply (Ha (S k) y); auto. lia. }
  destruct (fire tl (S i) t') as [tl' ps] eqn:E. simpl in IH'.
  destruct (r_tm x) as [|[dl|]|] eqn:T; simpl; auto.
  destruct (Z.leb dl t'); simpl; auto.
  unfold eqn. destruct (Nat.eqb i r) eqn:Q; auto.
  apply Nat.eqb_eq in Q. specialize (Ha 0 x eq_refl ltac:(lia)). unfold armedn in Ha. rewrite T in Ha. discriminate.
Qed.

Lemma inl_head r a tl : eqn a r <= inl r (a :: tl).
Proof. rewrite inl_cons. unfold eqn. rewrite Nat.eqb_sym. destruct (Nat.eqb r a); lia. Qed.

Lemma inl_tail r a tl : inl r tl <= inl r (a :: tl).
Proof. rewrite inl_cons. destruct (Nat.eqb r a); auto using inl_le1. Qed.

Section StepNF.
Variables (c : config) (s s' : state) (l : label) (e : list event).
Hypothesis Hf : fixed c.
Hypothesis IO : I_one s.
Hypothesis I2 : L2 s.
Hypothesis I : I_nf s.
Hypothesis H : step c s l = Some (s', e).

Lemma loaded_not_out m r0 r : lookup (loaded s) m = Some r0 ->
  (length (runners s) <= r \/ 1 <= cnt (freshr r) (thr s)) -> r0 <> r.
Proof.
  intros L [Hl|Hfr] ->.
  - destruct (l2_loaded s I2 _ _ L) as [_ K]. apply rclosed_range in K. lia.
  - destruct (fresh_thread s r Hfr) as (t & p & q & Ht & Hp).
    destruct (l2_fresh s I2 _ _ _ _ Ht Hp) as (_ & _ & F4). eapply F4; eauto.
Qed.

Lemma snapshot_not_out r0 r : In r0 (map snd (loaded s)) ->
  (length (runners s) <= r \/ 1 <= cnt (freshr r) (thr s)) -> r0 <> r.
Proof.
  intros Hin Ho. destruct (loaded_value_lookup _ _ (l2_nodup s I2) Hin) as (m & L). eapply loaded_not_out; eauto.
Qed.

Lemma snapshot_inl r xs : (forall x, In x xs -> In x (map snd (loaded s))) ->
  (length (runners s) <= r \/ 1 <= cnt (freshr r) (thr s)) -> inl r xs = 0.
Proof.
  intros Hsub Ho. apply inl_notin. intros Hin. apply (snapshot_not_out r r (Hsub _ Hin) Ho). reflexivity.
Qed.

Lemma I_nf_step : I_nf s'.
Proof.
  unfold I_nf, outf in *. intros r Hpre. apply step_stepR in H.
  destruct H as [sp _|sp _|q y Eq _|m|d _|t alt p s1 p1 o e0 Ht R]; try exact (I r Hpre).
  - simpl in *. rewrite !cnt_snoc in *. unfold freshr in Hpre. simpl in *. rewrite Nat.add_0_r in *. specialize (I r Hpre). lia.
  - rewrite tick_runners, tick_thr, !cnt_app, (fire_getd armedn) in * by (intros x dl E; unfold armedn; simpl; rewrite E; reflexivity).
    rewrite wake_cnt in * by (intros; apply wake_obs; reflexivity).
    rewrite (fire_pcs_zero (freshr r)) in Hpre by reflexivity. rewrite Nat.add_0_r in Hpre.
    assert (L : length (fst (fire (runners s) 0 (now s + d)%Z)) = length (runners s)).
    { clear. generalize 0. induction (runners s) as [|x tl IH]; intros i; simpl; auto.
      specialize (IH (S i)). destruct (fire tl (S i) (now s + d)%Z). simpl in *.
      destruct (r_tm x) as [|[dl|]|]; simpl; auto. destruct (Z.leb dl (now s + d)%Z); simpl; auto. }
    rewrite L in Hpre. specialize (I r Hpre).
    rewrite fire_pcs_mentions.
    + unfold tick. destruct (fire (runners s) 0 (now s + d)%Z). simpl. lia.
    + intros k x Hk Hr. simpl in Hr. subst k. unfold getd in I. rewrite Hk in I. lia.
  - destruct (rule_cnt (mentions r) R Ht) as [GeM CM].
    destruct (rule_cnt (freshr r) R Ht) as [GeF CF].
    pose proof (cnt_mono (freshr r) isP (thr s) (freshr_isP r)) as Mo. pose proof (freshr_isP r p) as FP.
    destruct IO as [IP _]. pose proof (cnt_ge isP _ _ _ Ht) as GeP.
    revert CM CF Hpre. generalize (cnt (mentions r) (thr (finish s1 t p1 o))), (cnt (freshr r) (thr (finish s1 t p1 o))).
    intros nm nf CM CF Hpre. fix_cfg c Hf.
    (* the runner was out of everybody's sight before the step, too *)
    assert (Hpre0 : length (runners s) <= r \/ 1 <= cnt (freshr r) (thr s)).
    { destruct Hpre as [Hl|Hr].
      - left. destruct R; simpl in Hl; rewrite ?app_length, ?upd_length in Hl; simpl in Hl; lia.
      - destruct R; unfold freshr in *; simpl in *; fixed_only; try (right; lia);
        unfold eqn in *; eqb_cases; simpl in *; first [right; lia | left; lia]. }
    pose proof (I r Hpre0) as I0. unfold occ in *.
    assert (LN : forall m r0, lookup (loaded s) m = Some r0 -> Nat.eqb r0 r = false)
      by (intros m r0 L; apply Nat.eqb_neq; exact (loaded_not_out _ _ _ L Hpre0)).
    destruct R; fixed_only; simpl in CM |- *; unfold getq, getr in *;
    repeat match goal with E : expq s = _ |- _ => rewrite E in I0; simpl in I0 end;
    rewrite ?cnt_snoc; repeat (erewrite getd_upd by eassumption); rewrite ?getd_snoc; try lia;
    try (unfold armedn in *; simpl in *; unfold eqn in *; try erewrite LN in CM by eassumption;
         try lia; eqb_cases; simpl in *; use_nth; simpl in *; lia).
    + (* PUfs: the runners to visit are the registered ones *)
      assert (Z : inl r (r0 :: rest) = 0).
      { apply snapshot_inl; auto. intros x Hx. match goal with E : map snd _ = _ |- _ => rewrite E end. exact Hx. }
      rewrite Z in CM. lia.
    + (* PUfsR: one runner less to visit *)
      pose proof (inl_remove_nth r rest (Z.to_nat (alt mod 4))) as Le.
      match goal with E : remove_nth _ _ = _ |- _ => rewrite E in Le end. simpl in GeM. lia.
    + (* PLd2: the runner stops being fresh *)
      assert (NE : r0 <> r).
      { intros ->. destruct Hpre as [Hl|Hr].
        - simpl in Hl. rewrite upd_length in Hl. apply nth_error_None in Hl. congruence.
        - unfold freshr in *. simpl in *. unfold eqn in *. rewrite Nat.eqb_refl in *. lia. }
      apply Nat.eqb_neq in NE. unfold eqn in *. rewrite NE in *. lia.
    + (* PFv: the candidates are registered runners *)
      assert (Z : inl r (f :: rest) = 0).
      { apply snapshot_inl; auto. intros x Hx. apply (vsort_In s). match goal with E : vsort _ _ = _ |- _ => rewrite E end. exact Hx. }
      assert (NE : f <> r) by (intros ->; rewrite inl_cons, Nat.eqb_refl in Z; discriminate).
      apply Nat.eqb_neq in NE. rewrite Z in CM. unfold eqn in *. rewrite NE in CM. lia.
    + (* PFvR: an idle candidate, or the next one *)
      pose proof (inl_head r r0 tl). simpl in GeM. unfold eqn in *. lia.
    + pose proof (inl_tail r r0 (a :: tl)). simpl in GeM. lia.
Qed.

End StepNF.

Lemma I_nf_Reach c s ev : fixed c -> Reach c s ev -> I_nf s.
Proof.
  intros Hf R. induction R as [m|s ev l s' e R IH Hs].
  - intros r _. unfold occ, getd. simpl. destruct r; reflexivity.
  - destruct (I_locks_Reach _ _ _ Hf R) as (_ & _ & C). eapply I_nf_step; eauto. eapply L2_Reach; eauto.
Qed.

(* updateFreeSpace always has a runner left to visit while it is inside its loop *)
Fixpoint ufs_ok (p : pc) : Prop :=
  match p with PUfsR _ _ rest => rest <> [] | PFvR _ rest _ => rest <> [] | TEntry p' => ufs_ok p' | _ => True end.

Definition I_ufs (s : state) : Prop := Forall ufs_ok (thr s).

Lemma wake_ufs_ok t' p : ufs_ok p -> ufs_ok (wake t' p).
Proof. destruct p; simpl; auto; destruct (Z.leb u t'); simpl; auto. Qed.

Lemma I_ufs_Reach c s ev : Reach c s ev -> I_ufs s.
Proof.
  revert s ev. apply Reach_ind_inv.
  { intros m. repeat constructor. }
  intros s ev l s' e _.
  unfold I_ufs. intros I H. apply step_stepR in H.
  destruct H as [sp _|sp _|q y _ _|m|d _|t alt p s1 p1 o e0 Ht R]; auto.
  - apply Forall_snoc; simpl; auto.
  - rewrite tick_thr. apply Forall_app. split.
    + rewrite Forall_forall in *. intros p Hin. apply in_map_iff in Hin. destruct Hin as (p0 & <- & Hin). apply wake_ufs_ok; auto.
    + rewrite Forall_forall. intros p Hin. apply fire_pcs_In in Hin. destruct Hin as (r & ->). simpl. auto.
  - pose proof (Forall_nth_error _ _ _ _ I Ht) as Ip.
    apply (rule_Forall _ R I); [|destruct R; repeat constructor].
    destruct R; simpl in *; auto; congruence.
Qed.

(* program points that will queue an expired event for r, or are processing one *)
Fixpoint expf (r : nat) (p : pc) : nat :=
  match p with
  | PExpSend _ r' | CFSend r' | LWErr _ r' | LWExp r' | TMLk r' | TMSend r' | RTSleep r' _ | RTSend r'
  | AXSend r' | CE1 r' | CE2 r' | CEV r' => eqn r' r
  | TEntry p' => expf r p'
  | _ => 0
  end.

Definition refn1 (x : runner) : nat := if N.eqb (r_ref x) 0 then 0 else 1.
Definition ra (x : runner) : nat := refn1 x + armedn x.

Definition reason (s : state) (r : nat) : nat :=
  getd ra (runners s) r + occ r (expq s) + cnt (expf r) (thr s).

Definition I_id (s : state) : Prop :=
  forall r, rclosed s r = false -> cnt (freshr r) (thr s) = 0 -> 1 <= reason s r.

Lemma fire_expf_ra r : forall rs i t',
  i <= r -> getd ra rs (r - i) <= getd ra (fst (fire rs i t')) (r - i) + cnt (expf r) (snd (fire rs i t')).
Proof.
  induction rs as [|x tl IH]; intros i t' Hi; simpl; [lia|].
  specialize (IH (S i) t'). destruct (fire tl (S i) t') as [tl' ps] eqn:E. simpl in IH.
  destruct (Nat.eq_dec i r) as [->|N].
  - rewrite Nat.sub_diag. unfold getd, ra, refn1, armedn. simpl.
    destruct (r_tm x) as [|[dl|]|] eqn:T; simpl; try rewrite T; try lia.
    destruct (Z.leb dl t'); simpl; try rewrite T; lia.
  - assert (Hs : r - i = S (r - S i)) by lia. rewrite Hs. unfold getd in *. simpl.
    specialize (IH ltac:(lia)).
    destruct (r_tm x) as [|[dl|]|]; simpl; try lia. destruct (Z.leb dl t'); simpl; lia.
Qed.

Section StepID.
Variables (c : config) (s s' : state) (l : label) (e : list event).
Hypothesis Hf : fixed c.
Hypothesis IO : I_one s.
Hypothesis I2 : L2 s.
Hypothesis I3 : L3 s.
Hypothesis I : I_id s.
Hypothesis H : step c s l = Some (s', e).

Lemma I_id_step : I_id s'.
Proof.
  unfold I_id, reason, rclosed in *. intros r Hc Hfr. apply step_stepR in H.
  destruct H as [sp _|sp _|q y _ _|m|d _|t alt p s1 p1 o e0 Ht R]; try exact (I r Hc Hfr).
  - simpl in *; rewrite !cnt_snoc in *.
    assert (Z : freshr r (TEntry (AXLm m)) = 0) by reflexivity. rewrite Z in Hfr. simpl. specialize (I r Hc ltac:(lia)). lia.
  - rewrite tick_runners, tick_thr, !cnt_app in *.
    rewrite wake_cnt in * by (intros; apply wake_obs; reflexivity).
    rewrite (fire_pcs_zero (freshr r)) in Hfr by reflexivity. rewrite Nat.add_0_r in Hfr.
    rewrite (fire_getf r_closed true) in Hc by reflexivity.
    specialize (I r Hc Hfr).
    pose proof (fire_expf_ra r (runners s) 0 (now s + d)%Z ltac:(lia)) as Fa. rewrite Nat.sub_0_r in Fa.
    unfold tick. destruct (fire (runners s) 0 (now s + d)%Z). simpl in *. lia.
  - destruct (rule_cnt (expf r) R Ht) as [GeE CE]. destruct (rule_cnt (freshr r) R Ht) as [GeF CF].
    revert CE CF Hfr. generalize (cnt (expf r) (thr (finish s1 t p1 o))), (cnt (freshr r) (thr (finish s1 t p1 o))).
    intros ne nf CE CF Hfr. subst nf. fix_cfg c Hf. unfold occ in *.
    (* a rule turns one reason to expire its runner into another; the runner it touches may be r or another one *)
    destruct R; fixed_only; unfold getq, getr in *;
    unfold freshr in CF, GeF; simpl in Hc, CE, CF, GeE, GeF |- *;
    repeat match goal with E : expq s = _ |- _ => rewrite E in I; simpl in I end;
    revert Hc; repeat (erewrite getd_upd by eassumption); repeat (erewrite getf_upd by eassumption);
    rewrite ?getd_snoc, ?getf_snoc, ?cnt_snoc; simpl; intros Hc; unfold eqn in *;
    try (specialize (I r Hc ltac:(unfold freshr, eqn; lia)); lia);
    try (match goal with |- context [if Nat.eqb ?r0 r then _ else _] =>
           is_var r0; destruct (Nat.eqb r0 r) eqn:Q; [apply Nat.eqb_eq in Q; subst r0|] end);
    try (specialize (I r Hc ltac:(unfold freshr, eqn; lia)); lia);
    try (match goal with E : nth_error (runners s) r = Some ?x |- _ =>
           assert (Hc0 : getf r_closed true (runners s) r = false) by (erewrite getf_some by exact E; exact Hc);
           assert (Hf0 : cnt (freshr r) (thr s) = 0) by (unfold freshr, eqn; rewrite ?Nat.eqb_refl in *; lia);
           pose proof (I r Hc0 Hf0) as I0; unfold getd in I0; rewrite E in I0;
           unfold ra, refn1, armedn in *; simpl in *; rewrite ?Nat.eqb_refl in *;
           repeat match goal with E2 : N.eqb _ 0 = _ |- _ => rewrite E2 in * end;
           repeat match goal with E2 : N.ltb 0 _ = false |- _ => apply N.ltb_ge in E2 end;
           simpl in *; try lia;
           destruct (r_tm x); simpl in *; try lia;
           destruct (N.eqb (r_ref x) 0) eqn:RZ; simpl in *; try lia
         end).
    (* PUse: refCount becomes positive *)
    all: try (match goal with |- context [N.eqb (N.succ ?n) 0] =>
              replace (N.eqb (N.succ n) 0) with false by (symmetry; apply N.eqb_neq; lia) end; lia).
    (* CEV: the runner is (or already was) shut down, so the premise does not hold for it *)
    all: try (simpl in Hc; congruence).
    + (* PNs: the new runner is fresh *)
      destruct (Nat.eqb r (length (runners s))) eqn:Q.
      * apply Nat.eqb_eq in Q. subst r. rewrite Nat.eqb_refl in CF. lia.
      * rewrite Nat.eqb_sym, Q in CF. specialize (I r Hc ltac:(unfold freshr, eqn; lia)). lia.
    + (* PLd2: the registered runner holds the load's reference *)
      destruct (l3_fresh s I3 _ _ _ _ Ht eq_refl) as (_ & _ & R1). unfold rref in R1.
      erewrite getf_some in R1 by eassumption. unfold ra, refn1. simpl. rewrite R1. simpl. lia.
    + (* CE2, stale event: it is not for a registered runner *)
      destruct (Nat.eqb r0 r) eqn:Q.
      * apply Nat.eqb_eq in Q; subst r0. exfalso.
        destruct (l2_live s I2 r Hc) as [(m & M1 & M2)|Fz]; [|unfold freshr, eqn in Fz; lia].
        unfold stale in *. unfold rmodel in M1. erewrite getf_some in M1 by eassumption. inv M1.
        match goal with E : context [lookup] |- _ => rewrite M2, Nat.eqb_refl in E; discriminate E end.
      * specialize (I r Hc ltac:(unfold freshr, eqn; lia)). lia.
Qed.

End StepID.

Lemma I_id_Reach c s ev : fixed c -> Reach c s ev -> I_id s.
Proof.
  intros Hf R. induction R as [m|s ev l s' e R IH Hs].
  - intros r Hc. unfold rclosed, getf in Hc. simpl in Hc. destruct r; discriminate.
  - destruct (I_locks_Reach _ _ _ Hf R) as (_ & _ & C). eapply I_id_step; eauto.
    + eapply L2_Reach; eauto.
    + eapply L3_Reach; eauto.
Qed.

Fixpoint ptarget (p : pc) : list nat :=
  match p with
  | PNr _ r | PPing _ r | PUse _ r | PExp _ r | PExpSend _ r | PWait _ r => [r]
  | PFvR _ rest first => first :: rest
  | TEntry p' => ptarget p'
  | _ => []
  end.

Fixpoint tokpend (p : pc) : nat :=
  match p with CEV _ | CEFin | CETok => 1 | TEntry p' => tokpend p' | _ => 0 end.

(* every runner the pending loop has looked up and may have to wait for is still registered, or an "unloaded"
   event is available or about to be produced *)
Definition I_tk (s : state) : Prop :=
  forall t p r, nth_error (thr s) t = Some p -> In r (ptarget p) ->
  (rclosed s r = false /\ cnt (freshr r) (thr s) = 0) \/ 1 <= unlq s + cnt tokpend (thr s).

Lemma tick_unlq s d : unlq (tick s d) = unlq s.
Proof. unfold tick. destruct (fire (runners s) 0 (now s + d)%Z); reflexivity. Qed.

Lemma ptarget_isP p r : In r (ptarget p) -> isP p = 1.
Proof. induction p; simpl; intros Hin; try tauto; auto. Qed.

Section StepTK.
Variables (c : config) (s s' : state) (l : label) (e : list event).
Hypothesis Hf : fixed c.
Hypothesis IO : I_one s.
Hypothesis I2 : L2 s.
Hypothesis I : I_tk s.
Hypothesis H : step c s l = Some (s', e).

Lemma registered_not_fresh m r : lookup (loaded s) m = Some r -> rclosed s r = false /\ cnt (freshr r) (thr s) = 0.
Proof.
  intros L. destruct (l2_loaded s I2 _ _ L) as [_ K]. split; auto.
  destruct (cnt (freshr r) (thr s)) eqn:C; auto. exfalso.
  destruct (fresh_thread s r ltac:(lia)) as (t & p & q & Ht & Hp).
  destruct (l2_fresh s I2 _ _ _ _ Ht Hp) as (_ & _ & F4). eapply F4; eauto.
Qed.

Lemma snapshot_registered r : In r (map snd (loaded s)) -> rclosed s r = false /\ cnt (freshr r) (thr s) = 0.
Proof.
  intros Hin. destruct (loaded_value_lookup _ _ (l2_nodup s I2) Hin) as (m & L). eapply registered_not_fresh; eauto.
Qed.

Lemma I_tk_step : I_tk s'.
Proof.
  unfold I_tk in *. intros t' p' r' Hn Hin. apply step_stepR in H.
  destruct H as [sp _|sp _|q y _ _|m|d _|t alt p s1 p1 o e0 Ht R]; try exact (I _ _ _ Hn Hin).
  - simpl in Hn. apply nth_error_snoc in Hn. destruct Hn as [Hn|[-> ->]]; [|simpl in Hin; tauto].
    assert (Z : freshr r' (TEntry (AXLm m)) = 0) by reflexivity.
    destruct (I _ _ _ Hn Hin) as [[A B]|A]; [left|right]; simpl; rewrite ?cnt_snoc; simpl; auto. split; auto. lia. lia.
  - apply tick_thr_cases in Hn. destruct Hn as [(p0 & Hn & ->)|(r & ->)]; [|simpl in Hin; tauto].
    rewrite wake_obs in Hin by reflexivity. rewrite tick_rclosed, tick_unlq, !tick_cnt by reflexivity.
    exact (I _ _ _ Hn Hin).
  - destruct (rule_cnt tokpend R Ht) as [GeT CT]. destruct (rule_cnt (freshr r') R Ht) as [GeF CF].
    change ((rclosed s1 r' = false /\ cnt (freshr r') (thr (finish s1 t p1 o)) = 0) \/
            1 <= unlq s1 + cnt tokpend (thr (finish s1 t p1 o))).
    revert CT CF. generalize (cnt tokpend (thr (finish s1 t p1 o))), (cnt (freshr r') (thr (finish s1 t p1 o))).
    intros nt nf CT CF. fix_cfg c Hf.
    destruct (rule_thr_cases R Hn) as [[Ne Hn']|[[-> ->]|(x & -> & Sx)]].
    + (* the targets belong to the pending loop; the stepping thread is another one: it neither consumes an
         unloaded event nor creates a runner, and if it shuts the target down it owes the event *)
      assert (NP : isP p = 0).
      { destruct (isP p) eqn:P; auto. exfalso. eapply (two_P s IO t' t); eauto using ptarget_isP.
        clear - P. induction p; simpl in *; auto; discriminate. }
      destruct (I _ _ _ Hn' Hin) as [[A B]|A].
      * destruct (rule_rclosed R A) as [C| ->].
        -- left. split; auto. pose proof (freshr_isP r' p). destruct R; try discriminate NP;
           unfold freshr in *; simpl in *; lia.
        -- right. inversion R; subst; simpl in CT, GeT |- *; lia.
      * right. destruct R; try discriminate NP; fixed_only; simpl in CT, GeT |- *; lia.
    + (* the pending loop keeps (some of) its targets, or takes registered runners as new ones; when it consumes an
         unloaded event it has no target left *)
      destruct R; simpl in Hin; try tauto;
      try (match goal with L : lookup (loaded s) _ = Some _ |- _ =>
             destruct Hin as [<-|[]]; destruct (registered_not_fresh _ _ L) as [A B]; left; split; [exact A|];
             unfold freshr in *; simpl in *; lia end);
      try (match goal with Ht : nth_error (thr s) _ = Some ?old |- _ =>
             assert (Hold : In r' (ptarget old)) by (simpl in *; tauto);
             destruct (I _ _ _ Ht Hold) as [[A B]|A];
             [ left; split; [unfold rclosed, getr in *; simpl; acc_norm; eqb_cases; auto|unfold freshr in *; simpl in *; lia]
             | right; simpl in CT |- *; lia ] end).
      * assert (Hreg : rclosed s r' = false /\ cnt (freshr r') (thr s) = 0).
        { apply snapshot_registered. apply (vsort_In s). match goal with E : vsort _ _ = _ |- _ => rewrite E end.
          destruct Hin as [<-|Hin]; [left; auto|exact Hin]. }
        destruct Hreg as [A B]. left. split; auto. rewrite B in CF. unfold freshr in CF. simpl in CF. lia.
    + destruct x; try contradiction; simpl in Hin; tauto.
Qed.

End StepTK.

Lemma I_tk_Reach c s ev : fixed c -> Reach c s ev -> I_tk s.
Proof.
  intros Hf R. induction R as [m|s ev l s' e R IH Hs].
  - intros t p r Ht Hin. destruct t as [|[|[|t]]]; simpl in Ht; try discriminate; inv Ht; simpl in Hin; tauto.
  - destruct (I_locks_Reach _ _ _ Hf R) as (_ & _ & C). eapply I_tk_step; eauto. eapply L2_Reach; eauto.
Qed.

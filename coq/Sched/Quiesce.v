(* Sched/Quiesce.v - quiescent states of the repaired scheduler are idle: if no scheduler thread can take a step,
   nothing sleeps, every holder has finished and no keep-alive timer is pending, then both loops sit at their select
   with empty queues and every helper goroutine has finished.  With Sched/Drain.v this gives the drain clause of C02
   from "no step enabled". *)
From Coq Require Import List ZArith NArith Bool Lia Arith.
From V Require Import Sched.Lts Sched.Tac Sched.Reach Sched.InvOwn Sched.InvLock Sched.InvStruct Sched.InvRef
  Sched.InvProg Sched.Refute Sched.Dead Sched.Drain.
Import ListNotations.

Definition quiescent (c : config) (s : state) : Prop := forall t alt, step c s (LRun t alt) = None.

Definition no_sleepers (s : state) : Prop :=
  forall t p, nth_error (thr s) t = Some p -> match p with RTSleep _ _ | RSSleep _ _ => False | _ => True end.

Definition stuck_pc (c : config) (s : state) (p : pc) : Prop :=
  match p with
  | PSel => pendq s = [] /\ unlq s = 0
  | PWait _ _ => unlq s = 0
  | CSel => finq s = [] /\ expq s = []
  | FWDone q => qcanc s q = false
  | RSSend _ => c_maxq c <= length (pendq s)
  | RTSleep _ _ | RSSleep _ _ | TDone => True
  | _ => False
  end.

Lemma qcanc_range s q : qcanc s q = true -> exists y, getq s q = Some y.
Proof. unfold qcanc, getf, getq. destruct (nth_error (reqs s) q); intros E; [eauto|discriminate]. Qed.

Section Analysis.
Variables (c : config) (s : state).
Hypothesis Hf : fixed c.
Hypothesis IW : I_own s.
Hypothesis I2 : L2 s.
Hypothesis I3 : L3 s.
Hypothesis INF : I_nf s.
Hypothesis IU : I_ufs s.

Lemma pend_range q : In q (pendq s) -> exists y, getq s q = Some y.
Proof.
  intros Hin. specialize (IW q). unfold owned, occ in IW.
  assert (1 <= cnt (fun x => eqn x q) (pendq s)).
  { apply In_nth_error in Hin. destruct Hin as [i Hi]. pose proof (cnt_ge (fun x => eqn x q) _ _ _ Hi) as G.
    simpl in G. unfold eqn in G. rewrite Nat.eqb_refl in G. exact G. }
  unfold getq. destruct (nth_error (reqs s) q) as [y|] eqn:E; eauto. exfalso.
  apply nth_error_None in E. destruct (Nat.ltb q (length (reqs s))) eqn:Q; [apply Nat.ltb_lt in Q; lia|lia].
Qed.

Lemma fresh_range q r t p : nth_error (thr s) t = Some p -> freshpc p = Some (q, r) -> exists x, getr s r = Some x.
Proof.
  intros Ht Hp. destruct (l2_fresh s I2 _ _ _ _ Ht Hp) as (A & _). destruct (rclosed_false _ _ A) as (x & E & _). eauto.
Qed.

(* resolve the lookups of runners / requests that a program counter refers to *)
Ltac ranges Hn MR OR CR :=
  repeat match type of Hn with
  | context [getr s ?r] =>
      let x := fresh "x" in let E := fresh "Er" in
      first [ destruct (MR r ltac:(simpl; unfold eqn; rewrite ?Nat.eqb_refl; rewrite ?inl_cons, ?Nat.eqb_refl; lia)) as (x & E)
            | match goal with FR : forall q r, freshpc _ = Some (q, r) -> _ |- _ => destruct (FR _ _ eq_refl) as (x & E) end ];
      rewrite E in Hn; simpl in Hn
  | context [getq s ?q] =>
      let y := fresh "y" in let E := fresh "Eq" in
      first [ destruct (OR q ltac:(simpl; unfold eqn; rewrite Nat.eqb_refl; reflexivity)) as (y & E)
            | destruct (CR q eq_refl) as (y & E) ];
      rewrite E in Hn; simpl in Hn
  end.

Ltac conds Hn :=
  repeat match type of Hn with
  | context [if ?b then _ else _] => destruct b eqn:?
  | context [match ?x with _ => _ end] => destruct x eqn:?
  end; try discriminate Hn.

Lemma stuck_or_waits t p :
  nth_error (thr s) t = Some p -> (forall alt, run_pc c s t p alt = None) -> stuck_pc c s p \/ waits_for_mutex c s t.
Proof.
  intros Ht Hn. assert (Hf' := Hf). unfold fixed in Hf'.
  pose proof (Forall_nth_error _ _ _ _ IU Ht) as U.
  assert (MR : forall r, 1 <= mentions r p -> exists x, getr s r = Some x).
  { intros r Hm. apply (mention_range s INF). pose proof (cnt_ge (mentions r) _ _ _ Ht). lia. }
  assert (OR : forall q, ownf q p = 1 -> exists y, getq s q = Some y) by (intros q Ho; eapply (owner_range s IW); eauto).
  assert (CR : forall q, canpc p = Some q -> exists y, getq s q = Some y).
  { intros q Hc. apply qcanc_range. eapply (l3_canpc s I3); eauto. }
  assert (FR : forall q r, freshpc p = Some (q, r) -> exists x, getr s r = Some x) by (intros q r Hp; eapply fresh_range; eauto).
  pose proof (Hn 0%Z) as H0. pose proof (Hn 1%Z) as H1. clear Hn.
  destruct p; simpl; auto;
  unfold run_pc, guard, do_reply, decide in H0, H1; rewrite ?Hf' in H0, H1; simpl in H0, H1, U.
  (* the list-carrying program counters have a head *)
  all: try (destruct rest as [|r0 rest]; [congruence|]; simpl in H0).
  all: try (ranges H0 MR OR CR).
  (* program counters that can always proceed *)
  all: try (exfalso; conds H0; fail).
  (* lock acquisitions: the mutex is held (the thread waits) or the step is possible *)
  all: try (destruct (lmu s) eqn:L; simpl in H0;
            [ right; eexists; eexists; split; [exact Ht|split; [simpl; rewrite ?Hf'; reflexivity|simpl; rewrite L; reflexivity]]
            | exfalso; conds H0 ]; fail).
  all: try (match type of H0 with context [r_mu ?x] => destruct (r_mu x) eqn:M end; simpl in H0;
            [ right; eexists; eexists; split; [exact Ht|split; [simpl; rewrite ?Hf'; reflexivity|
                simpl; unfold getr in *; repeat match goal with E : nth_error (runners s) _ = Some _ |- _ => rewrite E end; rewrite M; reflexivity]]
            | exfalso; conds H0 ]; fail).
  - left. split.
    + destruct (pendq s) as [|q rest] eqn:P; auto. exfalso.
      destruct (pend_range q) as (y & E); [rewrite P; left; reflexivity|]. rewrite E in H0. conds H0.
    + destruct (unlq s); auto. discriminate H1.
  - left. destruct (unlq s); auto. discriminate H0.
  - left. split.
    + destruct (finq s); auto. discriminate H0.
    + destruct (expq s); auto. discriminate H1.
  - left. unfold qcanc, getf, getq in *. destruct (nth_error (reqs s) q) as [y|]; auto. simpl in H0.
    destruct (q_cancelled y); auto. discriminate H0.
  - left. destruct (Nat.ltb (length (pendq s)) (c_maxq c)) eqn:Q; simpl in H0; [discriminate H0|]. apply Nat.ltb_ge. exact Q.
Qed.

End Analysis.

(* C02, drain clause from "no scheduler step is enabled" *)
Theorem quiescent_drained c s ev :
  fixed c -> 1 <= c_maxq c -> Reach c s ev -> quiescent c s -> settled s -> no_sleepers s ->
  loaded s = [] /\
  (forall r x, getr s r = Some x -> r_closed x = true) /\
  (forall q x, getq s q = Some x -> q_cancelled x = false -> length (q_replies x) = 1).
Proof.
  intros Hf Hq R Qs St Ns.
  pose proof (L2_Reach _ _ _ Hf R) as I2. pose proof (L3_Reach _ _ _ Hf R) as I3.
  pose proof (I_own_Reach _ _ _ R) as IW. pose proof (I_nf_Reach _ _ _ Hf R) as INF.
  pose proof (I_ufs_Reach _ _ _ R) as IU. pose proof (I_tk_Reach _ _ _ Hf R) as ITK.
  destruct (I_locks_Reach _ _ _ Hf R) as (IM & IL & [IP IC]).
  (* 1. every thread is stuck for a benign reason *)
  assert (S1 : forall t p, nth_error (thr s) t = Some p -> stuck_pc c s p).
  { intros t p Ht.
    assert (Hn : forall alt, run_pc c s t p alt = None).
    { intros alt. specialize (Qs t alt). unfold step in Qs. rewrite Ht in Qs. exact Qs. }
    destruct (stuck_or_waits c s Hf IW I2 I3 INF IU t p Ht Hn) as [S|W]; auto. exfalso.
    destruct (no_lock_deadlock c s ev t Hf R W) as (t' & alt & N). apply N. apply Qs. }
  (* 2. the configuration is calm *)
  assert (Calm : Forall (calm_pc s) (thr s)).
  { rewrite Forall_forall. intros p Hin. apply In_nth_error in Hin. destruct Hin as [t Ht].
    pose proof (S1 t p Ht) as S. pose proof (Ns t p Ht) as N. unfold calm_pc.
    destruct p; simpl in S, N; try tauto; eauto 10. }
  (* 3. the completed loop sits at its select: both its queues are empty *)
  assert (QE : finq s = [] /\ expq s = []).
  { destruct (cnt_pos_In isC (thr s) ltac:(lia)) as (p & Hin & Hp). apply In_nth_error in Hin. destruct Hin as [t Ht].
    pose proof (S1 t p Ht) as S. destruct p; simpl in Hp, S; try lia; try tauto. }
  destruct QE as [Fq Eq].
  assert (NoLive : forall r, rclosed s r = false -> False) by (eapply calm_nolive; eauto).
  (* 4. nobody waits for an unloaded event *)
  assert (NoWait : forall t q r, nth_error (thr s) t = Some (PWait q r) -> False).
  { intros t q r Ht. pose proof (S1 t _ Ht) as S. simpl in S.
    destruct (ITK t _ r Ht ltac:(simpl; auto)) as [[A _]|A]; [eauto|].
    assert (Z : cnt tokpend (thr s) = 0) by (apply calm_cnt_zero; auto). lia. }
  (* 5. the pending loop sits at its select: the pending queue is empty *)
  assert (PE : pendq s = []).
  { destruct (cnt_pos_In isP (thr s) ltac:(lia)) as (p & Hin & Hp). apply In_nth_error in Hin. destruct Hin as [t Ht].
    pose proof (S1 t p Ht) as S. destruct p; simpl in Hp, S; try lia; try tauto. exfalso. eapply NoWait; eauto. }
  (* 6. idle *)
  assert (Idle : idle s).
  { split; [|auto]. rewrite Forall_forall in *. intros p Hin. pose proof (Calm p Hin) as Cp.
    apply In_nth_error in Hin. destruct Hin as [t Ht]. unfold idle_pc.
    destruct Cp as [->|[->|[->|[(q & -> & Cq)|[(q & r & ->)|(q & ->)]]]]].
    - left; reflexivity.
    - right; left; reflexivity.
    - right; right; left; reflexivity.
    - right; right; right. exists q. split; auto.
    - exfalso. eapply NoWait; eauto.
    - exfalso. pose proof (S1 t _ Ht) as S. simpl in S. rewrite PE in S. simpl in S. lia. }
  eapply drained; eauto.
Qed.

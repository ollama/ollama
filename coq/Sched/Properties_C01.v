(* C01 - the scheduler never unloads/closes a runner a request is still using; a runner is shut down at most
   once; a runner that has been shut down is never handed to a request.   Theorems only. *)
From Coq Require Import List ZArith NArith Bool.
From V Require Import Sched.Lts Sched.Reach Sched.InvClose Sched.InvLock Sched.InvRef Sched.InvLoad Sched.LlmHealth Sched.Thm Sched.Refute Sched.Examples.
Import ListNotations.

(* In the event history of ANY run of the scheduler model (any configuration, any number of models and
   requests, any interleaving of the scheduler's goroutines with submit / cancel / load outcome / ping outcome /
   timer / explicit-unload events) every runner is shut down at most once. *)
Theorem C01_close_once :
  forall c m ls s ev r, run c (init_m m) ls = Some (s, ev) -> n_close r ev <= 1.
Proof. intros c m ls s ev r H. eapply close_once. eapply run_Reach; eauto. Qed.
Print Assumptions C01_close_once.

Example C01_close_once_nonvacuous :
  exists s ev, run cfg_on (init_m 1) ex_load_unload = Some (s, ev) /\ n_close 0 ev = 1.
Proof. run_witness. split; [vm_compute|]; reflexivity. Qed.

(* For the repaired scheduler ([fixed c]: the three patches of fixes/ applied): in the event history of ANY run,
   every runner handed to a request (a reply "success r") was not shut down at that moment (llama != nil). *)
Theorem C01_no_grant_closed :
  forall c m ls s ev q r cl, fixed c -> run c (init_m m) ls = Some (s, ev) -> In (EReply q (ROk r cl)) ev -> cl = false.
Proof. intros c m ls s ev q r cl Hf H. eapply no_grant_closed; eauto. eapply run_Reach; eauto. Qed.
Print Assumptions C01_no_grant_closed.

Example C01_no_grant_closed_nonvacuous :
  fixed cfg_on /\ exists s ev, run cfg_on (init_m 1) ex_load_unload = Some (s, ev) /\ In (EReply 0 (ROk 0 false)) ev.
Proof. split. reflexivity. run_witness. split; [vm_compute; reflexivity|simpl; tauto]. Qed.

(* A request receives a usable runner or an error: in ANY run (any configuration) a reply "success r" is sent only
   from a state in which the load of r has completed (WaitUntilRunning returned nil: loading = false).  Rests on:
   load()'s goroutine holds refMu(r) from the registration of r until the load has succeeded or failed; needsReload,
   which reads the runner under refMu(r), sends a runner still marked loading - an abandoned load - to the expiry
   path (second theorem); the flag never becomes true again (Sched/InvLoad.v). *)
Theorem C01_no_grant_loading :
  forall c m ls s ev l s' e q r cl, run c (init_m m) ls = Some (s, ev) ->
  step c s l = Some (s', e) -> In (EReply q (ROk r cl)) e -> exists x, getr s r = Some x /\ r_loading x = false.
Proof.
  intros c m ls s ev l s' e q r cl H Hs Hin. apply rloading_false.
  eapply no_grant_loading; eauto. eapply run_Reach; eauto.
Qed.
Print Assumptions C01_no_grant_loading.

Theorem C01_abandoned_load_not_reused :
  forall c s t q r x y, getr s r = Some x -> getq s q = Some y -> r_mu x = None -> r_loading x = true ->
  run_pc c s t (PNr q r) 0%Z = Some (goto s t (PExp q r), []).
Proof.
  intros c s t q r x y Hr Hq Hm Hl. unfold run_pc, guard, reusable. rewrite Hr, Hq, Hm, Hl. simpl.
  rewrite orb_true_r. reflexivity.
Qed.
Print Assumptions C01_abandoned_load_not_reused.

Example C01_no_grant_loading_nonvacuous :
  exists s ev s' q, run cfg_on (init_m 1) (firstn 9 ex_load_unload) = Some (s, ev) /\
    step cfg_on s (LRun 2 0%Z) = Some (s', [EReply q (ROk 0 false)]).
Proof.
  run_witness.
  match goal with |- context [step ?c ?s0 ?l = Some _] =>
    match eval vm_compute in (step c s0 l) with Some (?s1, [EReply ?q _]) => exists s1, q end end.
  split; vm_compute; reflexivity.
Qed.

(* For the repaired scheduler: in every reachable state (any number of models and requests, any interleaving of
   request arrival, completion / cancellation, load success / failure, ping result, keep-alive expiry, explicit
   unload and make-room eviction) a runner that has been handed to a request whose context is not cancelled has not
   been shut down.  Rests on the reference-count invariant of Sched/InvRef.v: refCount(r) = number of requests that
   hold r and whose finish event has not been consumed + references in flight, and a runner is only shut down at
   refCount 0 under refMu(r). *)
Theorem C01_no_close_in_use :
  forall c m ls s ev q x r y, fixed c -> run c (init_m m) ls = Some (s, ev) ->
  getq s q = Some x -> q_grant x = Some r -> q_cancelled x = false -> getr s r = Some y -> r_closed y = false.
Proof. intros c m ls s ev q x r y Hf H. eapply no_close_in_use; eauto. eapply run_Reach; eauto. Qed.
Print Assumptions C01_no_close_in_use.

Example C01_no_close_in_use_nonvacuous :
  fixed cfg_on /\ exists s ev x y, run cfg_on (init_m 1) (firstn 10 ex_load_unload) = Some (s, ev) /\
    getq s 0 = Some x /\ q_grant x = Some 0 /\ q_cancelled x = false /\ getr s 0 = Some y /\ r_closed y = false.
Proof. split. reflexivity. run_witness. do 2 eexists. split; [vm_compute; reflexivity|repeat split; reflexivity]. Qed.

(* The same statements quantified over ALL configurations, i.e. including the scheduler as it was found
   (fixes_off), are false: Sched/Refute.v exhibits the runs (they are replayed against the real code from
   corpus/C01).  [fixed c] is the guard that excludes exactly the unrepaired code. *)
Definition C01_no_close_in_use_full : Prop := no_close_in_use_full.
Theorem C01_no_close_in_use_refuted : ~ C01_no_close_in_use_full.
Proof. exact no_close_in_use_refuted. Qed.
Print Assumptions C01_no_close_in_use_refuted.

Definition C01_no_grant_closed_full : Prop := no_grant_closed_full.
Theorem C01_no_grant_closed_refuted : ~ C01_no_grant_closed_full.
Proof. exact no_grant_closed_refuted. Qed.
Print Assumptions C01_no_grant_closed_refuted.

(* The health check needsReload relies on (Sched/LlmHealth.v): an llm server is alive until it is shut down - by the
   scheduler's unload (Close), by Completion's crash path, or because its process exits - and never comes back.  In
   every history of operations a successful probe (Ping / WaitUntilRunning) implies that no shut-down came before it;
   conversely a server that was never shut down answers every probe.  The real llm.llmServer is compared with this
   machine, operation by operation, by the llm stage of the scheduler harness. *)
Theorem C01_ping_ok_not_closed :
  forall ops k, nth_error (hrun true ops) k = Some (Some true) -> forallb (fun o => negb (closes o)) (firstn k ops) = true.
Proof. exact ping_ok_not_closed. Qed.
Print Assumptions C01_ping_ok_not_closed.

Theorem C01_alive_probe_ok :
  forall ops k o, nth_error ops k = Some o -> (o = HPing \/ o = HWait) ->
  forallb (fun o => negb (closes o)) (firstn k ops) = true -> nth_error (hrun true ops) k = Some (Some true).
Proof. exact alive_probe_ok. Qed.
Print Assumptions C01_alive_probe_ok.

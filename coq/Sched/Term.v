(* Sched/Term.v - termination of the scheduler's internal steps (C02, liveness part).
   With the environment frozen (no Submit / Cancel / Expire / Tick label; the outcomes of loads, pings, newServer calls
   and of the placement oracle are alternatives of the threads' own steps, i.e. they do happen) every sequence of steps
   of the repaired scheduler is finite: the relation [istep] is well-founded on the reachable states.  Sleeping
   goroutines - the 10 ms expiry retry (RTSleep) and the 250 ms re-queue (RSSleep) - are woken by Tick only, so this
   is termination MODULO Tick: within one instant of virtual time the retry loop contributes one inert sleeper.
   Measure (lexicographic, [mu]):
     A  requests not yet placed: 4 x re-queue goroutines about to send + 3 x |pending| + 2 x (pending loop holds one)
        + sleeping re-queue goroutines;
     B  3 x runners not shut down + 3 x (pending loop may still start one) + 2 x (completed loop owes an unloaded
        token) + unloaded tokens                       - bounds the pending loop's  expire -> wait -> look again  loop;
     E  events queued or still to be produced: |expired| + 2 x |finished| + per-thread potential;
     R  sum of the threads' distances to their idle program counter ([rank]; for the pending loop it depends on
        |loaded| and on whether the runner it looked up has been shut down meanwhile - the two back edges
        useLoadedRunner -> look again  and  findRunnerToUnload(nothing loaded) -> look again  are taken only after a
        step of the completed loop that decreased B).
   Then: enabledness of a step is decidable (alternatives are 0..7), so from every reachable state some finite
   internal run ends in a quiescent state, to which Sched/Quiesce.v applies. *)
From Coq Require Import List ZArith NArith Bool Lia Arith Permutation.
From V Require Import Sched.Lts Sched.Tac Sched.Rule Sched.Reach Sched.InvLock Sched.InvStruct Sched.InvCount Sched.ThmVictim Sched.Quiesce.
Import ListNotations.

Definition lt4 (x y : nat * nat * nat * nat) : Prop :=
  match x, y with
  | (a, b, c, d), (a', b', c', d') =>
      a < a' \/ (a = a' /\ (b < b' \/ (b = b' /\ (c < c' \/ (c = c' /\ d < d')))))
  end.

Lemma lt4_wf : well_founded lt4.
Proof.
  intros [[[a b] c] d]. revert b c d.
  induction a as [a IHa] using lt_wf_ind. intros b.
  induction b as [b IHb] using lt_wf_ind. intros c.
  induction c as [c IHc] using lt_wf_ind. intros d.
  induction d as [d IHd] using lt_wf_ind.
  constructor. intros [[[a' b'] c'] d'] L. simpl in L.
  destruct L as [L|[-> [L|[-> [L|[-> L]]]]]]; auto.
Qed.

Fixpoint fa (p : pc) : nat :=
  match p with
  | RSSend _ => 4
  | RSSleep _ _ => 1
  | PLk _ | PNr _ _ | PPing _ _ | PUse _ _ | PUseSend _ _ | PFv _ | PFvR _ _ _ | PExp _ _ | PExpSend _ _
  | PWait _ _ | PErr _ | PFlt _ | PUfs _ _ | PUfsR _ _ _ | PNs _ | PLd1 _ _ | PLd2 _ _ => 2
  | TEntry p' => fa p'
  | _ => 0
  end.

Fixpoint fb (p : pc) : nat :=
  match p with
  | PLk _ | PNr _ _ | PPing _ _ | PUse _ _ | PFv _ | PFvR _ _ _ | PExp _ _ | PExpSend _ _
  | PWait _ _ | PFlt _ | PUfs _ _ | PUfsR _ _ _ | PNs _ => 3
  | CEFin | CETok => 2
  | TEntry p' => fb p'
  | _ => 0
  end.

Fixpoint fe (p : pc) : nat :=
  match p with
  | PLk _ | PNr _ _ | PPing _ _ | PUse _ _ | PFv _ | PFvR _ _ _ | PExp _ _ | PExpSend _ _
  | PFlt _ | PUfs _ _ | PUfsR _ _ _ => 1
  | CFLk _ | CFR _ _ | CFSend _ => 1
  | LWWait _ _ => 2 | LWErr _ _ | LWExp _ => 1
  | FWDone _ | FWSend _ => 2
  | TMLk _ | TMSend _ | RTSend _ | AXLm _ | AXLr _ | AXSend _ => 1
  | TEntry p' => fe p'
  | _ => 0
  end.

Definition rcl (s : state) (r : nat) : bool := getf r_closed false (runners s) r.

Fixpoint rank' (N : nat) (cl : nat -> bool) (p : pc) : nat :=
  let st := if Nat.eqb N 0 then 20 else 0 in
  match p with
  | PSel => 0
  | PLk _ => 20 + 2 * N
  | PNr _ _ => 8
  | PPing _ r => 7 + (if cl r then 20 + 2 * N else 0)
  | PUse _ r => 6 + (if cl r then 20 + 2 * N else 0)
  | PUseSend _ _ => 1
  | PFv _ => 4 + N + st
  | PFvR _ l _ => 3 + length l
  | PExp _ _ => 2
  | PExpSend _ _ => 1
  | PWait _ _ => 0
  | PErr _ => 1
  | PFlt _ => 7 + 2 * N + st
  | PUfs _ _ => 6 + 2 * N + st
  | PUfsR _ _ l => 5 + N + length l + st
  | PNs _ => 3 | PLd1 _ _ => 2 | PLd2 _ _ => 1
  | CSel => 0 | CFLk _ => 3 | CFR _ _ => 2 | CFSend _ => 1
  | CE1 _ => 6 | CE2 _ => 5 | CEV _ => 4 | CEFin => 3 | CETok => 2
  | LWWait _ _ => 6 | LWOk _ _ => 1 | LWErr _ _ => 2 | LWExp _ => 1
  | FWDone _ => 2 | FWSend _ => 1
  | TMLk _ => 2 | TMSend _ => 1
  | RTSleep _ _ => 0 | RTSend _ => 1 | RSSleep _ _ => 0 | RSSend _ => 1
  | AXLm _ => 3 | AXLr _ => 2 | AXSend _ => 1
  | TEntry p' => S (rank' N cl p')
  | TDone => 0
  end.

Definition rank (s : state) : pc -> nat := rank' (length (loaded s)) (rcl s).

Definition mA (s : state) : nat := cnt fa (thr s) + 3 * length (pendq s).
Definition mB (s : state) : nat := cnt fb (thr s) + 3 * nlive s + unlq s.
Definition mE (s : state) : nat := cnt fe (thr s) + length (expq s) + 2 * length (finq s).
Definition mR (s : state) : nat := cnt (rank s) (thr s).
Definition mu (s : state) : nat * nat * nat * nat := (mA s, mB s, mE s, mR s).

Lemma rank'_ext N cl1 cl2 p : (forall r, cl1 r = cl2 r) -> rank' N cl1 p = rank' N cl2 p.
Proof. intros E. induction p; simpl; auto; rewrite E; auto. Qed.

Lemma vsort_length s l : length (vsort s l) = length l.
Proof. apply Permutation_length. apply vsort_perm. Qed.

Lemma remove_nth_length {A} (l : list A) : forall i x, nth_error l i = Some x -> S (length (remove_nth l i)) = length l.
Proof. induction l as [|h tl IH]; intros [|i] x H; simpl in *; try discriminate; auto. erewrite IH; eauto. Qed.

Definition istep (c : config) (s' s : state) : Prop := exists t alt e, step c s (LRun t alt) = Some (s', e).

Lemma rcl_get s r x : getr s r = Some x -> rcl s r = r_closed x.
Proof. unfold rcl, getr. intros E. erewrite getf_some; eauto. Qed.

Lemma rank_frame s s' :
  length (loaded s') = length (loaded s) -> (forall r, rcl s' r = rcl s r) -> forall p, rank s' p = rank s p.
Proof. intros L C p. unfold rank. rewrite L. apply rank'_ext. exact C. Qed.


Ltac bool_props :=
  repeat match goal with
  | H : _ && _ = true |- _ => apply andb_prop in H; destruct H
  | H : _ || _ = false |- _ => apply orb_false_elim in H; destruct H
  | H : negb _ = false |- _ => apply negb_false_iff in H
  | H : negb _ = true |- _ => apply negb_true_iff in H
  | H : Nat.ltb _ _ = true |- _ => apply Nat.ltb_lt in H
  | H : Nat.ltb _ _ = false |- _ => apply Nat.ltb_ge in H
  | H : Nat.leb _ _ = true |- _ => apply Nat.leb_le in H
  | H : Nat.leb _ _ = false |- _ => apply Nat.leb_gt in H
  | H : Nat.eqb _ _ = true |- _ => apply Nat.eqb_eq in H
  | H : Nat.eqb _ _ = false |- _ => apply Nat.eqb_neq in H
  end.

Lemma rcl_snoc l y j : r_closed y = false -> getf r_closed false (l ++ [y]) j = getf r_closed false l j.
Proof.
  intros C. rewrite getf_snoc. destruct (Nat.eqb j (length l)) eqn:Q; auto.
  apply Nat.eqb_eq in Q. subst. rewrite getf_none; auto.
Qed.

Ltac qfacts :=
  repeat match goal with
  | E : vsort _ (map snd (loaded _)) = _ |- _ => apply (f_equal (@length nat)) in E; rewrite vsort_length, map_length in E; simpl in E
  | E : map snd (loaded _) = _ |- _ => apply (f_equal (@length nat)) in E; rewrite map_length in E; simpl in E
  | E : remove_nth ?l ?i = _, E' : nth_error ?l ?i = Some _ |- _ =>
      apply (f_equal (@length nat)) in E; pose proof (remove_nth_length _ _ _ E'); simpl in E
  | E : pendq _ = _ |- _ => apply (f_equal (@length nat)) in E; simpl in E
  | E : finq _ = _ |- _ => apply (f_equal (@length nat)) in E; simpl in E
  | E : expq _ = _ |- _ => apply (f_equal (@length nat)) in E; simpl in E
  end.

(* the rank function of the post-state is that of the pre-state whenever [loaded] keeps its length and no runner is closed *)
Ltac rank_same s :=
  match goal with
  | |- lt4 (mu ?S') (mu s) =>
      try (assert (RS : forall p, rank S' p = rank s p) by
            (apply rank_frame; [reflexivity | intros ?rr; unfold rcl, finish, setr, setq; simpl; rewrite ?rcl_snoc by reflexivity; acc_norm; reflexivity]);
           unfold mu, mR; rewrite (cnt_ext (rank S') (rank s) _ RS))
  end.

Ltac comps :=
  unfold lt4, mu, mA, mB, mE, mR, nlive, finish, setr, setq; simpl;
  rewrite ?app_length; simpl;
  repeat match goal with
  | E : getr _ ?r = Some ?x |- context [cnt livef (upd (runners _) ?r ?y)] =>
      unfold getr in E; rewrite (cnt_upd_eq livef _ _ _ y E); pose proof (cnt_ge livef _ _ _ E)
  end;
  rewrite ?cnt_snoc; unfold rank, livef in *; simpl in *; try lia;
  repeat match goal with
  | E : nth_error (runners ?s) ?r = Some ?x |- _ =>
      lazymatch goal with
      | _ : rcl s r = r_closed x |- _ => fail
      | _ => assert (rcl s r = r_closed x) by (unfold rcl; erewrite getf_some; eauto)
      end
  end;
  repeat match goal with
  | E : getr ?s ?r = Some ?x |- _ =>
      lazymatch goal with
      | _ : rcl s r = r_closed x |- _ => fail
      | _ => pose proof (rcl_get s r x E)
      end
  end;
  repeat match goal with H : rcl _ _ = r_closed _ |- _ => rewrite H in * end;
  repeat match goal with H : r_closed ?x = true |- _ => rewrite H in * | H : r_closed ?x = false |- _ => rewrite H in * end;
  try lia;
  repeat match goal with
  | |- context [if Nat.eqb ?a ?b then _ else _] => destruct (Nat.eqb a b) eqn:?; bool_props
  | H : context [if Nat.eqb ?a ?b then _ else _] |- _ => destruct (Nat.eqb a b) eqn:?; bool_props
  | |- context [if rcl ?s ?r then _ else _] => destruct (rcl s r) eqn:?
  | H : context [if rcl ?s ?r then _ else _] |- _ => destruct (rcl s r) eqn:?
  end.

Lemma step_decreases c s t alt s' e :
  fixed c -> L2 s -> step c s (LRun t alt) = Some (s', e) -> lt4 (mu s') (mu s).
Proof.
  intros Hf I H. fix_cfg c Hf. apply step_stepR in H. inversion H as [| | | | |t0 alt0 p s1 p' o e0 Ep R]; subst. clear H.
  pose proof (cnt_ge fa _ _ _ Ep) as Ga. pose proof (cnt_ge fb _ _ _ Ep) as Gb.
  pose proof (cnt_ge fe _ _ _ Ep) as Ge. pose proof (cnt_ge (rank s) _ _ _ Ep) as Gr.
  (* which component falls, e.g.: A when the pending loop takes a request from the queue or is done with the one it
     holds, and when a re-queue goroutine sends; B when CEV shuts a runner down or an unloaded event is consumed (PSel,
     PWait); E when the completed loop takes an event (CSel); in the other rules the rank R of the stepping thread *)
  destruct (rule_cnt fa R Ep) as [_ Ca]. destruct (rule_cnt fb R Ep) as [_ Cb].
  destruct (rule_cnt fe R Ep) as [_ Ce]. destruct (rule_cnt (rank s) R Ep) as [_ Cr].
  destruct R; try discriminate; rank_same s; bool_props; qfacts;
  unfold finish, setr, setq in Ca, Cb, Ce, Cr; simpl in Ca, Cb, Ce, Cr; comps; try lia; try congruence.
  - (* CEV: the runner being unloaded is registered, hence not shut down yet *)
    exfalso. destruct (l2_cev s I _ _ _ Ep eq_refl) as (m & _ & Lk). destruct (l2_loaded s I _ _ Lk) as [_ C].
    unfold rclosed in C. erewrite getf_some in C by eassumption. congruence.
Qed.

Theorem internal_terminates c s ev : fixed c -> Reach c s ev -> Acc (istep c) s.
Proof.
  intros Hf. remember (mu s) as m eqn:Em. revert s ev Em.
  induction m as [m IH] using (well_founded_ind lt4_wf). intros s ev Em R. subst m.
  constructor. intros s' (t & alt & e & Hs).
  eapply (IH (mu s')); eauto.
  - eapply step_decreases; eauto. eapply L2_Reach; eauto.
  - eapply Reach_step; eauto.
Qed.

(* [alt_range] needs [lia] to see through alt / 4 and alt mod 4 (rule PUfsR); the hook acts on every file importing this one *)
Ltac Zify.zify_post_hook ::= Z.to_euclidean_division_equations.

Lemma alt_range c s t p alt x : run_pc c s t p alt = Some x -> (0 <= alt < 8)%Z.
Proof. destruct x as [s' e]. intros H. destruct (run_pc_rule H) as (s1 & p' & sp & R & _). destruct R; lia. Qed.

Definition alts : list Z := [0; 1; 2; 3; 4; 5; 6; 7]%Z.
Definition is_some {A} (o : option A) : bool := match o with Some _ => true | None => false end.

Definition enabled_b (c : config) (s : state) : bool :=
  existsb (fun t => existsb (fun alt => is_some (step c s (LRun t alt))) alts) (seq 0 (length (thr s))).

Lemma enabled_false c s : enabled_b c s = false -> quiescent c s.
Proof.
  intros E t alt. destruct (step c s (LRun t alt)) as [x|] eqn:Hs; auto. exfalso.
  unfold step in Hs. destruct (nth_error (thr s) t) as [p|] eqn:Ep; try discriminate.
  pose proof (alt_range _ _ _ _ _ _ Hs) as Rg.
  assert (Ht : t < length (thr s)) by (apply nth_error_Some; congruence).
  assert (X : enabled_b c s = true).
  { unfold enabled_b. apply existsb_exists. exists t. split. apply in_seq. lia.
    apply existsb_exists. exists alt. split.
    - unfold alts. simpl. assert (alt = 0 \/ alt = 1 \/ alt = 2 \/ alt = 3 \/ alt = 4 \/ alt = 5 \/ alt = 6 \/ alt = 7)%Z by lia. intuition.
    - unfold step. rewrite Ep, Hs. reflexivity. }
  congruence.
Qed.

Lemma enabled_true c s : enabled_b c s = true -> exists t alt x, step c s (LRun t alt) = Some x.
Proof.
  unfold enabled_b. intros E. apply existsb_exists in E. destruct E as (t & _ & E).
  apply existsb_exists in E. destruct E as (alt & _ & E).
  destruct (step c s (LRun t alt)) as [x|] eqn:Hs; try discriminate. eauto.
Qed.

Definition internal (ls : list label) : Prop := Forall (fun l => match l with LRun _ _ => True | _ => False end) ls.

Lemma reaches_quiescent c s : Acc (istep c) s ->
  exists ls s' ev', internal ls /\ run c s ls = Some (s', ev') /\ quiescent c s'.
Proof.
  induction 1 as [s _ IH].
  destruct (enabled_b c s) eqn:E.
  - apply enabled_true in E. destruct E as (t & alt & [s1 e1] & Hs).
    destruct (IH s1) as (ls & s' & ev' & Il & Hr & Q). { exists t, alt, e1. exact Hs. }
    exists (LRun t alt :: ls), s', (e1 ++ ev'). split; [constructor; simpl; auto|]. split; auto.
    cbn [run]. rewrite Hs, Hr. reflexivity.
  - exists [], s, []. split; [constructor|]. split; [reflexivity|]. apply enabled_false; auto.
Qed.

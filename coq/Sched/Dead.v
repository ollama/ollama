(* Sched/Dead.v - the repaired scheduler has no lock deadlock: whenever a thread waits for a mutex, some scheduler
   thread can take a step (the holder chain loadedMu -> refMu(r) ends in a thread that is runnable). *)
From Coq Require Import List ZArith NArith Bool Lia Arith.
From V Require Import Sched.Lts Sched.Tac Sched.Reach Sched.InvOwn Sched.InvLock Sched.InvStruct Sched.InvRef
  Sched.InvProg Sched.Refute.
Import ListNotations.

Definition can_step (c : config) (s : state) : Prop := exists t alt, step c s (LRun t alt) <> None.

Lemma can_step_thread c s t p alt :
  nth_error (thr s) t = Some p -> run_pc c s t p alt <> None -> can_step c s.
Proof. intros E N. exists t, alt. unfold step. rewrite E. exact N. Qed.

Lemma hr_mentions r p : hr r p <= mentions r p + freshr r p.
Proof.
  unfold freshr. induction p; simpl; auto; try lia.
Qed.

Lemma hr_le1 r p : hr r p <= 1.
Proof. induction p; simpl; auto; unfold eqn; try (destruct (Nat.eqb _ _); lia). Qed.

Section Dead.
Variables (c : config) (s : state).
Hypothesis Hf : fixed c.
Hypothesis IW : I_own s.
Hypothesis IM : I_muc s.
Hypothesis IL : I_lmuc s.
Hypothesis IO : I_one s.
Hypothesis I2 : L2 s.
Hypothesis INF : I_nf s.
Hypothesis IU : I_ufs s.

Lemma mention_range r : 1 <= cnt (mentions r) (thr s) -> exists x, getr s r = Some x.
Proof.
  intros Hm. unfold getr. destruct (nth_error (runners s) r) as [x|] eqn:E; eauto. exfalso.
  apply nth_error_None in E. specialize (INF r (or_introl E)). lia.
Qed.

Lemma owner_range q t p : nth_error (thr s) t = Some p -> ownf q p = 1 -> exists y, getq s q = Some y.
Proof.
  intros Ht Ho. specialize (IW q). unfold owned in IW. pose proof (cnt_ge (ownf q) _ _ _ Ht) as Ge. rewrite Ho in Ge.
  unfold getq. destruct (nth_error (reqs s) q) as [y|] eqn:E; eauto. exfalso.
  apply nth_error_None in E. destruct (Nat.ltb q (length (reqs s))) eqn:Q; [apply Nat.ltb_lt in Q; lia|lia].
Qed.

Lemma ref_holder_runs r x :
  getr s r = Some x -> r_mu x <> None -> 1 <= cnt (mentions r) (thr s) -> can_step c s.
Proof.
  intros E Hm Hmen. fix_cfg c Hf.
  pose proof (IM r) as M. unfold getd, mu1, getr in *. rewrite E in M.
  destruct (r_mu x) eqn:Mu; [|congruence].
  destruct (cnt_pos_In (hr r) (thr s) ltac:(lia)) as (p & Hin & Hp).
  apply In_nth_error in Hin. destruct Hin as [t Ht].
  assert (NF : freshr r p = 0).
  { destruct (freshr r p) eqn:F; auto. exfalso.
    pose proof (cnt_ge (freshr r) _ _ _ Ht) as Ge. assert (X : 1 <= cnt (freshr r) (thr s)) by lia.
    pose proof (INF r (or_intror X)). lia. }
  clear M Hmen.
  induction p; simpl in Hp; try lia;
  try (unfold eqn in Hp; match type of Hp with context [Nat.eqb ?a ?b] => destruct (Nat.eqb a b) eqn:Q; [apply Nat.eqb_eq in Q; subst|lia] end).
  all: try (eapply (can_step_thread _ _ t _ 0%Z); [exact Ht|]; unfold run_pc, guard, do_reply, getr, getq in *; simpl; rewrite ?E; simpl; try discriminate;
            match goal with
            | |- context [nth_error (reqs s) ?q] =>
                destruct (owner_range q _ _ Ht ltac:(simpl; unfold eqn; rewrite Nat.eqb_refl; reflexivity)) as (y & Ey);
                unfold getq in Ey; rewrite Ey; simpl; discriminate
            | _ => discriminate
            end).
  - (* PLd2: r would be fresh *)
    unfold freshr in NF. simpl in NF. unfold eqn in NF. rewrite Nat.eqb_refl in NF. discriminate.
  - eapply (can_step_thread _ _ t _ 0%Z); [exact Ht|]. unfold run_pc, guard. simpl. destruct p; discriminate.
Qed.

Lemma mention_pc r t p : nth_error (thr s) t = Some p -> 1 <= mentions r p -> 1 <= cnt (mentions r) (thr s).
Proof. intros Ht Hm. pose proof (cnt_ge (mentions r) _ _ _ Ht). lia. Qed.

Lemma ref_free_or_runs r t p : nth_error (thr s) t = Some p -> 1 <= mentions r p ->
  (exists x, getr s r = Some x /\ r_mu x = None) \/ can_step c s.
Proof.
  intros Ht Hm. pose proof (mention_pc r t p Ht Hm) as Hc. destruct (mention_range r Hc) as (x & E).
  destruct (r_mu x) eqn:Mu; [right|left; eauto]. eapply ref_holder_runs; eauto. congruence.
Qed.

Lemma lmu_holder_runs : lmu s <> None -> can_step c s.
Proof.
  intros Hl. pose proof IL as L. unfold I_lmuc, lm1 in L. destruct (lmu s) eqn:Lm; [|congruence].
  destruct (cnt_pos_In hl (thr s) ltac:(lia)) as (p & Hin & Hp).
  apply In_nth_error in Hin. destruct Hin as [t Ht].
  pose proof (Forall_nth_error _ _ _ _ IU Ht) as U.
  assert (Hf' := Hf). unfold fixed in Hf'.
  induction p; simpl in Hp; try lia.
  - (* PUfsR: visit the first remaining runner *)
    simpl in U. destruct rest as [|r tl]; [congruence|].
    destruct (ref_free_or_runs r t _ Ht) as [(x & E & Mu)|C]; auto.
    { simpl. rewrite inl_cons, Nat.eqb_refl. lia. }
    eapply (can_step_thread _ _ t _ 0%Z); [exact Ht|]. unfold run_pc, guard, decide. rewrite ?Hf'. simpl. rewrite E, Mu. simpl.
    destruct tl; simpl; discriminate.
  - (* CE2: lock refMu(r) *)
    destruct (ref_free_or_runs r t _ Ht) as [(x & E & Mu)|C]; auto.
    { simpl. unfold eqn. rewrite Nat.eqb_refl. lia. }
    eapply (can_step_thread _ _ t _ 0%Z); [exact Ht|]. unfold run_pc, guard. rewrite ?Hf'. simpl. rewrite E, Mu. simpl.
    destruct (N.ltb 0 (r_ref x)); [discriminate|]. destruct (stale s r x); discriminate.
  - destruct (mention_range r (mention_pc r t _ Ht ltac:(simpl; unfold eqn; rewrite Nat.eqb_refl; lia))) as (x & E).
    eapply (can_step_thread _ _ t _ 0%Z); [exact Ht|]. unfold run_pc, guard. rewrite ?Hf'. simpl. rewrite E. simpl. destruct (r_closed x); discriminate.
  - destruct (ref_free_or_runs r t _ Ht) as [(x & E & Mu)|C]; auto.
    { simpl. unfold eqn. rewrite Nat.eqb_refl. lia. }
    eapply (can_step_thread _ _ t _ 0%Z); [exact Ht|]. unfold run_pc, guard. rewrite ?Hf'. simpl. rewrite E, Mu. simpl.
    destruct (N.eqb (r_ref x) 0); discriminate.
  - destruct (mention_range r (mention_pc r t _ Ht ltac:(simpl; unfold eqn; rewrite Nat.eqb_refl; lia))) as (x & E).
    eapply (can_step_thread _ _ t _ 0%Z); [exact Ht|]. unfold run_pc, guard. rewrite ?Hf'. simpl. rewrite E. simpl. discriminate.
  - eapply (can_step_thread _ _ t _ 0%Z); [exact Ht|]. unfold run_pc, guard. simpl. destruct p; discriminate.
Qed.

Lemma hr_fresh_P r p : 1 <= freshr r p -> isP p = 1.
Proof. unfold freshr. destruct (freshpc p) as [[q r']|] eqn:E; [|lia]. intros _. eapply freshpc_isP; eauto. Qed.

Lemma no_lock_deadlock_here t : waits_for_mutex c s t -> can_step c s.
Proof.
  intros (p & m & Ht & Hw & Hh). destruct m as [|r].
  - apply lmu_holder_runs. simpl in Hh. destruct (lmu s); [discriminate|discriminate].
  - simpl in Hh. destruct (getr s r) as [x|] eqn:E; [|discriminate]. destruct (r_mu x) eqn:Mu; [|discriminate].
    assert (Hf' := Hf). unfold fixed in Hf'.
    destruct (Nat.eq_dec (mentions r p) 0) as [Z|NZ].
    + (* the waiting thread is the pending loop about to lock the refMu of its fresh runner: nobody holds it *)
      exfalso. assert (FP : freshr r p = 1).
      { destruct p; simpl in Hw; try discriminate; simpl in Z; unfold eqn in *;
        try (inv Hw; rewrite Nat.eqb_refl in Z; discriminate);
        try (destruct (fxC (c_fix c)); inv Hw; rewrite Nat.eqb_refl in Z; discriminate);
        try (destruct rest; try discriminate; inv Hw; rewrite inl_cons, Nat.eqb_refl in Z; simpl in Z; discriminate).
        inv Hw. unfold freshr. simpl. unfold eqn. rewrite Nat.eqb_refl. reflexivity. }
      pose proof (cnt_ge (freshr r) _ _ _ Ht) as Ge.
      assert (X : 1 <= cnt (freshr r) (thr s)) by lia. pose proof (INF r (or_intror X)) as NF.
      pose proof (IM r) as M. unfold getd, mu1, getr in *. rewrite E, Mu in M.
      destruct (cnt_pos_In (hr r) (thr s) ltac:(lia)) as (p2 & Hin & Hp2).
      apply In_nth_error in Hin. destruct Hin as [t2 Ht2].
      pose proof (hr_mentions r p2) as HM. pose proof (cnt_ge (mentions r) _ _ _ Ht2) as Ge2.
      assert (F2 : 1 <= freshr r p2) by lia.
      destruct (Nat.eq_dec t t2) as [->|NE].
      * rewrite Ht in Ht2. inv Ht2. destruct p2; simpl in Hw; try discriminate; simpl in Hp2; try lia;
        try (destruct (fxC (c_fix c)); discriminate); try (destruct rest; discriminate).
      * pose proof (cnt_two isP _ _ _ _ _ NE Ht Ht2) as Two. destruct IO as [IP _].
        rewrite (hr_fresh_P r p ltac:(lia)), (hr_fresh_P r p2 F2) in Two. lia.
    + eapply ref_holder_runs; eauto; try congruence. eapply mention_pc; eauto. lia.
Qed.

End Dead.

Theorem no_lock_deadlock c s ev t : fixed c -> Reach c s ev -> waits_for_mutex c s t -> can_step c s.
Proof.
  intros Hf R W. destruct (I_locks_Reach _ _ _ Hf R) as (A & B & C).
  eapply no_lock_deadlock_here; eauto using I_own_Reach, L2_Reach, I_nf_Reach, I_ufs_Reach.
Qed.

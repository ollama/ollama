(* Sched/InvCount.v - counting the running runners of the repaired scheduler: they are exactly the entries of
   [loaded] plus the one the pending loop may be registering; the pending loop only starts one when there is room. *)
From Coq Require Import List ZArith NArith Bool Lia Arith.
From V Require Import Sched.Lts Sched.Tac Sched.Rule Sched.Reach Sched.InvOwn Sched.InvLock Sched.InvStruct.
Import ListNotations.

Definition livef (x : runner) : nat := if r_closed x then 0 else 1.
Definition freshp (p : pc) : nat := match freshpc p with Some _ => 1 | None => 0 end.
Definition inpl (p : pc) : nat := match inplace p with Some _ => 1 | None => 0 end.

(* number of runners that have been started and not shut down *)
Definition nlive (s : state) : nat := cnt livef (runners s).

Definition I_count (s : state) : Prop := nlive s = length (loaded s) + cnt freshp (thr s).

Definition I_cap (s : state) : Prop :=
  (maxr s = 0 -> loaded s = [] /\ cnt inpl (thr s) = 0) /\
  (0 < maxr s -> length (loaded s) + cnt inpl (thr s) <= maxr s).

Lemma inpl_isP p : inpl p <= isP p.
Proof. unfold inpl. induction p; simpl; auto. Qed.

Lemma freshp_inpl p : freshp p <= inpl p.
Proof. unfold freshp, inpl. induction p; simpl; auto. Qed.

Lemma insert_length_absent l m r : lookup l m = None -> length (insert l m r) = S (length l).
Proof.
  intros N. unfold insert. simpl. f_equal. induction l as [|[k v] tl IH]; simpl in *; auto.
  destruct (Nat.eqb k m); try discriminate. simpl. auto.
Qed.

Lemma remove_key_absent l m : ~ In m (map fst l) -> remove_key l m = l.
Proof.
  induction l as [|[k v] tl IH]; simpl; intros N; auto.
  destruct (Nat.eqb k m) eqn:E.
  - apply Nat.eqb_eq in E. tauto.
  - f_equal. apply IH. tauto.
Qed.

Lemma remove_key_length_present l m r :
  NoDup (map fst l) -> lookup l m = Some r -> S (length (remove_key l m)) = length l.
Proof.
  induction l as [|[k v] tl IH]; simpl; intros N E; try discriminate. inv N.
  destruct (Nat.eqb k m) eqn:Q.
  - apply Nat.eqb_eq in Q. subst. rewrite remove_key_absent; auto.
  - simpl. f_equal. apply IH; auto.
Qed.

Lemma I_count_Reach c s ev : fixed c -> Reach c s ev -> I_count s.
Proof.
  intros Hf R. induction R as [m|s ev l s' e R I H]; [reflexivity|].
  pose proof (L2_Reach _ _ _ Hf R) as I2. clear R.
  unfold I_count, nlive in *. fix_cfg c Hf. apply step_stepR in H.
  destruct H as [sp _|sp _|q0 y _ _|m|d _|t alt p s1 p' o e0 Ht R]; try exact I.
  - simpl. rewrite cnt_snoc. unfold freshp at 2. simpl. lia.
  - rewrite tick_runners, tick_loaded, tick_cnt, fire_cnt by reflexivity. exact I.
  - (* a runner is created fresh (PNs), registered (PLd2), or shut down and unregistered (CEV) *)
    destruct (rule_cnt freshp R Ht) as [Ge C].
    destruct R; fixed_only; unfold freshp in *; simpl in C, Ge |- *; unfold getq, getr in *; try lia;
    try (repeat (erewrite (cnt_upd_eq livef) by eassumption); rewrite ?cnt_snoc;
         repeat match goal with E : nth_error (runners s) _ = Some _ |- _ => pose proof (cnt_ge livef _ _ _ E); revert E end; intros;
         unfold livef in *; simpl in *;
         repeat match goal with E : r_closed _ = _ |- _ => rewrite E in * end; lia).
    + destruct (l2_absent s I2 _ _ _ Ht eq_refl) as (mq' & A1 & A2).
      destruct (l2_fresh s I2 _ _ _ _ Ht eq_refl) as (F1 & (mf & F2 & F3) & F4).
      unfold qmodel, rmodel in *. rewrite A1 in F2. inv F2. erewrite getf_some in F3 by eassumption. inv F3.
      pose proof (insert_length_absent _ _ r A2) as IL. unfold insert in IL. simpl in IL.
      erewrite (cnt_upd_eq livef) by eassumption.
      match goal with E : nth_error (runners s) _ = Some _ |- _ => pose proof (cnt_ge livef _ _ _ E) end.
      unfold livef in *. simpl in *. lia.
    + (* CEV of an already closed runner: impossible, it is registered in [loaded] *)
      exfalso. destruct (l2_cev s I2 _ _ _ Ht eq_refl) as (m3 & C1 & C2).
      destruct (l2_loaded s I2 _ _ C2) as [_ K2]. unfold rclosed in K2. erewrite getf_some in K2 by eassumption. congruence.
    + destruct (l2_cev s I2 _ _ _ Ht eq_refl) as (m3 & C1 & C2). unfold rmodel in C1. erewrite getf_some in C1 by eassumption. inv C1.
      pose proof (remove_key_length_present _ _ _ (l2_nodup s I2) C2).
      erewrite (cnt_upd_eq livef) by eassumption.
      match goal with E : nth_error (runners s) _ = Some _ |- _ => pose proof (cnt_ge livef _ _ _ E) end.
      unfold livef in *. simpl in *. match goal with E : r_closed _ = false |- _ => rewrite E in * end. lia.
Qed.

Lemma I_cap_Reach c s ev : fixed c -> 1 <= c_ngpus c -> Reach c s ev -> I_cap s.
Proof.
  intros Hf Hg R. induction R as [m|s ev l s' e R I H].
  { unfold I_cap. simpl. split; intros; auto. lia. }
  pose proof (L2_Reach _ _ _ Hf R) as I2.
  destruct I as [I0 I1]. unfold I_cap. destruct (I_one_Reach _ _ _ R) as [IP _]. clear R. fix_cfg c Hf. simpl in Hg. apply step_stepR in H.
  destruct H as [sp _|sp _|q0 y _ _|m|d _|t alt p s1 p' o e0 Ht R]; auto.
  - simpl. rewrite cnt_snoc. unfold inpl at 2 4. simpl. rewrite !Nat.add_0_r. auto.
  - rewrite tick_loaded, tick_maxr, tick_cnt by reflexivity. auto.
  - destruct (rule_cnt inpl R Ht) as [Ge C].
    destruct R; fixed_only; unfold inpl in C, Ge |- *; simpl in C, Ge |- *;
    (* the placement begins at PLk, when there is room, and ends when the runner is registered or the load is given up *)
    try (split; intros Hm; [destruct (I0 Hm) as [L0 C0]; split; [exact L0|unfold inpl in C0; lia]
                           |specialize (I1 Hm); unfold inpl in I1; lia]).
    1-5: (* PLk: the pending loop decides to start a runner (or fails on a bad model file) *)
      pose proof (cnt_le_at inpl isP _ _ _ inpl_isP Ht) as Le; rewrite IP in Le; unfold inpl in Le; simpl in Le;
      match goal with E : _ && _ = false |- _ => apply andb_false_iff in E; rewrite Nat.ltb_ge, Nat.leb_gt in E end;
      unfold models_per_gpu; destruct (Nat.eqb (maxr s) 0) eqn:Z0;
      [ apply Nat.eqb_eq in Z0; destruct (I0 Z0) as [L0 C0]; unfold inpl in C0; rewrite L0; simpl;
        destruct (Z.eqb _ 0); split; intros; try split; auto; lia
      | apply Nat.eqb_neq in Z0; specialize (I1 ltac:(lia)); unfold inpl in I1; split; intros; try split; auto; lia ].
    2,3: (* CEV: [loaded] does not grow *)
      pose proof (remove_key_length (loaded s) (r_model x));
      split; intros Hm; [destruct (I0 Hm) as [L0 C0]; unfold inpl in C0; rewrite L0; simpl; split; auto
                        |specialize (I1 Hm); unfold inpl in I1]; lia.
    + (* PLd2: the runner is registered under a model for which nothing was *)
      destruct (l2_absent s I2 _ _ _ Ht eq_refl) as (mq' & A1 & A2).
      destruct (l2_fresh s I2 _ _ _ _ Ht eq_refl) as (_ & (mf & F2 & F3) & _).
      rewrite A1 in F2. inv F2. erewrite rmodel_get in F3 by eassumption. inv F3.
      pose proof (insert_length_absent _ _ r A2) as IL. unfold insert in IL. simpl in IL.
      split; intros Hm; [destruct (I0 Hm) as [L0 C0]; unfold inpl in C0|specialize (I1 Hm); unfold inpl in I1]; lia.
Qed.

Lemma counts_Reach c s ev : fixed c -> 1 <= c_ngpus c -> Reach c s ev -> I_count s /\ I_cap s.
Proof. intros Hf Hg R. split; [eapply I_count_Reach|eapply I_cap_Reach]; eassumption. Qed.

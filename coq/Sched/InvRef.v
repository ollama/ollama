(* Reference counting of the repaired scheduler: refCount(r) is the number of requests that hold r and whose finish
   event has not been consumed, plus the references in flight (the load's initial reference, a grant being delivered);
   a runner with refCount > 0 is never shut down. *)
From Coq Require Import List ZArith NArith Bool Lia Arith.
From V Require Import Sched.Lts Sched.Tac Sched.Rule Sched.Reach Sched.InvOwn Sched.InvLock Sched.InvStruct.
Import ListNotations.

Definition usef (r : nat) (x : req) : nat :=
  match q_grant x with Some r' => if q_fin x then 0 else eqn r' r | None => 0 end.

Fixpoint inflf (r : nat) (p : pc) : nat :=
  match p with
  | PLd1 _ r' | PLd2 _ r' | LWWait _ r' | LWOk _ r' | PUseSend _ r' => eqn r' r
  | TEntry p' => inflf r p'
  | _ => 0
  end.

Fixpoint tokf (q : nat) (p : pc) : nat :=
  match p with
  | FWDone q' | FWSend q' | CFLk q' | CFR q' _ => eqn q' q
  | TEntry p' => tokf q p'
  | _ => 0
  end.

Fixpoint lwokf (q : nat) (p : pc) : nat :=
  match p with LWOk q' _ => eqn q' q | TEntry p' => lwokf q p' | _ => 0 end.

Fixpoint lwokrf (q r : nat) (p : pc) : nat :=
  match p with LWOk q' r' => eqn q' q * eqn r' r | TEntry p' => lwokrf q r p' | _ => 0 end.

Definition grantedn (x : req) : nat := match q_grant x with Some _ => 1 | None => 0 end.
Definition finn (x : req) : nat := if q_fin x then 1 else 0.

Definition rref (s : state) (r : nat) : N := getf r_ref 0%N (runners s) r.
Definition qgrant (s : state) (q : nat) : option nat := getf q_grant None (reqs s) q.
Definition qcanc (s : state) (q : nat) : bool := getf q_cancelled false (reqs s) q.
Definition users (s : state) (r : nat) : nat := cnt (usef r) (reqs s).
Definition infl (s : state) (r : nat) : nat := cnt (inflf r) (thr s).

(* program points that carry a cancelled request's finish token *)
Fixpoint canpc (p : pc) : option nat :=
  match p with FWSend q | CFLk q | CFR q _ => Some q | TEntry p' => canpc p' | _ => None end.

Fixpoint cfrpc (p : pc) : option (nat * nat) :=
  match p with CFR q r => Some (q, r) | TEntry p' => cfrpc p' | _ => None end.

(* the thread works on request q with runner r: the load goroutine, or the pending loop after a successful lookup *)
Fixpoint mdlpc (p : pc) : option (nat * nat) :=
  match p with
  | LWWait q r | LWOk q r | PNr q r | PPing q r | PUse q r | PUseSend q r => Some (q, r)
  | TEntry p' => mdlpc p'
  | _ => None
  end.

Record L3 (s : state) : Prop := mkL3 {
  l3_ref : forall r, rref s r = N.of_nat (users s r + infl s r);
  l3_tok : forall q, occ q (finq s) + cnt (tokf q) (thr s) + getd finn (reqs s) q
                     = getd grantedn (reqs s) q + cnt (lwokf q) (thr s);
  l3_grant : forall q x, getq s q = Some x ->
             (forall r, q_grant x = Some r -> q_replies x <> [] /\ rmodel s r = Some (q_model x)) /\
             (q_fin x = true -> q_grant x <> None /\ q_cancelled x = true);
  l3_cev : forall t p r, nth_error (thr s) t = Some p -> cevpc p = Some r -> rref s r = 0%N;
  l3_closed : forall r, rclosed s r = true -> rref s r = 0%N;
  l3_canpc : forall t p q, nth_error (thr s) t = Some p -> canpc p = Some q -> qcanc s q = true;
  l3_finq : forall q, In q (finq s) -> qcanc s q = true;
  l3_cfr : forall t p q r, nth_error (thr s) t = Some p -> cfrpc p = Some (q, r) ->
           qgrant s q = Some r \/ 1 <= cnt (lwokrf q r) (thr s);
  l3_mdl : forall t p q r, nth_error (thr s) t = Some p -> mdlpc p = Some (q, r) ->
           exists m, qmodel s q = Some m /\ rmodel s r = Some m;
  l3_fresh : forall t p q r, nth_error (thr s) t = Some p -> freshpc p = Some (q, r) ->
             users s r = 0 /\ infl s r = 1 /\ rref s r = 1%N
}.

Lemma pred_wrap_S k : pred_wrap (N.of_nat (S k)) = N.of_nat k.
Proof. unfold pred_wrap. destruct (N.eqb (N.of_nat (S k)) 0) eqn:E; [apply N.eqb_eq in E; lia|]. lia. Qed.

Lemma tick_rref s d r : rref (tick s d) r = rref s r.
Proof. unfold rref. rewrite tick_runners. apply fire_getf. reflexivity. Qed.

Lemma tick_finq s d : finq (tick s d) = finq s.
Proof. unfold tick. destruct (fire (runners s) 0 (now s + d)%Z); reflexivity. Qed.

Lemma lwokf_ownf q p : lwokf q p <= ownf q p.
Proof. induction p; simpl; auto; lia. Qed.

Lemma lwokrf_hr q r p : lwokrf q r p <= hr r p.
Proof.
  induction p; simpl; auto; unfold eqn;
  repeat match goal with |- context [Nat.eqb ?a ?b] => destruct (Nat.eqb a b) end; simpl; lia.
Qed.

Lemma lwokrf_inflf q r p : lwokrf q r p <= inflf r p.
Proof.
  induction p; simpl; auto; unfold eqn;
  repeat match goal with |- context [Nat.eqb ?a ?b] => destruct (Nat.eqb a b) end; simpl; lia.
Qed.

Lemma freshpc_inflf p q r : freshpc p = Some (q, r) -> inflf r p = 1.
Proof. induction p; simpl; intros E; try discriminate; auto; inv E; unfold eqn; rewrite Nat.eqb_refl; auto. Qed.

Lemma lwokf_pos q p : 1 <= lwokf q p -> exists r, mdlpc p = Some (q, r) /\ inflf r p = 1 /\ lwokrf q r p = 1.
Proof.
  induction p; simpl; intros Hp; try lia; auto.
  unfold eqn in *. destruct (Nat.eqb q0 q) eqn:Q; [|lia]. apply Nat.eqb_eq in Q. subst.
  exists r. rewrite !Nat.eqb_refl. auto.
Qed.

Lemma mdlpc_not_fresh p a b : mdlpc p = Some a -> freshpc p = Some b -> False.
Proof. induction p; simpl; intros A B; try discriminate; auto. Qed.

Section Facts.
Variable s : state.
Hypothesis IW : I_own s.
Hypothesis IM : I_muc s.
Hypothesis IO : I_one s.
Hypothesis I2 : L2 s.
Hypothesis I : L3 s.

Lemma lwok_nogrant q : 1 <= cnt (lwokf q) (thr s) -> qgrant s q = None.
Proof.
  intros Hc. specialize (IW q). unfold owned, nrep in IW.
  pose proof (cnt_mono (lwokf q) (ownf q) (thr s) (lwokf_ownf q)) as M.
  unfold qgrant, getf, getd in *. destruct (nth_error (reqs s) q) as [x|] eqn:E; auto.
  destruct (q_grant x) as [r|] eqn:G; auto. exfalso.
  destruct (l3_grant s I q x E) as [G1 _]. destruct (G1 _ G) as [G2 _].
  destruct (q_replies x); [congruence|]. simpl in IW. destruct (Nat.ltb q (length (reqs s))); lia.
Qed.

Lemma tok_facts q : 1 <= cnt (tokf q) (thr s) ->
  getd finn (reqs s) q = 0 /\ getd grantedn (reqs s) q + cnt (lwokf q) (thr s) = 1.
Proof.
  intros Hc. pose proof (l3_tok s I q) as T.
  assert (B : getd grantedn (reqs s) q + cnt (lwokf q) (thr s) <= 1).
  { destruct (Nat.eq_dec (cnt (lwokf q) (thr s)) 0) as [Z|NZ].
    - rewrite Z. unfold getd, grantedn. destruct (nth_error (reqs s) q) as [x|]; [destruct (q_grant x)|]; lia.
    - pose proof (lwok_nogrant q ltac:(lia)) as G. unfold qgrant, getf in G. unfold getd, grantedn.
      specialize (IW q). unfold owned in IW. pose proof (cnt_mono (lwokf q) (ownf q) (thr s) (lwokf_ownf q)).
      destruct (nth_error (reqs s) q) as [x|]; [rewrite G|]; destruct (Nat.ltb q (length (reqs s))); lia. }
  unfold getd, finn in *. destruct (nth_error (reqs s) q) as [x|]; [destruct (q_fin x)|]; lia.
Qed.

Lemma ref_loaded r : (0 < users s r + infl s r) -> cnt (freshr r) (thr s) = 0 ->
  exists m, rmodel s r = Some m /\ lookup (loaded s) m = Some r.
Proof.
  intros Hp Hn. pose proof (l3_ref s I r) as R.
  destruct (rclosed s r) eqn:C.
  - rewrite (l3_closed s I r C) in R. lia.
  - destruct (l2_live s I2 r C) as [?|F]; auto. lia.
Qed.

Lemma fresh_zero r : 1 <= cnt (freshr r) (thr s) -> users s r = 0 /\ infl s r = 1.
Proof.
  intros Hc. apply fresh_thread in Hc. destruct Hc as (t & p & q & Ht & Hp).
  destruct (l3_fresh s I _ _ _ _ Ht Hp) as (A & B & _). auto.
Qed.

Lemma owner_nogrant q x t p :
  nth_error (thr s) t = Some p -> ownf q p = 1 -> getq s q = Some x -> q_grant x = None /\ q_fin x = false.
Proof.
  intros Ht Ho E. specialize (IW q). unfold owned, nrep, getd, getq in *. rewrite E in IW.
  pose proof (cnt_ge (ownf q) _ _ _ Ht) as Ge. rewrite Ho in Ge.
  destruct (l3_grant s I q x E) as [G1 G2].
  assert (G : q_grant x = None).
  { destruct (q_grant x) as [r|] eqn:G; auto. exfalso. destruct (G1 _ eq_refl) as [G3 _].
    destruct (q_replies x); [congruence|]. simpl in IW. destruct (Nat.ltb q (length (reqs s))); lia. }
  split; auto. destruct (q_fin x); auto. destruct (G2 eq_refl) as [G3 _]. congruence.
Qed.

Lemma mu_free_no_lwok q r x : getr s r = Some x -> r_mu x = None -> cnt (lwokrf q r) (thr s) = 0.
Proof.
  intros E N. pose proof (cnt_mono (lwokrf q r) (hr r) (thr s) (lwokrf_hr q r)) as M.
  specialize (IM r). unfold getd, mu1, getr in *. rewrite E, N in IM. lia.
Qed.

Lemma token_runner q x : 1 <= cnt (tokf q) (thr s) -> getq s q = Some x ->
  q_fin x = false /\
  exists r, lookup (loaded s) (q_model x) = Some r /\ (q_grant x = Some r \/ 1 <= cnt (lwokrf q r) (thr s)).
Proof.
  intros Ht E. destruct (tok_facts q Ht) as [T1 T2]. unfold getd, finn, grantedn, getq in *. rewrite E in *.
  assert (F : q_fin x = false) by (destruct (q_fin x); [lia|reflexivity]). split; auto.
  destruct (q_grant x) as [rq|] eqn:G.
  - destruct (l3_grant s I q x E) as [G1 _]. destruct (G1 _ G) as [_ GM].
    assert (U : 1 <= users s rq).
    { unfold users. pose proof (cnt_ge (usef rq) _ _ _ E) as Ge. unfold usef in Ge. rewrite G, F in Ge.
      unfold eqn in Ge. rewrite Nat.eqb_refl in Ge. exact Ge. }
    assert (NF : cnt (freshr rq) (thr s) = 0).
    { destruct (cnt (freshr rq) (thr s)) eqn:C; auto. destruct (fresh_zero rq ltac:(lia)). lia. }
    destruct (ref_loaded rq ltac:(lia) NF) as (m & M1 & M2). rewrite GM in M1. inv M1. eauto.
  - (* still being delivered by its load goroutine *)
    assert (L : 1 <= cnt (lwokf q) (thr s)) by lia.
    destruct (cnt_pos_In (lwokf q) (thr s) ltac:(lia)) as (p & Hin & Hp).
    apply In_nth_error in Hin. destruct Hin as [t Ht'].
    destruct (lwokf_pos q p ltac:(lia)) as (r & LP & LI & LR).
    destruct (l3_mdl s I _ _ _ _ Ht' LP) as (m & Q1 & Q2).
    unfold qmodel in Q1. rewrite (getf_some _ _ _ _ _ E) in Q1. inv Q1.
    assert (IF : 1 <= infl s r) by (unfold infl; pose proof (cnt_ge (inflf r) _ _ _ Ht'); lia).
    assert (NF : cnt (freshr r) (thr s) = 0).
    { destruct (cnt (freshr r) (thr s)) eqn:C; auto. exfalso.
      destruct (fresh_thread s r ltac:(lia)) as (t2 & p2 & q2 & Ht2 & Hp2).
      destruct (l3_fresh s I _ _ _ _ Ht2 Hp2) as (_ & B & _). unfold infl in B.
      destruct (Nat.eq_dec t t2) as [->|NE].
      - rewrite Ht' in Ht2. inv Ht2. eapply mdlpc_not_fresh; eauto.
      - pose proof (cnt_two (inflf r) _ _ _ _ _ NE Ht' Ht2). rewrite LI, (freshpc_inflf _ _ _ Hp2) in H. lia. }
    destruct (ref_loaded r ltac:(lia) NF) as (m & M1 & M2). rewrite Q2 in M1. inv M1.
    exists r. split; auto. right. pose proof (cnt_ge (lwokrf q r) _ _ _ Ht'). lia.
Qed.

End Facts.

Ltac acc3_unfold := unfold rref, qgrant, qcanc, users, infl, rclosed, rmodel, qmodel, getr, getq in *.

Ltac acc3_s1 := unfold rref, qgrant, qcanc, rclosed, rmodel, qmodel, getr, getq in *; simpl; acc_norm.

Definition same_model (s : state) (q r : nat) : Prop := exists m, qmodel s q = Some m /\ rmodel s r = Some m.

Lemma rule_same_model {c s t p alt s1 p' sp e q r} :
  rule c s t p alt s1 p' sp e -> same_model s q r -> same_model s1 q r.
Proof. intros R (m & A & B). exists m. split; [eapply rule_qmodel|eapply rule_rmodel]; eassumption. Qed.

Lemma rule_qcanc {c s t p alt s1 p' sp e q} :
  rule c s t p alt s1 p' sp e -> qcanc s q = true -> qcanc s1 q = true.
Proof. intros R A. destruct R; try exact A; acc3_s1; eqb_cases; exact A. Qed.

Lemma rule_rref_locked {c s t p alt s1 p' sp e r x} :
  rule c s t p alt s1 p' sp e -> hr r p = 0 -> getr s r = Some x -> r_mu x <> None -> rref s1 r = rref s r.
Proof.
  intros R Hp Ex Mu. assert (Rg : r < length (runners s)) by (apply nth_error_Some; unfold getr in Ex; congruence).
  destruct R; try reflexivity; simpl in Hp; acc3_s1; eqb_cases; try reflexivity; try lia; try discriminate Hp; congruence.
Qed.

Lemma rule_users {c s t p alt s1 p' sp e r} :
  rule c s t p alt s1 p' sp e -> (forall q, p <> PUseSend q r) -> (forall q, p <> LWOk q r) -> users s1 r <= users s r.
Proof.
  intros R N1 N2. destruct R; try apply le_n; unfold users, getq in *; simpl;
  (erewrite (cnt_upd_eq (usef r)) by eassumption);
  match goal with E : nth_error (reqs s) _ = Some _ |- _ => pose proof (cnt_ge (usef r) _ _ _ E) end;
  unfold usef in *; simpl; try (destruct (q_grant y); [destruct (q_fin y)|]; lia).
  - destruct (q_fin y); [lia|]. unfold eqn. destruct (Nat.eqb r0 r) eqn:Q; [|lia].
    apply Nat.eqb_eq in Q. subst. exfalso. eapply N1. reflexivity.
  - destruct (q_fin y); [lia|]. unfold eqn. destruct (Nat.eqb r0 r) eqn:Q; [|lia].
    apply Nat.eqb_eq in Q. subst. exfalso. eapply N2. reflexivity.
Qed.

Lemma rule_inflf {c s t p alt s1 p' sp e} r :
  rule c s t p alt s1 p' sp e -> isP p = 0 -> inflf r p' + cnt (inflf r) (spl sp) <= inflf r p.
Proof.
  intros R NP. destruct R; try discriminate NP; simpl; try lia.
Qed.

Lemma rule_qgrant {c s t p alt s1 p' sp e q r} :
  rule c s t p alt s1 p' sp e -> qgrant s q = Some r -> qgrant s1 q = Some r \/ ownf q p = 1.
Proof.
  intros R A. destruct R; try (left; exact A); acc3_s1; try (left; exact A);
  simpl; unfold eqn; destruct (Nat.eqb _ q); auto.
Qed.

Section Step.
Variables (c : config) (s s' : state) (l : label) (e : list event).
Hypothesis Hf : fixed c.
Hypothesis IW : I_own s.
Hypothesis IM : I_muc s.
Hypothesis IL : I_lmuc s.
Hypothesis IO : I_one s.
Hypothesis I2 : L2 s.
Hypothesis I : L3 s.
Hypothesis H : step c s l = Some (s', e).

Lemma other_holds r t1 t2 p1 p2 :
  t1 <> t2 -> nth_error (thr s) t1 = Some p1 -> nth_error (thr s) t2 = Some p2 -> hr r p1 = 1 ->
  hr r p2 = 0 /\ exists x, getr s r = Some x /\ r_mu x <> None.
Proof.
  intros N H1 H2 P1. pose proof (cnt_two (hr r) _ _ _ _ _ N H1 H2) as Two. specialize (IM r).
  unfold getd, mu1, getr in *. destruct (nth_error (runners s) r) as [x|]; [|lia].
  destruct (r_mu x) eqn:Mu; [|lia]. split; [lia|]. exists x. split; congruence.
Qed.

Lemma cfr_holds t q r x y :
  nth_error (thr s) t = Some (CFR q r) -> getr s r = Some x -> r_mu x = None -> getq s q = Some y ->
  q_grant y = Some r /\ q_fin y = false.
Proof.
  intros Ht Ex Mu Ey. pose proof (cnt_ge (tokf q) _ _ _ Ht) as Gt. simpl in Gt. unfold eqn in Gt. rewrite Nat.eqb_refl in Gt.
  destruct (tok_facts s IW I q Gt) as [T1 _]. unfold getd, finn, getq in *. rewrite Ey in T1.
  split; [|destruct (q_fin y); [lia|reflexivity]].
  destruct (l3_cfr s I _ _ _ _ Ht eq_refl) as [C|C].
  - unfold qgrant in C. erewrite getf_some in C by eassumption. exact C.
  - pose proof (mu_free_no_lwok s IM q r x Ex Mu). lia.
Qed.

Lemma l3_ref_step : forall r, rref s' r = N.of_nat (users s' r + infl s' r).
Proof.
  pose proof (l3_ref s I) as R0. intros r'. specialize (R0 r'). apply step_stepR in H.
  destruct H as [sp _|sp _|q y Eq _|m|d _|t alt p s1 p1 o e0 Ht R].
  1,2: acc3_unfold; simpl; rewrite cnt_snoc; unfold usef at 2; simpl; rewrite R0; f_equal; lia.
  - acc3_unfold; simpl. pose proof (cnt_ge (usef r') _ _ _ Eq) as Ge.
    erewrite (cnt_upd_eq (usef r')) by eassumption. unfold usef in *. simpl in *. rewrite R0. f_equal. lia.
  - acc3_unfold; simpl. rewrite cnt_snoc. simpl. rewrite R0. f_equal. lia.
  - unfold users, infl in *. rewrite tick_rref, tick_reqs, tick_cnt by reflexivity. exact R0.
  - destruct (rule_cnt (inflf r') R Ht) as [Ge C].
    change (rref s1 r' = N.of_nat (users s1 r' + cnt (inflf r') (thr (finish s1 t p1 o)))). unfold infl in R0.
    pose proof (fun q y => owner_nogrant s IW I q y _ _ Ht) as Own.
    pose proof (cfr_holds t) as Cfr. rewrite Ht in Cfr.
    destruct R; unfold rref, users, getr, getq in *; simpl in C, Ge |- *; try (rewrite R0; f_equal; lia);
    repeat match goal with E : nth_error (reqs s) _ = Some _ |- _ => pose proof (cnt_ge (usef r') _ _ _ E); revert E end; intros;
    try (acc_norm; repeat (erewrite (cnt_upd_eq (usef r')) by eassumption); unfold usef in *; simpl in *; rewrite ?R0; try (f_equal; lia); fail).
    4-6: (* CFR: the finishing request gives its reference back *)
      destruct (Cfr q r x y eq_refl) as [G F]; try assumption;
      acc_norm; erewrite (cnt_upd_eq (usef r')) by eassumption; unfold usef in *; simpl in *; rewrite G, F in *;
      unfold eqn in *; destruct (Nat.eqb r r') eqn:Q; [|rewrite R0; f_equal; lia];
      apply Nat.eqb_eq in Q; subst r'; erewrite getf_some in R0 by eassumption; simpl; rewrite R0;
      match goal with |- pred_wrap (N.of_nat ?k) = _ => replace k with (S (k - 1)) by lia end; rewrite pred_wrap_S; f_equal; lia.
    + (* PNs: a new runner with refCount 1, held by the pending loop *)
      rewrite getf_snoc. unfold eqn in *. destruct (Nat.eqb r' (length (runners s))) eqn:Q.
      * apply Nat.eqb_eq in Q; subst r'. rewrite getf_none in R0 by lia. rewrite Nat.eqb_refl in C. simpl. lia.
      * rewrite Nat.eqb_sym, Q in C. rewrite R0. f_equal. lia.
    + (* PUse: refCount++ and the grant is in flight *)
      acc_norm. simpl. unfold eqn in *. destruct (Nat.eqb r r') eqn:Q.
      * apply Nat.eqb_eq in Q; subst r'. erewrite getf_some in R0 by eassumption. rewrite R0.
        rewrite <- Nat2N.inj_succ. f_equal. lia.
      * rewrite R0. f_equal. lia.
    + (* PUseSend: the grant is recorded *)
      destruct (Own q y) as [G F]; [simpl; unfold eqn; rewrite Nat.eqb_refl; reflexivity|assumption|].
      acc_norm. erewrite (cnt_upd_eq (usef r')) by eassumption. unfold usef in *. simpl in *. rewrite G, F in *. rewrite R0. f_equal. lia.
    + (* LWWait, load failed: the initial reference is dropped *)
      acc_norm. simpl. unfold eqn in *. destruct (Nat.eqb r r') eqn:Q.
      * apply Nat.eqb_eq in Q; subst r'. erewrite getf_some in R0 by eassumption. simpl. rewrite R0.
        match goal with |- pred_wrap (N.of_nat ?k) = _ => replace k with (S (k - 1)) by lia end. rewrite pred_wrap_S. f_equal. lia.
      * rewrite R0. f_equal. lia.
    + (* LWOk: the load's reference becomes the request's *)
      destruct (Own q y) as [G F]; [simpl; unfold eqn; rewrite Nat.eqb_refl; reflexivity|assumption|].
      acc_norm. erewrite (cnt_upd_eq (usef r')) by eassumption. unfold usef in *. simpl in *. rewrite G, F in *. rewrite R0. f_equal. lia.
Qed.

Lemma l3_tok_step : forall q, occ q (finq s') + cnt (tokf q) (thr s') + getd finn (reqs s') q
                              = getd grantedn (reqs s') q + cnt (lwokf q) (thr s').
Proof.
  pose proof (l3_tok s I) as T. intros q'. specialize (T q'). unfold occ in *. apply step_stepR in H.
  destruct H as [sp _|sp _|q y Eq _|m|d _|t alt p s1 p1 o e0 Ht R]; try exact T.
  1,2: (* submit: a new request owns nothing *)
    pose proof (IW q') as W; unfold owned, nrep in W;
    pose proof (cnt_mono (lwokf q') (ownf q') (thr s) (lwokf_ownf q')) as M;
    simpl; rewrite !getd_snoc; unfold finn, grantedn in *; simpl;
    destruct (Nat.eqb q' (length (reqs s))) eqn:Q; try lia;
    apply Nat.eqb_eq in Q; subst q'; rewrite !getd_none in * by lia; rewrite Nat.ltb_irrefl in W; lia.
  - unfold getq in *; simpl. rewrite !(getd_upd _ _ _ _ _ _ Eq). unfold finn, grantedn in *. simpl.
    destruct (Nat.eqb q q') eqn:Q; try lia. apply Nat.eqb_eq in Q. subst. unfold getd in T. rewrite Eq in T. lia.
  - simpl. rewrite !cnt_snoc. simpl. lia.
  - rewrite tick_finq, tick_reqs, !tick_cnt by reflexivity. exact T.
  - destruct (rule_cnt (tokf q') R Ht) as [GeT CT]. destruct (rule_cnt (lwokf q') R Ht) as [GeL CL].
    pose proof (fun q y => owner_nogrant s IW I q y _ _ Ht) as Own.
    pose proof (cfr_holds t) as Cfr. rewrite Ht in Cfr.
    destruct R; unfold getq, getr in *; simpl in CT, CL, GeT, GeL |- *;
    repeat match goal with E : finq s = _ |- _ => rewrite E in T; simpl in T end;
    rewrite ?cnt_snoc; repeat (erewrite getd_upd by eassumption);
    try (unfold finn, grantedn in *; simpl in *; try lia; eqb_cases; use_nth; simpl in *; lia).
    3-5: (* CFR: the finish is consumed *)
      destruct (Cfr q r x y eq_refl) as [_ F]; try assumption;
      unfold finn, grantedn, eqn, getd in *; simpl; destruct (Nat.eqb q q') eqn:Q; [|lia];
      apply Nat.eqb_eq in Q; subst q'; use_nth; rewrite F in *; lia.
    1,3: (* PUseSend, LWOk hand out a runner: the request had no grant *)
      destruct (Own q y) as [G F]; [simpl; unfold eqn; rewrite Nat.eqb_refl; reflexivity|assumption|];
      unfold finn, grantedn, eqn, getd in *; simpl; destruct (Nat.eqb q q') eqn:Q; [|lia];
      apply Nat.eqb_eq in Q; subst q'; use_nth; rewrite G, F in *; lia.
    (* CFLk: the runner of a request whose finish token is in flight is registered *)
    exfalso. pose proof (cnt_ge (tokf q) _ _ _ Ht) as Gt. simpl in Gt. unfold eqn in Gt. rewrite Nat.eqb_refl in Gt.
      destruct (token_runner s IW I2 I q y Gt) as [_ (rr & L & _)]; [assumption|]. congruence.
Qed.

Lemma l3_grant_step : forall q x, getq s' q = Some x ->
  (forall r, q_grant x = Some r -> q_replies x <> [] /\ rmodel s' r = Some (q_model x)) /\
  (q_fin x = true -> q_grant x <> None /\ q_cancelled x = true).
Proof.
  pose proof (l3_grant s I) as A. intros q' x' Hq. apply step_stepR in H.
  destruct H as [sp _|sp _|q y Eq _|m|d _|t alt p s1 p1 o e0 Ht R]; try exact (A _ _ Hq).
  1,2: apply nth_error_snoc in Hq; destruct Hq as [Hq|[-> ->]]; [exact (A _ _ Hq)|split; intros; discriminate].
  - apply nth_error_upd in Hq. destruct Hq as [(-> & -> & _)|[N Hq]]; [|exact (A _ _ Hq)].
    destruct (A _ _ Eq) as [A1 A2]. split; [exact A1|]. intros Hfin. destruct (A2 Hfin). auto.
  - unfold getq in *. rewrite tick_reqs in Hq. destruct (A _ _ Hq) as [A1 A2]. split; auto.
    intros r G. destruct (A1 _ G). rewrite tick_rmodel. auto.
  - assert (Keep : forall x, getq s q' = Some x ->
              (forall r, q_grant x = Some r -> q_replies x <> [] /\ rmodel s1 r = Some (q_model x)) /\
              (q_fin x = true -> q_grant x <> None /\ q_cancelled x = true)).
    { intros x E. destruct (A _ _ E) as [A1 A2]. split; auto. intros r G. destruct (A1 _ G). split; auto.
      eapply rule_rmodel; eassumption. }
    pose proof (fun q y => owner_nogrant s IW I q y _ _ Ht) as Own.
    assert (SM : forall q r, mdlpc p = Some (q, r) -> same_model s1 q r)
      by (intros q r E; apply (rule_same_model R), (l3_mdl s I _ _ _ _ Ht E)).
    pose proof (cfr_holds t) as Cfr. rewrite Ht in Cfr. pose proof (fun q => l3_canpc s I t p q Ht) as Can.
    destruct R; try exact (Keep _ Hq);
    unfold getq in Hq; simpl in Hq; apply nth_error_upd in Hq; destruct Hq as [(<- & -> & _)|[N Hq]]; try exact (Keep _ Hq);
    match goal with E : getq s _ = Some ?y |- _ => destruct (Keep _ E) as [K1 K2] end; simpl.
    1,7: (* a reply that hands out runner r: r serves the request's model *)
      destruct (Own q y) as [G F]; [simpl; unfold eqn; rewrite Nat.eqb_refl; reflexivity|assumption|];
      destruct (SM q r) as (m0 & M1 & M2); [reflexivity|];
      erewrite qmodel_get in M1 by (unfold getq, setr, setq; simpl; erewrite nth_error_upd_eq by eassumption; reflexivity);
      inv M1; split; [intros r2 G2; inv G2; split; [destruct (q_replies y); discriminate|assumption]|rewrite F; discriminate].
    1,5: (* an error reply keeps the grant *)
      split; [intros r2 G2; destruct (K1 _ G2); split; [destruct (q_replies y); discriminate|assumption]|assumption].
    (* CFR sets the finished flag: the request holds the runner and was cancelled *)
    all: destruct (Cfr q r x y eq_refl) as [G _]; try assumption;
      split; [exact K1|intros _; split; [congruence|]];
      specialize (Can q eq_refl); unfold qcanc in Can; erewrite getf_some in Can by eassumption; exact Can.
Qed.

Lemma l3_cfr_step : forall t p q r, nth_error (thr s') t = Some p -> cfrpc p = Some (q, r) ->
  qgrant s' q = Some r \/ 1 <= cnt (lwokrf q r) (thr s').
Proof.
  pose proof (l3_cfr s I) as A. intros t' p' q' r' Hn Hp. apply step_stepR in H.
  destruct H as [sp _|sp _|q y Eq _|m|d _|t alt p s1 p1 o e0 Ht R].
  1,2: destruct (A _ _ _ _ Hn Hp) as [A1|A1]; auto; left; unfold qgrant in *; simpl; rewrite getf_snoc; eqb_cases; auto;
       rewrite getf_none in A1 by lia; discriminate.
  - destruct (A _ _ _ _ Hn Hp) as [A1|A1]; auto. left. unfold qgrant, getq in *. simpl. acc_norm. auto.
  - simpl in Hn. apply nth_error_snoc in Hn. destruct Hn as [Hn|[-> ->]]; [|discriminate Hp].
    destruct (A _ _ _ _ Hn Hp) as [A1|A1]; auto. right. simpl. rewrite cnt_snoc. lia.
  - destruct (tick_thr_obs Hn Hp) as (p0 & Hn0 & Hp0); try reflexivity. unfold qgrant. rewrite tick_reqs, tick_cnt by reflexivity. exact (A _ _ _ _ Hn0 Hp0).
  - destruct (rule_cnt (lwokrf q' r') R Ht) as [_ CL].
    destruct (rule_thr_cases R Hn) as [[Ne Hn']|[[-> ->]|(x & -> & Sx)]].
    + destruct (A _ _ _ _ Hn' Hp) as [A1|A1].
      * (* the grant stays: only the owner of a request without a grant writes one *)
        destruct (rule_qgrant R A1) as [|Ow]; auto. exfalso. unfold qgrant, getf in A1.
        destruct (nth_error (reqs s) q') as [y|] eqn:Ey; [|discriminate].
        destruct (owner_nogrant s IW I q' y _ _ Ht Ow Ey). congruence.
      * (* the load goroutine keeps the runner until it delivers it *)
        destruct R; try (right; simpl in CL |- *; lia).
        -- simpl in CL. unfold eqn in *. destruct (Nat.eqb q q') eqn:Q1; [|right; simpl in CL |- *; lia].
           destruct (Nat.eqb r r') eqn:Q2; [|right; simpl in CL |- *; lia].
           apply Nat.eqb_eq in Q1, Q2. subst. left. unfold qgrant, getq, getr in *. simpl. acc_norm. rewrite Nat.eqb_refl. reflexivity.
    + destruct R; try discriminate Hp.
      * (* CFLk -> CFR: the registered runner is the one the request holds *)
        inv Hp. pose proof (cnt_ge (tokf q') _ _ _ Ht) as Gt. simpl in Gt. unfold eqn in Gt. rewrite Nat.eqb_refl in Gt.
        destruct (token_runner s IW I2 I q' y Gt) as [_ (rr & L & D)]; [assumption|].
        assert (rr = r') by congruence. subst rr. destruct D as [D|D].
        -- left. unfold qgrant, getq in *. erewrite getf_some by eassumption. exact D.
        -- right. pose proof (cnt_ge (lwokrf q' r') _ _ _ Ht). simpl in *. lia.
      * destruct (A _ _ _ _ Ht Hp) as [A1|A1]; [left; exact A1|right].
        simpl in CL |- *. lia.
    + destruct x; try contradiction; discriminate Hp.
Qed.

Lemma l3_fresh_step : forall t p q r, nth_error (thr s') t = Some p -> freshpc p = Some (q, r) ->
  users s' r = 0 /\ infl s' r = 1 /\ rref s' r = 1%N.
Proof.
  pose proof (l3_fresh s I) as A. intros t' p' q' r' Hn Hp.
  cut (users s' r' = 0 /\ infl s' r' = 1).
  { intros [U F]. rewrite l3_ref_step, U, F. auto. }
  apply step_stepR in H.
  destruct H as [sp _|sp _|q y Eq _|m|d _|t alt p s1 p1 o e0 Ht R].
  1,2: destruct (A _ _ _ _ Hn Hp) as (U & F & _); unfold users, infl in *; simpl; rewrite cnt_snoc; unfold usef at 2; simpl; split; [lia|exact F].
  - destruct (A _ _ _ _ Hn Hp) as (U & F & _). split; [|exact F]. unfold users, getq in *. simpl.
    pose proof (cnt_ge (usef r') _ _ _ Eq) as Ge. erewrite (cnt_upd_eq (usef r')) by eassumption.
    assert (usef r' (q_cancel y) = usef r' y) by reflexivity. lia.
  - simpl in Hn. apply nth_error_snoc in Hn. destruct Hn as [Hn|[-> ->]]; [|discriminate Hp].
    destruct (A _ _ _ _ Hn Hp) as (U & F & _). unfold users, infl in *. simpl. rewrite cnt_snoc. simpl. split; [exact U|lia].
  - destruct (tick_thr_obs Hn Hp) as (p0 & Hn0 & Hp0); try reflexivity. destruct (A _ _ _ _ Hn0 Hp0) as (U & F & _).
    unfold users, infl in *. rewrite tick_reqs, tick_cnt by reflexivity. auto.
  - destruct (rule_cnt (inflf r') R Ht) as [_ C].
    change (users s1 r' = 0 /\ cnt (inflf r') (thr (finish s1 t p1 o)) = 1).
    destruct (rule_thr_cases R Hn) as [[Ne Hn']|[[-> ->]|(x & -> & Sx)]].
    + (* another thread, the pending loop, holds the one reference in flight *)
      destruct (A _ _ _ _ Hn' Hp) as (U & F & _). unfold infl in F.
      pose proof (cnt_two (inflf r') _ _ _ _ _ Ne Hn' Ht) as Two. rewrite (freshpc_inflf _ _ _ Hp) in Two.
      assert (NP : isP p = 0).
      { destruct (isP p) eqn:P; auto. exfalso. eapply (two_P s IO t' t); eauto using freshpc_isP.
        clear - P. induction p; simpl in *; auto; discriminate. }
      pose proof (rule_inflf r' R NP). split; [|lia].
      enough (users s1 r' <= users s r') by lia. apply (rule_users R); intros q ->; discriminate NP || (simpl in Two; unfold eqn in Two; rewrite Nat.eqb_refl in Two; lia).
    + destruct R; try discriminate Hp.
      * (* PNs: nothing referred to the new runner's index *)
        inv Hp. pose proof (l3_ref s I (length (runners s))) as R0. unfold rref, users, infl in *.
        rewrite getf_none in R0 by lia. simpl in C |- *. unfold eqn in C. rewrite Nat.eqb_refl in C. lia.
      * destruct (A _ _ _ _ Ht Hp) as (U & F & _). unfold infl in *. simpl in C |- *. split; [exact U|lia].
      * destruct (A _ _ _ _ Ht Hp) as (U & F & _). unfold infl in *. simpl in C |- *. split; [exact U|lia].
    + destruct x; try contradiction; discriminate Hp.
Qed.

Lemma L3_step : L3 s'.
Proof.
  constructor; [exact l3_ref_step|..].
  { exact l3_tok_step. }
  { exact l3_grant_step. }
  { (* l3_cev *)
  pose proof (l3_cev s I) as A. intros t' p' r' Hn Hp. apply step_stepR in H.
  destruct H as [sp _|sp _|q y Eq _|m|d _|t alt p s1 p1 o e0 Ht R]; try exact (A _ _ _ Hn Hp).
  - simpl in Hn. apply nth_error_snoc in Hn. destruct Hn as [Hn|[-> ->]]; [exact (A _ _ _ Hn Hp)|discriminate Hp].
  - destruct (tick_thr_obs Hn Hp) as (p0 & Hn0 & Hp0); try reflexivity. rewrite tick_rref. eauto.
  - change (rref s1 r' = 0%N).
    destruct (rule_thr_cases R Hn) as [[Ne Hn']|[[-> ->]|(x & -> & Sx)]].
    + (* another thread is at CEV r: it holds refMu(r) *)
      destruct (cevpc_hl _ _ Hp) as [_ HR]. destruct (other_holds r' _ _ _ _ Ne Hn' Ht HR) as (Z & x & Ex & Mu).
      rewrite (rule_rref_locked R Z Ex Mu). exact (A _ _ _ Hn' Hp).
    + fix_cfg c Hf. destruct R; try discriminate Hp; fixed_only.
      * (* CE2 -> CEV: refCount was just seen to be 0 *)
        inv Hp. acc3_s1. erewrite getf_some by eassumption.
        match goal with E : N.ltb 0 _ = false |- _ => apply N.ltb_ge in E; lia end.
      * exact (A _ _ _ Ht Hp).
    + destruct x; try contradiction; discriminate Hp.
  }
  { (* l3_closed *)
  pose proof (l3_closed s I) as A. intros r' Hc. apply step_stepR in H.
  destruct H as [sp _|sp _|q y Eq _|m|d _|t alt p s1 p1 o e0 Ht R]; try exact (A _ Hc).
  - rewrite tick_rclosed in Hc. rewrite tick_rref. auto.
  - fix_cfg c Hf.
    pose proof (cfr_holds t) as Cfr. rewrite Ht in Cfr.
    destruct R; fixed_only; try exact (A _ Hc); unfold rclosed, rref, getr in *; simpl in Hc |- *; revert Hc; acc_norm; intro Hc;
    try (acc_norm; eqb_cases; simpl in *; auto; congruence);
    (destruct (Nat.eqb r r') eqn:Q; [apply Nat.eqb_eq in Q; subst r'|auto]).
    2-4: (* CFR: the runner is held by the finishing request *)
      exfalso; destruct (Cfr q r x y eq_refl) as [G F]; try assumption;
      pose proof (l3_ref s I r) as R0; unfold rref, users in R0; rewrite (A r Hc) in R0;
      match goal with E : getq _ ?q0 = Some ?y0 |- _ => pose proof (cnt_ge (usef r) _ q0 y0 E) as Ge end;
      assert (U1 : usef r y = 1) by (unfold usef, eqn; rewrite G, F, Nat.eqb_refl; reflexivity); lia.
    + (* PUse: the runner was just seen not to be shut down *)
      erewrite getf_some in Hc by eassumption. simpl in *. congruence.
    + apply (l3_cev s I _ _ _ Ht eq_refl).
    + (* LWWait: the load goroutine's runner is not shut down *)
      pose proof (l2_livepc s I2 _ _ _ Ht eq_refl) as L. unfold rclosed in L. erewrite getf_some in Hc, L by eassumption.
      simpl in Hc. congruence.
  }
  { (* l3_canpc *)
  pose proof (l3_canpc s I) as A. pose proof (l3_finq s I) as B. intros t' p' q' Hn Hp. apply step_stepR in H.
  destruct H as [sp _|sp _|q y Eq _|m|d _|t alt p s1 p1 o e0 Ht R].
  1,2: specialize (A _ _ _ Hn Hp); acc3_unfold; simpl; rewrite getf_snoc; eqb_cases; auto; rewrite getf_none in A by lia; discriminate.
  - specialize (A _ _ _ Hn Hp). acc3_unfold; simpl. acc_norm. eqb_cases; auto.
  - simpl in Hn. apply nth_error_snoc in Hn. destruct Hn as [Hn|[-> ->]]; [exact (A _ _ _ Hn Hp)|discriminate Hp].
  - destruct (tick_thr_obs Hn Hp) as (p0 & Hn0 & Hp0); try reflexivity. unfold qcanc. rewrite tick_reqs. eapply A; eauto.
  - apply (rule_qcanc R).
    destruct (rule_thr_cases R Hn) as [[Ne Hn']|[[-> ->]|(x & -> & Sx)]]; [exact (A _ _ _ Hn' Hp)| |].
    + destruct R; try discriminate Hp; try exact (A _ _ _ Ht Hp).
      * (* the request comes from the finished queue *)
        inv Hp. apply B. match goal with E : finq s = _ |- _ => rewrite E end. left; reflexivity.
      * (* FWDone: enabled only once the request is cancelled *)
        inv Hp. unfold qcanc, getq in *. erewrite getf_some by eassumption. assumption.
    + destruct x; try contradiction; discriminate Hp.
  }
  { (* l3_finq *)
  pose proof (l3_canpc s I) as A. pose proof (l3_finq s I) as B. intros q' Hin. apply step_stepR in H.
  destruct H as [sp _|sp _|q y Eq _|m|d _|t alt p s1 p1 o e0 Ht R]; try exact (B _ Hin).
  1,2: specialize (B _ Hin); acc3_unfold; simpl; rewrite getf_snoc; eqb_cases; auto; rewrite getf_none in B by lia; discriminate.
  - specialize (B _ Hin). acc3_unfold; simpl. acc_norm. eqb_cases; auto.
  - rewrite tick_finq in Hin. unfold qcanc. rewrite tick_reqs. apply (B _ Hin).
  - apply (rule_qcanc R).
    destruct R; try exact (B _ Hin).
    + apply B. match goal with E : finq s = _ |- _ => rewrite E end. right; exact Hin.
    + (* FWSend appends a cancelled request *)
      simpl in Hin. apply in_app_or in Hin. destruct Hin as [Hin|[<-|[]]]; [exact (B _ Hin)|exact (A _ _ _ Ht eq_refl)].
  }
  { exact l3_cfr_step. }
  { (* l3_mdl *)
  pose proof (l3_mdl s I) as A. intros t' p' q' r' Hn Hp. apply step_stepR in H.
  destruct H as [sp _|sp _|q y Eq _|m|d _|t alt p s1 p1 o e0 Ht R].
  1,2: destruct (A _ _ _ _ Hn Hp) as (m' & A1 & A2); exists m'; split; auto;
    acc_unfold; simpl; rewrite getf_snoc; eqb_cases; auto; rewrite getf_none in A1 by lia; discriminate.
  - destruct (A _ _ _ _ Hn Hp) as (m' & A1 & A2); exists m'; split; auto. erewrite qmodel_setq; eauto.
  - simpl in Hn. apply nth_error_snoc in Hn. destruct Hn as [Hn|[-> ->]]; [exact (A _ _ _ _ Hn Hp)|discriminate Hp].
  - destruct (tick_thr_obs Hn Hp) as (p0 & Hn0 & Hp0); try reflexivity. unfold same_model. rewrite tick_qmodel, tick_rmodel. exact (A _ _ _ _ Hn0 Hp0).
  - apply (rule_same_model R).
    destruct (rule_thr_cases R Hn) as [[Ne Hn']|[[-> ->]|(x & -> & Sx)]]; [exact (A _ _ _ _ Hn' Hp)| |].
    + destruct R; try discriminate Hp; try exact (A _ _ _ _ Ht Hp).
      * (* the lookup found a runner registered under the request's model *)
        inv Hp. match goal with L : lookup _ _ = Some _ |- _ => destruct (l2_loaded s I2 _ _ L) as [K1 _] end.
        exists (q_model y). split; [apply qmodel_get|]; assumption.
    + (* the load goroutine is created for the fresh runner *)
      destruct x; try contradiction; try discriminate Hp. simpl in Sx. subst p. inv Hp.
      destruct (l2_fresh s I2 _ _ _ _ Ht eq_refl) as (_ & F & _). exact F.
  }
  { exact l3_fresh_step. }
Qed.

End Step.

Lemma L3_init m : L3 (init_m m).
Proof.
  constructor; simpl; intros;
  try (destruct t as [|[|[|t]]]; simpl in *; try discriminate; inv H; simpl in *; discriminate).
  - unfold rref, users, infl, getf. simpl. destruct r; reflexivity.
  - unfold occ, getd. simpl. destruct q; reflexivity.
  - unfold getq in H. destruct q; discriminate.
  - unfold rref, getf. simpl. destruct r; reflexivity.
  - tauto.
Qed.

Lemma L3_Reach c s ev : fixed c -> Reach c s ev -> L3 s.
Proof.
  intros Hf R. induction R as [m|s ev l s' e R IH Hs].
  - apply L3_init.
  - destruct (I_locks_Reach _ _ _ Hf R) as (A & B & C). eapply L3_step; eauto.
    + eapply I_own_Reach; eauto.
    + eapply L2_Reach; eauto.
Qed.

(* C01, first clause: a runner held by a request that has not been cancelled is not shut down *)
Lemma no_close_in_use c s ev q x r y :
  fixed c -> Reach c s ev ->
  getq s q = Some x -> q_grant x = Some r -> q_cancelled x = false -> getr s r = Some y -> r_closed y = false.
Proof.
  intros Hf R Eq G Cn Er. pose proof (L3_Reach _ _ _ Hf R) as I.
  destruct (r_closed y) eqn:Cl; auto. exfalso.
  assert (RC : rclosed s r = true) by (rewrite (rclosed_get _ _ _ Er); auto).
  pose proof (l3_closed s I r RC) as Z. pose proof (l3_ref s I r) as Rf. rewrite Z in Rf.
  apply (f_equal N.to_nat) in Rf. rewrite Nat2N.id in Rf. simpl in Rf.
  destruct (l3_grant s I q x Eq) as [_ G2].
  assert (F : q_fin x = false) by (destruct (q_fin x); auto; destruct (G2 eq_refl); congruence).
  unfold users, getq in *. pose proof (cnt_ge (usef r) _ _ _ Eq) as Ge.
  assert (U1 : usef r x = 1) by (unfold usef; rewrite G, F; unfold eqn; rewrite Nat.eqb_refl; reflexivity).
  lia.
Qed.

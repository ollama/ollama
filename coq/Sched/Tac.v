(* List lemmas, the accessors with default [getd] / [getf], what a tick does to each field, and the arithmetic tactics
   of the invariant proofs. *)
From Coq Require Import List ZArith NArith Bool Lia Arith.
From V Require Import Sched.Lts.
Import ListNotations.

Ltac inv H := inversion H; subst; clear H.

Lemma upd_length {A} (l : list A) i x : length (upd l i x) = length l.
Proof. revert i; induction l as [|h tl IH]; intros [|i]; simpl; auto. Qed.

Lemma upd_same {A} (l : list A) i x : nth_error l i = Some x -> upd l i x = l.
Proof. revert i; induction l as [|h tl IH]; intros [|i] H; simpl in *; try discriminate; [inv H|rewrite IH]; auto. Qed.

Lemma nth_error_upd_eq {A} (l : list A) i x y :
  nth_error l i = Some y -> nth_error (upd l i x) i = Some x.
Proof. revert i; induction l as [|h tl IH]; intros [|i] H; simpl in *; try discriminate; auto. Qed.

Lemma nth_error_upd_neq {A} (l : list A) i j x : i <> j -> nth_error (upd l i x) j = nth_error l j.
Proof.
  revert i j; induction l as [|h tl IH]; intros [|i] [|j] H; simpl; auto; try congruence.
Qed.

Lemma nth_error_upd {A} (l : list A) i j x z :
  nth_error (upd l i x) j = Some z ->
  (i = j /\ z = x /\ exists y, nth_error l i = Some y) \/ (i <> j /\ nth_error l j = Some z).
Proof.
  intros H. destruct (Nat.eq_dec i j) as [->|N].
  - destruct (nth_error l j) as [y|] eqn:E.
    + rewrite (nth_error_upd_eq _ _ _ _ E) in H. inversion H; subst. left; eauto.
    + exfalso. apply nth_error_None in E. assert (L : nth_error (upd l j x) j <> None) by congruence.
      apply nth_error_Some in L. rewrite upd_length in L. lia.
  - right. rewrite nth_error_upd_neq in H; auto.
Qed.

Lemma nth_error_snoc {A} (l : list A) x j z :
  nth_error (l ++ [x]) j = Some z -> nth_error l j = Some z \/ (j = length l /\ z = x).
Proof.
  intros H. destruct (Nat.lt_ge_cases j (length l)) as [L|L].
  - rewrite nth_error_app1 in H; auto.
  - rewrite nth_error_app2 in H; auto. destruct (j - length l) as [|k] eqn:E; simpl in H.
    + inversion H; subst. right; split; auto; lia.
    + destruct k; discriminate.
Qed.

Lemma nth_error_snoc_old {A} (l : list A) x j z : nth_error l j = Some z -> nth_error (l ++ [x]) j = Some z.
Proof. intros H. rewrite nth_error_app1; auto. apply nth_error_Some; congruence. Qed.

Lemma nth_error_snoc_new {A} (l : list A) x : nth_error (l ++ [x]) (length l) = Some x.
Proof. rewrite nth_error_app2; auto. rewrite Nat.sub_diag; reflexivity. Qed.

Lemma Forall_upd {A} (P : A -> Prop) l i x : Forall P l -> P x -> Forall P (upd l i x).
Proof.
  revert i; induction l as [|h tl IH]; intros [|i] F Px; simpl; auto; inversion F; subst; constructor; auto.
Qed.

Lemma Forall_snoc {A} (P : A -> Prop) l x : Forall P l -> P x -> Forall P (l ++ [x]).
Proof. intros; apply Forall_app; split; auto. Qed.

Lemma Forall_nth_error {A} (P : A -> Prop) l i x : Forall P l -> nth_error l i = Some x -> P x.
Proof. intros F H. rewrite Forall_forall in F. apply F. eapply nth_error_In; eauto. Qed.

Lemma lookup_remove_key_eq l m : lookup (remove_key l m) m = None.
Proof.
  induction l as [|[k v] tl IH]; simpl; auto. destruct (Nat.eqb k m) eqn:E; auto. simpl. rewrite E. auto.
Qed.

Lemma lookup_remove_key_neq l m m' : m <> m' -> lookup (remove_key l m) m' = lookup l m'.
Proof.
  intros N. induction l as [|[k v] tl IH]; simpl; auto.
  destruct (Nat.eqb k m) eqn:E.
  - apply Nat.eqb_eq in E; subst. destruct (Nat.eqb m m') eqn:E2; auto. apply Nat.eqb_eq in E2; congruence.
  - simpl. rewrite IH. reflexivity.
Qed.

Lemma lookup_insert_eq l m r : lookup (insert l m r) m = Some r.
Proof. unfold insert; simpl. rewrite Nat.eqb_refl. reflexivity. Qed.

Lemma lookup_insert_neq l m r m' : m <> m' -> lookup (insert l m r) m' = lookup l m'.
Proof.
  intros N. unfold insert; simpl. destruct (Nat.eqb m m') eqn:E.
  - apply Nat.eqb_eq in E; congruence.
  - apply lookup_remove_key_neq; auto.
Qed.

Lemma lookup_In l m r : lookup l m = Some r -> In (m, r) l.
Proof.
  induction l as [|[k v] tl IH]; simpl; intros H; try discriminate.
  destruct (Nat.eqb k m) eqn:E.
  - apply Nat.eqb_eq in E. inversion H; subst. auto.
  - auto.
Qed.

Lemma remove_key_incl l m x : In x (remove_key l m) -> In x l /\ fst x <> m.
Proof.
  induction l as [|[k v] tl IH]; simpl; intros H; [tauto|].
  destruct (Nat.eqb k m) eqn:E.
  - apply IH in H. tauto.
  - simpl in H. destruct H as [<-|H].
    + split; auto. simpl. apply Nat.eqb_neq; auto.
    + apply IH in H. tauto.
Qed.

Lemma remove_key_length l m : length (remove_key l m) <= length l.
Proof. induction l as [|[k v] tl IH]; simpl; auto. destruct (Nat.eqb k m); simpl; lia. Qed.

Fixpoint cnt {A} (f : A -> nat) (l : list A) : nat :=
  match l with [] => 0 | x :: tl => f x + cnt f tl end.

Lemma cnt_app {A} (f : A -> nat) a b : cnt f (a ++ b) = cnt f a + cnt f b.
Proof. induction a as [|x tl IH]; simpl; auto. rewrite IH. lia. Qed.

Lemma cnt_snoc {A} (f : A -> nat) l x : cnt f (l ++ [x]) = cnt f l + f x.
Proof. rewrite cnt_app. simpl. lia. Qed.

Lemma cnt_ge {A} (f : A -> nat) l i x : nth_error l i = Some x -> f x <= cnt f l.
Proof. revert i; induction l as [|h tl IH]; intros [|i] H; simpl in *; try discriminate. inv H. lia. apply IH in H. lia. Qed.

Lemma cnt_upd {A} (f : A -> nat) l i x y : nth_error l i = Some x -> cnt f (upd l i y) + f x = cnt f l + f y.
Proof.
  revert i; induction l as [|h tl IH]; intros [|i] H; simpl in *; try discriminate.
  - inv H. lia.
  - apply IH in H. lia.
Qed.

Lemma cnt_upd_eq {A} (f : A -> nat) l i x y : nth_error l i = Some x -> cnt f (upd l i y) = cnt f l + f y - f x.
Proof. intros H. pose proof (cnt_upd f l i x y H). lia. Qed.

Lemma cnt_map {A B} (f : B -> nat) (g : A -> B) l : cnt f (map g l) = cnt (fun x => f (g x)) l.
Proof. induction l as [|x tl IH]; simpl; auto. Qed.

Lemma cnt_ext {A} (f g : A -> nat) l : (forall x, f x = g x) -> cnt f l = cnt g l.
Proof. intros E. induction l as [|x tl IH]; simpl; auto. Qed.

Lemma cnt_zero {A} (f : A -> nat) l : (forall x, In x l -> f x = 0) -> cnt f l = 0.
Proof. induction l as [|x tl IH]; simpl; intros H; auto. rewrite (H x), IH; auto. Qed.

Lemma cnt_pos_In {A} (f : A -> nat) l : 0 < cnt f l -> exists x, In x l /\ 0 < f x.
Proof.
  induction l as [|x tl IH]; simpl; intros H; [lia|].
  destruct (f x) eqn:E.
  - destruct IH as (y & Hy & Py); [lia|]. exists y; auto.
  - exists x; split; auto; lia.
Qed.

Lemma cnt_mono {A} (f g : A -> nat) l : (forall x, f x <= g x) -> cnt f l <= cnt g l.
Proof. intros Hfg. induction l as [|h tl IH]; simpl; auto. specialize (Hfg h). lia. Qed.

Lemma cnt_le_at {A} (f g : A -> nat) l t p :
  (forall x, f x <= g x) -> nth_error l t = Some p -> cnt f l + g p <= cnt g l + f p.
Proof.
  intros Hfg. revert t; induction l as [|h tl IH]; intros [|t] E; simpl in *; try discriminate.
  - inv E. pose proof (cnt_mono f g tl Hfg). lia.
  - specialize (IH _ E). specialize (Hfg h). lia.
Qed.

Definition getf {A B} (f : A -> B) (d : B) (l : list A) (i : nat) : B :=
  match nth_error l i with Some x => f x | None => d end.

Lemma getf_upd_same {A B} (f : A -> B) d l i x y j :
  nth_error l i = Some x -> f y = f x -> getf f d (upd l i y) j = getf f d l j.
Proof.
  intros E C. unfold getf. destruct (Nat.eq_dec i j) as [->|N].
  - rewrite (nth_error_upd_eq _ _ _ _ E), E. exact C.
  - rewrite nth_error_upd_neq; auto.
Qed.

Lemma getf_upd {A B} (f : A -> B) d l i x y j :
  nth_error l i = Some x -> getf f d (upd l i y) j = if Nat.eqb i j then f y else getf f d l j.
Proof.
  intros E. unfold getf. destruct (Nat.eqb i j) eqn:Q.
  - apply Nat.eqb_eq in Q; subst. rewrite (nth_error_upd_eq _ _ _ _ E). reflexivity.
  - apply Nat.eqb_neq in Q. rewrite nth_error_upd_neq; auto.
Qed.

Lemma getf_snoc {A B} (f : A -> B) d l y j :
  getf f d (l ++ [y]) j = if Nat.eqb j (length l) then f y else getf f d l j.
Proof.
  unfold getf. destruct (Nat.eqb j (length l)) eqn:Q.
  - apply Nat.eqb_eq in Q; subst. rewrite nth_error_snoc_new. reflexivity.
  - apply Nat.eqb_neq in Q. destruct (Nat.lt_ge_cases j (length l)).
    + rewrite nth_error_app1; auto.
    + assert (N1 : nth_error (l ++ [y]) j = None) by (apply nth_error_None; rewrite app_length; simpl; lia).
      assert (N2 : nth_error l j = None) by (apply nth_error_None; lia). rewrite N1, N2. reflexivity.
Qed.

Lemma getf_some {A B} (f : A -> B) d l i x : nth_error l i = Some x -> getf f d l i = f x.
Proof. intros E. unfold getf. rewrite E. reflexivity. Qed.

Lemma getf_none {A B} (f : A -> B) d l i : length l <= i -> getf f d l i = d.
Proof. intros H. unfold getf. assert (N : nth_error l i = None) by (apply nth_error_None; lia). rewrite N. reflexivity. Qed.

Definition getd {A} (f : A -> nat) (l : list A) (i : nat) : nat :=
  match nth_error l i with Some x => f x | None => 0 end.

Lemma getd_upd_same {A} (f : A -> nat) l i x y j :
  nth_error l i = Some x -> f y = f x -> getd f (upd l i y) j = getd f l j.
Proof. exact (getf_upd_same f 0 l i x y j). Qed.

Lemma getd_upd {A} (f : A -> nat) l i x y j :
  nth_error l i = Some x -> getd f (upd l i y) j = if Nat.eqb i j then f y else getd f l j.
Proof. exact (getf_upd f 0 l i x y j). Qed.

Lemma getd_snoc {A} (f : A -> nat) l y j :
  getd f (l ++ [y]) j = if Nat.eqb j (length l) then f y else getd f l j.
Proof. exact (getf_snoc f 0 l y j). Qed.

Lemma getd_none {A} (f : A -> nat) l j : length l <= j -> getd f l j = 0.
Proof. exact (getf_none f 0 l j). Qed.

Lemma cnt_two {A} (f : A -> nat) l i j x y :
  i <> j -> nth_error l i = Some x -> nth_error l j = Some y -> f x + f y <= cnt f l.
Proof.
  revert i j; induction l as [|h tl IH]; intros [|i] [|j] N Hi Hj; simpl in *; try discriminate; try congruence.
  - inv Hi. pose proof (cnt_ge f tl j y Hj). lia.
  - inv Hj. pose proof (cnt_ge f tl i x Hi). lia.
  - assert (i <> j) by congruence. specialize (IH i j H Hi Hj). lia.
Qed.

Definition eqn (a b : nat) : nat := if Nat.eqb a b then 1 else 0.

Lemma tick_runners s d : runners (tick s d) = fst (fire (runners s) 0 (now s + d)%Z).
Proof. unfold tick. destruct (fire (runners s) 0 (now s + d)%Z); reflexivity. Qed.

Lemma tick_thr s d : thr (tick s d) = map (wake (now s + d)%Z) (thr s) ++ snd (fire (runners s) 0 (now s + d)%Z).
Proof. unfold tick. destruct (fire (runners s) 0 (now s + d)%Z); reflexivity. Qed.

Lemma tick_reqs s d : reqs (tick s d) = reqs s.
Proof. unfold tick. destruct (fire (runners s) 0 (now s + d)%Z); reflexivity. Qed.

Lemma tick_pendq s d : pendq (tick s d) = pendq s.
Proof. unfold tick. destruct (fire (runners s) 0 (now s + d)%Z); reflexivity. Qed.

Lemma tick_lmu s d : lmu (tick s d) = lmu s.
Proof. unfold tick. destruct (fire (runners s) 0 (now s + d)%Z); reflexivity. Qed.

Lemma tick_loaded s d : loaded (tick s d) = loaded s.
Proof. unfold tick. destruct (fire (runners s) 0 (now s + d)%Z); reflexivity. Qed.

Lemma tick_maxr s d : maxr (tick s d) = maxr s.
Proof. unfold tick. destruct (fire (runners s) 0 (now s + d)%Z); reflexivity. Qed.

Lemma wake_obs {A} (f : pc -> A) u p :
  (forall r v, f (RTSleep r v) = f (RTSend r)) -> (forall q v, f (RSSleep q v) = f (RSSend q)) -> f (wake u p) = f p.
Proof. intros; destruct p; simpl; auto; destruct (Z.leb _ u); auto. Qed.

(* [fire] only turns armed timers into fired ones: what does not see that is the same before and after *)
Lemma fire_getf {B} (f : runner -> B) (d : B) :
  (forall x dl, r_tm x = TArmed dl -> f (r_set_tm x TFired) = f x) ->
  forall rs i t' r, getf f d (fst (fire rs i t')) r = getf f d rs r.
Proof.
  intros Hf. induction rs as [|x tl IH]; intros i t' r; simpl; auto.
  specialize (IH (S i) t'). destruct (fire tl (S i) t') as [tl' ps] eqn:E. simpl in IH.
  assert (G : forall y, f y = f x -> getf f d (y :: tl') r = getf f d (x :: tl) r).
  { intros y Cy. unfold getf in *. destruct r; simpl; auto. }
  destruct (r_tm x) as [|[dl|]|] eqn:T; simpl; auto. destruct (Z.leb dl t'); simpl; eauto.
Qed.

Lemma fire_getd (f : runner -> nat) :
  (forall x dl, r_tm x = TArmed dl -> f (r_set_tm x TFired) = f x) ->
  forall rs i t' r, getd f (fst (fire rs i t')) r = getd f rs r.
Proof. exact (fire_getf f 0). Qed.

Lemma fire_cnt (f : runner -> nat) :
  (forall x v, f (r_set_tm x v) = f x) -> forall rs i t', cnt f (fst (fire rs i t')) = cnt f rs.
Proof.
  intros Hf. induction rs as [|x tl IH]; intros i t'; simpl; auto.
  specialize (IH (S i) t'). destruct (fire tl (S i) t') as [tl' ps]. simpl in IH.
  destruct (r_tm x) as [|[dl|]|]; simpl; auto. destruct (Z.leb dl t'); simpl; auto.
Qed.

Lemma fire_Forall (P : runner -> Prop) :
  (forall x, P x -> P (r_set_tm x TFired)) ->
  forall rs i t', Forall P rs -> Forall P (fst (fire rs i t')).
Proof.
  intros HP. induction rs as [|x tl IH]; intros i t' F; simpl; auto.
  inv F. specialize (IH (S i) t' H2). destruct (fire tl (S i) t') as [tl' ps] eqn:E. simpl in IH.
  destruct (r_tm x) as [|[dl|]|]; simpl; auto. destruct (Z.leb dl t'); simpl; auto.
Qed.

Lemma fire_pcs_zero (f : pc -> nat) :
  (forall r, f (TEntry (TMLk r)) = 0) -> forall rs i t', cnt f (snd (fire rs i t')) = 0.
Proof.
  intros Hf. induction rs as [|x tl IH]; intros i t'; simpl; auto.
  specialize (IH (S i) t'). destruct (fire tl (S i) t') as [tl' ps]. simpl in IH.
  destruct (r_tm x) as [|[dl|]|]; simpl; auto. destruct (Z.leb dl t'); simpl; auto. rewrite Hf. auto.
Qed.

Lemma wake_cnt (f : pc -> nat) t' l : (forall p, f (wake t' p) = f p) -> cnt f (map (wake t') l) = cnt f l.
Proof. intros H. rewrite cnt_map. apply cnt_ext. exact H. Qed.

Lemma tick_cnt (f : pc -> nat) s d :
  (forall r v, f (RTSleep r v) = f (RTSend r)) -> (forall q v, f (RSSleep q v) = f (RSSend q)) ->
  (forall r, f (TEntry (TMLk r)) = 0) -> cnt f (thr (tick s d)) = cnt f (thr s).
Proof. intros A B C. rewrite tick_thr, cnt_app, fire_pcs_zero, wake_cnt by auto using wake_obs. lia. Qed.

Lemma fire_pcs_In rs : forall i t' p, In p (snd (fire rs i t')) -> exists r, p = TEntry (TMLk r).
Proof.
  induction rs as [|x tl IH]; intros i t' p; simpl; [tauto|].
  specialize (IH (S i) t' p). destruct (fire tl (S i) t') as [tl' ps]. simpl in IH.
  destruct (r_tm x) as [|[dl|]|]; simpl; auto. destruct (Z.leb dl t'); simpl; auto.
  intros [<-|H]; eauto.
Qed.

(* a thread of the state after a tick is a (possibly woken) old thread or a new timer callback *)
Lemma tick_thr_cases s d t p :
  nth_error (thr (tick s d)) t = Some p ->
  (exists p0, nth_error (thr s) t = Some p0 /\ p = wake (now s + d)%Z p0) \/ (exists r, p = TEntry (TMLk r)).
Proof.
  rewrite tick_thr. intros H.
  destruct (Nat.lt_ge_cases t (length (map (wake (now s + d)%Z) (thr s)))) as [L|L].
  - rewrite nth_error_app1 in H; auto. rewrite nth_error_map in H.
    destruct (nth_error (thr s) t) as [p0|]; simpl in H; try discriminate. inv H. left; eauto.
  - rewrite nth_error_app2 in H; auto. apply nth_error_In in H. apply fire_pcs_In in H. right; auto.
Qed.

Lemma tick_thr_obs {A} {f : pc -> option A} {s d t p a} :
  nth_error (thr (tick s d)) t = Some p -> f p = Some a ->
  (forall r v, f (RTSleep r v) = f (RTSend r)) -> (forall q v, f (RSSleep q v) = f (RSSend q)) ->
  (forall r, f (TEntry (TMLk r)) = None) ->
  exists p0, nth_error (thr s) t = Some p0 /\ f p0 = Some a.
Proof.
  intros Hn Hp B1 B2 N. apply tick_thr_cases in Hn. destruct Hn as [(p0 & Hn & ->)|(r & ->)]; [|rewrite N in Hp; discriminate].
  rewrite wake_obs in Hp by assumption. eauto.
Qed.

Ltac eqb_cases :=
  unfold eqn in *;
  repeat match goal with
  | H : context [Nat.eqb ?a ?b] |- _ => let E := fresh "Q" in destruct (Nat.eqb a b) eqn:E; [apply Nat.eqb_eq in E | apply Nat.eqb_neq in E]; try subst
  | |- context [Nat.eqb ?a ?b] => let E := fresh "Q" in destruct (Nat.eqb a b) eqn:E; [apply Nat.eqb_eq in E | apply Nat.eqb_neq in E]; try subst
  | H : context [Nat.ltb ?a ?b] |- _ => let E := fresh "Q" in destruct (Nat.ltb a b) eqn:E; [apply Nat.ltb_lt in E | apply Nat.ltb_ge in E]
  | |- context [Nat.ltb ?a ?b] => let E := fresh "Q" in destruct (Nat.ltb a b) eqn:E; [apply Nat.ltb_lt in E | apply Nat.ltb_ge in E]
  end.

Ltac use_nth :=
  unfold getd in *;
  repeat match goal with
  | E : nth_error ?l ?i = Some _, H : context [nth_error ?l ?i] |- _ => lazymatch H with E => fail | _ => rewrite E in H end
  | E : nth_error ?l ?i = Some _ |- context [nth_error ?l ?i] => rewrite E
  end.

Ltac sums Ep :=
  repeat first
    [ rewrite cnt_snoc
    | rewrite app_length
    | rewrite upd_length
    | erewrite cnt_upd_eq by (first [exact Ep | apply nth_error_snoc_old; exact Ep])
    | erewrite getd_upd by eassumption
    | rewrite getd_snoc ].

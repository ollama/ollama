(** C16 — Memory estimate never plans more on a GPU than it has free.

    [estimate gs m o] is the model of llm.EstimateGPULayers for the GPU list [gs] (any length >= 1, any free / minimum
    memory), the quantities [m] the estimator reads from the model file (any block count, any layer-size profile,
    graph and KV sizes, output / projector sizes) and the options [o] (overhead, num_gpu, projectors).
    [r_sizes / r_layers / r_split / r_vram / r_total] are MemoryEstimate.GPUSizes / Layers / TensorSplit / VRAMSize /
    TotalSize; [p_allocs / p_counts / p_lc / p_fully] are gpuAllocations / layerCounts / layerCount / fullyLoaded at
    the end of the function.  [r_ok r = true] says that no uint64 operation of the run wrapped around. *)
From Coq Require Import List NArith ZArith Bool.
From V Require Import Common.Bytes Mem.Model Mem.Proofs Mem.Sched Mem.SchedProofs.
Import ListNotations.
Open Scope N_scope.

(** ** 1. no GPU is planned above its free memory less the overhead *)

(** the statement without the no-wrap guard is false of the faithful model (and of the code): uint64 wrap-around *)
Definition C16_per_gpu_bound_full : Prop := forall gs m o i,
  let r := estimate gs m o in
  nth i (r_sizes r) 0 = 0 \/ nth i (r_sizes r) 0 + o_overhead o <= g_free (nth i gs gpu0).

(* [99; 117; 100; 97] is the library name "cuda" *)
Definition wrap_gs : list gpu := [mkgpu 10 0 [99; 117; 100; 97] []].
Definition wrap_m : model := mkmodel (Some 1) [(Some 1, 0, 0)] (0, 0) (0, 0) 0 None None None (0, 0).
Definition wrap_o : opts := mkopts 18446744073709551615 (-1) [].

Theorem C16_per_gpu_bound_refuted : ~ C16_per_gpu_bound_full.
Proof.
  intros H. specialize (H wrap_gs wrap_m wrap_o 0%nat). vm_compute in H.
  destruct H as [H|H]; [discriminate H|exact (H eq_refl)].
Qed.
Print Assumptions C16_per_gpu_bound_refuted.

(** the strongest true statement: guarded by the decidable flag "nothing wrapped" *)
Theorem C16_per_gpu_bound : forall gs m o i,
  let r := estimate gs m o in
  r_ok r = true ->
  (nth i (r_sizes r) 0 = 0 \/ nth i (r_sizes r) 0 + o_overhead o <= g_free (nth i gs gpu0)) /\
  (nth i (p_allocs r) 0 = 0 \/ nth i (p_allocs r) 0 + o_overhead o <= g_free (nth i gs gpu0)) /\
  length (p_allocs r) = length gs /\ (r_sizes r = [] \/ r_sizes r = p_allocs r).
Proof.
  intros gs m o i r Hok.
  destruct (estimate_bytes gs m o Hok) as (Hb & _).
  destruct (estimate_counts gs m o) as (Hlen & _).
  destruct (estimate_reported gs m o) as (_ & _ & Hsz & _).
  fold r in Hb, Hlen, Hsz.
  assert (Ha : nth i (p_allocs r) 0 = 0 \/ nth i (p_allocs r) 0 + o_overhead o <= g_free (nth i gs gpu0))
    by (destruct (Hb i) as [[H _]|[_ H]]; auto).
  repeat split; auto.
  destruct Hsz as [-> | ->]; [left; now destruct i|exact Ha].
Qed.
Print Assumptions C16_per_gpu_bound.

(** a GPU whose free memory is below overhead + graph + minimum + two layers (the admission test without the
    projector term) gets nothing at all *)
Theorem C16_unadmitted_gpu_gets_nothing : forall gs m o i,
  let r := estimate gs m o in
  let q := prepare gs m o in
  r_ok r = true ->
  g_free (nth i gs gpu0) < o_overhead o + N.max (q_gp q) (q_gf q) + g_min (nth i gs gpu0) + 2 * q_l0 q ->
  nth i (p_allocs r) 0 = 0 /\ nth i (p_counts r) 0 = 0.
Proof.
  intros gs m o i r q Hok Hfree.
  destruct (estimate_bytes gs m o Hok) as (Hb & _).
  destruct (Hb i) as [H|[H _]]; [exact H|]. now apply N.lt_nge in Hfree.
Qed.
Print Assumptions C16_unadmitted_gpu_gets_nothing.

(** ** 2. layers <= blocks + output, and <= num_gpu when the user gave a limit *)
Theorem C16_layers_le_model_and_limit : forall gs m o,
  let r := estimate gs m o in
  let bc := N.of_nat (length (m_blocks m)) in
  r_layers r <= bc + 1 /\ ((0 <= o_numgpu o)%Z -> (Z.of_N (r_layers r) <= o_numgpu o)%Z).
Proof.
  intros gs m o r bc.
  destruct (estimate_counts gs m o) as (_ & _ & _ & Hle & Hcap & _).
  destruct (estimate_reported gs m o) as (Hlay & _).
  fold r bc in Hle, Hcap, Hlay.
  destruct Hlay as [-> | ->]; split; auto. apply N.le_0_l.
Qed.
Print Assumptions C16_layers_le_model_and_limit.

(** ** 3. the reported split has one entry per GPU and sums to the layer count; it is reported whenever layers were
    placed on a multi-GPU list *)
Theorem C16_split_sums : forall gs m o,
  let r := estimate gs m o in
  (r_split r <> [] -> length (r_split r) = length gs /\ sum_x (r_split r) = r_layers r) /\
  ((1 < length gs)%nat -> r_layers r <> 0 -> r_split r <> []) /\
  sum_x (p_counts r) = p_lc r.
Proof.
  intros gs m o r.
  destruct (estimate_counts gs m o) as (_ & Hlen & Hsum & _).
  destruct (estimate_reported gs m o) as (_ & Hsp & _ & Hrep).
  fold r in Hlen, Hsum, Hsp, Hrep.
  split; [|split; [|exact Hsum]].
  - intros Hne. destruct Hsp as [H|(H1 & H2)]; [contradiction|]. rewrite H1, H2. auto.
  - intros Hn Hl. rewrite (Hrep Hn Hl).
    intros E. apply (f_equal (@length N)) in E. rewrite Hlen in E. cbn in E. rewrite E in Hn. inversion Hn.
Qed.
Print Assumptions C16_split_sums.

(** ** 4. total >= the GPU-resident part *)
Definition C16_total_ge_vram_full : Prop := forall gs m o,
  let r := estimate gs m o in r_vram r <= r_total r.

Definition wrap2_gs : list gpu := [mkgpu 18446744073709551615 0 [99; 117; 100; 97] []].
Definition wrap2_m : model :=
  let S := 4611686018427387904 in
  mkmodel (Some S) [(Some S, 0, 0); (Some S, 0, 0); (Some S, 0, 0); (Some S, 0, 0)] (0, 0) (0, 0) 0 None None None (0, 0).
Definition wrap2_o : opts := mkopts 0 1 [].

Theorem C16_total_ge_vram_refuted : ~ C16_total_ge_vram_full.
Proof. intros H. specialize (H wrap2_gs wrap2_m wrap2_o). vm_compute in H. exact (H eq_refl). Qed.
Print Assumptions C16_total_ge_vram_refuted.

Theorem C16_total_ge_vram : forall gs m o,
  let r := estimate gs m o in
  r_ok r = true ->
  r_vram r <= r_total r /\ r_vram r = sum_x (r_sizes r) /\ sum_x (p_allocs r) <= r_total r.
Proof. intros gs m o r Hok. destruct (estimate_bytes gs m o Hok) as (_ & H). exact H. Qed.
Print Assumptions C16_total_ge_vram.

(** ** the guard [r_ok] follows from a condition on the inputs alone: the sizes read from the file add up without
    wrapping ([q_ok (prepare ..)], five explicit sums) and the explicit expression [demand gs m o] (overhead +
    (GPUs+1) x (sum of minimums + first layer + projector + blocks x (sum of layer sizes) + output + graph) + ...)
    is below 2^64 *)
Theorem C16_no_wrap_below_2_64 : forall gs m o,
  q_ok (prepare gs m o) = true -> demand gs m o < W -> r_ok (estimate gs m o) = true.
Proof. exact estimate_nowrap. Qed.
Print Assumptions C16_no_wrap_below_2_64.

Theorem C16_bytes_below_2_64 : forall gs m o i,
  let r := estimate gs m o in
  q_ok (prepare gs m o) = true -> demand gs m o < W ->
  (nth i (r_sizes r) 0 = 0 \/ nth i (r_sizes r) 0 + o_overhead o <= g_free (nth i gs gpu0)) /\
  r_vram r <= r_total r /\ r_vram r = sum_x (r_sizes r).
Proof.
  intros gs m o i r Hq HD. pose proof (estimate_nowrap gs m o Hq HD) as Hok.
  destruct (C16_per_gpu_bound gs m o i Hok) as (H1 & _).
  destruct (C16_total_ge_vram gs m o Hok) as (H2 & H3 & _).
  auto.
Qed.
Print Assumptions C16_bytes_below_2_64.

(** ** 5. a model is declared to fit only if one library group places all of its layers (blocks + output), or, when
    the user capped the number of layers with num_gpu >= 0, exactly that many (and the cap is at most blocks + 1) *)
Theorem C16_fit_sound : forall all m o v,
  predict_server_fit all m o = (true, v) ->
  exists g, In g (by_library all) /\ g <> [] /\ (forall x, In x g -> In x all) /\
    (forall x y, In x g -> In y g -> requested x = requested y) /\
    let r := estimate g m o in
    let bc := N.of_nat (length (m_blocks m)) in
    v = r_vram r /\ 0 < r_layers r /\ r_layers r = p_lc r /\
    ((o_numgpu o < 0)%Z -> r_layers r = bc + 1 /\ p_fully r = true) /\
    ((0 <= o_numgpu o)%Z -> Z.of_N (r_layers r) = o_numgpu o /\ (o_numgpu o <= Z.of_N bc + 1)%Z).
Proof. exact fit_sound. Qed.
Print Assumptions C16_fit_sound.

(** ByLibrary is a partition of the GPU list into non-empty groups of one library/variant *)
Theorem C16_by_library_partition : forall all,
  (forall grp, In grp (by_library all) ->
     grp <> [] /\ (forall x, In x grp -> In x all) /\ (forall x y, In x grp -> In y grp -> requested x = requested y)) /\
  (forall x, In x all -> exists grp, In grp (by_library all) /\ In x grp).
Proof. intros all. split; [apply by_library_gen_groups|apply by_library_gen_complete]. Qed.
Print Assumptions C16_by_library_partition.

(** ** 6. the path the scheduler takes to the estimator (server/sched.go; model Mem/Sched.v).
    [gpus] is the list reported by discovery, [rs] the loaded runners (loading flag, GPU IDs, EstimatedVRAMByGPU), [mp p]
    the model-file inputs for the parallel setting p. *)

(** updateFreeSpace never raises a GPU's FreeMemory and changes nothing else; with filterGPUsWithoutLoadingModels in front,
    every GPU handed to the estimator is a reported GPU whose FreeMemory is at most the reported value *)
Theorem C16_sched_free_never_raised : forall rs gpus,
  Forall2 not_raised gpus (update_free rs gpus) /\
  (forall g', In g' (update_free rs (filter_loading rs gpus)) -> exists g, In g gpus /\ not_raised g g').
Proof. intros rs gpus. split; [apply update_free_not_raised|apply handed_not_raised]. Qed.
Print Assumptions C16_sched_free_never_raised.

(** ... and it accounts for every resident runner (all of them, whoever holds their locks): what it leaves as free plus the
    usage predicted for the loaded runners on that GPU fits into the GPU's total memory; free is 0 if the prediction exceeds it *)
Theorem C16_sched_free_accounts_for_resident : forall rs gpus g',
  existsb rn_llama rs = true -> In g' (update_free rs gpus) ->
  (predicted rs gpus g' <= x_total g' -> x_free g' + predicted rs gpus g' <= x_total g') /\
  (x_total g' < predicted rs gpus g' -> x_free g' = 0).
Proof. exact update_free_accounts. Qed.
Print Assumptions C16_sched_free_accounts_for_resident.

(** pickBestFullFitByLibrary: a non-nil answer is a non-empty set of GPUs of the list it was given, of one
    library/variant, chosen with a parallel setting it was allowed to try, and PredictServerFit said yes for exactly it *)
Theorem C16_sched_pick_full_sound : forall gpus spread np mp o p chosen,
  pick_full gpus spread np mp o = Some (p, chosen) ->
  In p (tries np) /\ chosen <> [] /\ (forall x, In x chosen -> In x gpus) /\
  (forall x y, In x chosen -> In y chosen -> x_key x = x_key y) /\
  fst (predict_server_fit (map x_g chosen) (mp p) o) = true.
Proof. exact pick_full_sound. Qed.
Print Assumptions C16_sched_pick_full_sound.

(** end to end, other models loaded: whatever the scheduler hands to NewLlamaServer, the plan computed for it puts on
    every GPU nothing, or at most the REPORTED free memory of that GPU less the overhead *)
Theorem C16_sched_per_gpu_bound_reported : forall rs gpus spread np mp o avail p chosen i,
  sched_loaded rs gpus spread np mp o = (avail, Some (p, chosen)) ->
  let r := plan_for chosen (mp p) o in
  r_ok r = true ->
  nth i (r_sizes r) 0 = 0 \/
  exists g, In g gpus /\ same_ident g (nth i chosen x0) /\ nth i (r_sizes r) 0 + o_overhead o <= x_free g.
Proof. exact sched_loaded_bound. Qed.
Print Assumptions C16_sched_per_gpu_bound_reported.

(** end to end, first model (full fit, else best partial fit): the chosen GPUs are reported GPUs, unchanged *)
Theorem C16_sched_first_per_gpu_bound : forall gpus spread np mp o p chosen i,
  sched_first gpus spread np mp o = (p, chosen) ->
  let r := plan_for chosen (mp p) o in
  r_ok r = true ->
  nth i (r_sizes r) 0 = 0 \/
  (In (nth i chosen x0) gpus /\ nth i (r_sizes r) 0 + o_overhead o <= x_free (nth i chosen x0)).
Proof. exact sched_first_bound. Qed.
Print Assumptions C16_sched_first_per_gpu_bound.

(** CPU branch of processPending + maybeFindCPURunnerToUnload: when the model is loaded next to other runners, the
    configuration that is loaded (NumCtx = origNumCtx * p, parallel p, p = the scheduler's parallel setting) is the one the fit
    check was made for, and its TotalSize is within the reported free system memory *)
Theorem C16_sched_cpu_load_fits : forall loaded g np_env emb mp o p,
  sched_cpu loaded g np_env emb mp o = CpuLoad p ->
  p = cpu_parallel np_env emb /\ (1 <= p)%Z /\
  (loaded <> O -> r_total (plan_for [g] (mp p) o) <= x_free g).
Proof. exact sched_cpu_load_fits. Qed.
Print Assumptions C16_sched_cpu_load_fits.

(** ** non-vacuity: the guard [r_ok] and the fit hypothesis are met by non-trivial cases *)
Definition ex_gs : list gpu := [mkgpu 9000 100 [99; 117; 100; 97] []; mkgpu 400 100 [99; 117; 100; 97] []; mkgpu 5000 0 [99; 117; 100; 97] []].
Definition ex_m : model :=
  mkmodel (Some 300) [(Some 300, 20, 40); (Some 500, 20, 40); (None, 20, 40); (Some 100, 20, 40)] (64, 32) (128, 96) 4 (Some 8) None (Some 700) (0, 0).
Definition ex_o : opts := mkopts 50 (-1) [].

Example C16_guard_satisfiable :
  let r := estimate ex_gs ex_m ex_o in
  r_ok r = true /\ r_layers r = 5 /\ r_split r = [3; 0; 2] /\ r_sizes r = [2032; 0; 1024] /\ r_vram r = 3056 /\ r_total r = 3056.
Proof. vm_compute. repeat split. Qed.

Example C16_demand_satisfiable : q_ok (prepare ex_gs ex_m ex_o) = true /\ demand ex_gs ex_m ex_o < W.
Proof. vm_compute. split; reflexivity. Qed.

Example C16_fit_satisfiable : predict_server_fit (mkgpu 1 0 [99; 112; 117] [] :: ex_gs) ex_m ex_o = (true, 3056).
Proof. vm_compute. reflexivity. Qed.

Example C16_partial_offload_example :
  let r := estimate [mkgpu 2000 100 [99; 117; 100; 97] []] ex_m (mkopts 50 (-1) []) in
  r_ok r = true /\ r_layers r = 3 /\ p_fully r = false /\ r_vram r < r_total r.
Proof. vm_compute. repeat split. Qed.

(** non-vacuity: a GPU with 8000 of 10000 bytes free of which our loaded runner predicts 5000 is handed over with 5000;
    a GPU on which a foreign application holds memory (free 600 of 10000, ours 1000) keeps 600 *)
Definition ex_x (id : N) (total free : N) : xgpu := mkx [id] total (mkgpu free 100 [99; 117; 100; 97] []).
Definition ex_rs : list runner := [mkrunner false [[48]] true [([48], 5000); ([49], 1000)]].
Example C16_sched_example :
  map x_free (update_free ex_rs [ex_x 48 10000 8000; ex_x 49 10000 600; ex_x 50 10000 9000]) = [5000; 600; 9000] /\
  snd (sched_loaded ex_rs [ex_x 48 10000 8000; ex_x 49 10000 600; ex_x 50 10000 9000] false 1 (fun _ => ex_m) ex_o)
    = Some (1%Z, [ex_x 50 10000 9000]) /\
  r_ok (plan_for [ex_x 50 10000 9000] ex_m ex_o) = true /\ r_layers (plan_for [ex_x 50 10000 9000] ex_m ex_o) = 5.
Proof. vm_compute. repeat split. Qed.

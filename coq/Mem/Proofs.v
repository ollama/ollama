(** The counting facts and the byte bounds about Mem/Model.v come from one observation: after admission the loops
    only make the moves of [steps], and each invariant is proved once over [steps]. *)
From Coq Require Import List NArith ZArith Bool Arith Lia.
From Coq Require Import ZifyBool ZifyNat ZifyN.
From V Require Import Common.Bytes Mem.Model.
Import ListNotations.
Open Scope N_scope.

Lemma fits_lt x : fits x = true -> x < W.
Proof. apply N.ltb_lt. Qed.

Lemma fits_small x : x < W -> fits x = true.
Proof. apply N.ltb_lt. Qed.

Lemma w_small x : x < W -> w x = x.
Proof. apply N.mod_small. Qed.

Lemma w_fits x : fits x = true -> w x = x.
Proof. intros H. apply w_small, fits_lt, H. Qed.

Lemma nth_upd_ne (l : list N) i j f d : i <> j -> nth i (upd l j f) d = nth i l d.
Proof.
  revert i j. induction l as [|x t IH]; intros i j Hne; destruct j, i; cbn; auto; try congruence.
Qed.

Lemma nth_upd_lt (l : list N) j f d : (j < length l)%nat -> nth j (upd l j f) d = f (nth j l d).
Proof.
  revert j. induction l as [|x t IH]; intros j Hj; cbn in Hj; [lia|].
  destruct j; cbn; auto. apply IH. lia.
Qed.

Lemma upd_overflow (l : list N) j f : (length l <= j)%nat -> upd l j f = l.
Proof.
  revert j. induction l as [|x t IH]; intros j Hj; [now destruct j|].
  destruct j; cbn in *; [lia|]. rewrite IH by lia. reflexivity.
Qed.

Lemma length_upd (l : list N) j f : length (upd l j f) = length l.
Proof. revert j. induction l as [|x t IH]; intros j; destruct j; cbn; auto. Qed.

Lemma nth_upd_add (l : list N) j sz :
  nth j l 0 + sz < W -> nth j (upd l j (fun x => w (x + sz))) 0 <= nth j l 0 + sz.
Proof.
  intros H. destruct (Nat.lt_ge_cases j (length l)) as [Hj|Hj].
  - rewrite nth_upd_lt, w_small by assumption. lia.
  - rewrite upd_overflow by exact Hj. lia.
Qed.

Lemma fold_add_acc (l : list N) a : fold_left N.add l a = a + fold_left N.add l 0.
Proof.
  revert a. induction l as [|x t IH]; intros a; cbn; [lia|].
  rewrite IH. rewrite (IH x). lia.
Qed.

Lemma sum_x_cons x l : sum_x (x :: l) = x + sum_x l.
Proof. unfold sum_x. cbn. now rewrite fold_add_acc. Qed.

Lemma In_le_sum_x x (l : list N) : In x l -> x <= sum_x l.
Proof.
  induction l as [|y t IH]; [intros []|]. intros [<-|H]; rewrite sum_x_cons; [lia|]. specialize (IH H). lia.
Qed.

Lemma sum_x_nil : sum_x [] = 0.
Proof. reflexivity. Qed.

Lemma sum_x_upd_succ (l : list N) j : (j < length l)%nat -> sum_x (upd l j N.succ) = sum_x l + 1.
Proof.
  revert j. induction l as [|x t IH]; intros j Hj; cbn in Hj; [lia|].
  destruct j; cbn [upd]; rewrite !sum_x_cons.
  - lia.
  - rewrite IH by lia. lia.
Qed.

Lemma sum_x_repeat0 n : sum_x (repeat 0 n) = 0.
Proof. induction n; cbn [repeat]; [reflexivity|]. now rewrite sum_x_cons, IHn. Qed.

Lemma sum_w_acc (l : list N) a :
  fold_left N.add l a < W -> fold_left (fun a x => w (a + x)) l a = fold_left N.add l a.
Proof.
  revert a. induction l as [|x t IH]; intros a H; cbn in *; auto.
  assert (Hax : a + x < W). { rewrite fold_add_acc in H. lia. }
  rewrite w_small by exact Hax. now apply IH.
Qed.

Lemma sum_w_x l : sum_x l < W -> sum_w l = sum_x l.
Proof. apply sum_w_acc. Qed.

Lemma incl_remove_nth {T} k (l : list T) : incl (remove_nth k l) l.
Proof.
  revert k. induction l as [|x t IH]; intros k; destruct k; cbn [remove_nth]; intros y Hy; auto.
  - now right.
  - destruct Hy as [<-|Hy]; [now left|right; eapply IH; exact Hy].
Qed.

Lemma length_remove_nth {A} k (l : list A) : (k < length l)%nat -> length (remove_nth k l) = pred (length l).
Proof.
  revert k. induction l as [|x t IH]; intros k H; cbn in H; [lia|].
  destruct k; cbn; auto. rewrite IH by lia. destruct t; cbn in *; lia.
Qed.

Lemma capped_false ng n : capped ng n = false -> (ng < 0 \/ Z.of_N n < ng)%Z.
Proof. unfold capped. lia. Qed.

Lemma capped_true ng n : capped ng n = true -> (0 <= ng <= Z.of_N n)%Z.
Proof. unfold capped. lia. Qed.

Section Plan.
  Variable gs : list gpu.
  Variable ovh maxG : N.

  Lemma tried_exact fl a sz :
    fl && fits (a + maxG) && fits (ovh + w (a + maxG)) && fits (w (ovh + w (a + maxG)) + sz) = true ->
    fl = true /\ w (w (ovh + w (a + maxG)) + sz) = ovh + a + maxG + sz.
  Proof.
    rewrite !andb_true_iff. intros (((Hfl & H1) & H2) & H3).
    rewrite (w_fits _ H1) in *. rewrite (w_fits _ H2) in *. rewrite (w_fits _ H3). split; [exact Hfl|lia].
  Qed.

  Lemma put_exact fl a sz free :
    fl && fits (a + maxG) && fits (ovh + w (a + maxG)) && fits (w (ovh + w (a + maxG)) + sz) && fits (a + sz) = true ->
    (w (w (ovh + w (a + maxG)) + sz) <? free) = true ->
    fl = true /\ ovh + a + maxG + sz < free /\ a + sz < W.
  Proof.
    intros H E. apply andb_prop in H as [H Hf]. apply tried_exact in H as [Hfl Ex].
    rewrite Ex in E. apply N.ltb_lt in E. apply fits_lt in Hf. auto.
  Qed.

  Definition wf (n : nat) (ng : Z) (s : st) : Prop :=
    length (al s) = n /\ length (ct s) = n /\ Forall (fun i => (i < n)%nat) (ws s) /\
    sum_x (ct s) = lc s /\ (0 <= ng -> Z.of_N (lc s) <= ng)%Z.

  Definition planned (A : list nat) (s : st) : Prop :=
    incl (ws s) A /\
    forall i, (nth i (al s) 0 = 0 /\ nth i (ct s) 0 = 0) \/
              (In i A /\ nth i (al s) 0 + maxG + ovh <= g_free (nth i gs gpu0)).

  (** [s'] is reached from [s] by dropping GPUs from [ws] and by at most [k] times putting a layer on a GPU of [ws]
      while the limit [ng] is not reached.  The new flag, if set, vouches for the old one and for the test having
      been made in exact arithmetic. *)
  Inductive steps (ng : Z) : nat -> st -> st -> Prop :=
  | steps_refl k s : steps ng k s s
  | steps_skip k s s1 ws' fl :
      steps ng k s s1 -> incl ws' (ws s1) -> (fl = true -> ok s1 = true) ->
      steps ng k s (mkst ws' (al s1) (ct s1) (lc s1) fl)
  | steps_put k s s1 gi sz fl :
      steps ng k s s1 -> In gi (ws s1) -> capped ng (lc s1) = false ->
      (fl = true -> ok s1 = true /\ ovh + nth gi (al s1) 0 + maxG + sz < g_free (nth gi gs gpu0) /\
                    nth gi (al s1) 0 + sz < W) ->
      steps ng (S k) s (mkst (ws s1) (upd (al s1) gi (fun x => w (x + sz))) (upd (ct s1) gi N.succ) (N.succ (lc s1)) fl).

  Lemma steps_S ng k s s' : steps ng k s s' -> steps ng (S k) s s'.
  Proof. induction 1; econstructor; eauto. Qed.

  Lemma steps_lc ng k s s' : steps ng k s s' -> lc s <= lc s' <= lc s + N.of_nat k.
  Proof. induction 1; cbn [lc]; lia. Qed.

  Lemma steps_wf n ng k s s' : steps ng k s s' -> wf n ng s -> wf n ng s'.
  Proof.
    induction 1 as [k s|k s s1 ws' fl _ IH Hi _|k s s1 gi sz fl _ IH Hin Hcap _]; intros Hwf; [exact Hwf| |];
      destruct (IH Hwf) as (Ha & Hc & Hw & Hs & Hg); rewrite Forall_forall in Hw; unfold wf; cbn [ws al ct lc].
    - rewrite Forall_forall. auto 6.
    - rewrite !length_upd, Forall_forall, sum_x_upd_succ by (rewrite Hc; auto).
      apply capped_false in Hcap. repeat split; auto; lia.
  Qed.

  Lemma steps_planned A ng k s s' : steps ng k s s' -> ok s' = true -> ok s = true /\ (planned A s -> planned A s').
  Proof.
    induction 1 as [k s|k s s1 ws' fl _ IH Hi Ho|k s s1 gi sz fl _ IH Hin _ Ho]; cbn [ok]; intros Hok; [auto| |].
    - destruct (IH (Ho Hok)) as (Hok0 & HP). split; [exact Hok0|]. intros (Hs & Hb)%HP.
      split; [exact (incl_tran Hi Hs)|exact Hb].
    - destruct (Ho Hok) as (Hok1 & Hlt & Hw). destruct (IH Hok1) as (Hok0 & HP). split; [exact Hok0|].
      intros (Hs & Hb)%HP. split; [exact Hs|]. intros i. cbn [al ct].
      destruct (Nat.eq_dec i gi) as [->|Hne].
      + right. split; [exact (Hs _ Hin)|]. pose proof (nth_upd_add (al s1) gi sz Hw). lia.
      + rewrite !nth_upd_ne by exact Hne. apply Hb.
  Qed.

  Lemma place_steps ng lsz i k s0 j : forall s,
    steps ng k s0 s -> (j <= length (ws s))%nat -> capped ng (lc s) = false ->
    steps ng (S k) s0 (place gs ovh maxG lsz i j s).
  Proof.
    induction j as [|j IH]; intros s Hs Hj Hcap; cbn [place]; [now apply steps_S|].
    assert (Hk : (i mod S j < length (ws s))%nat) by (pose proof (Nat.mod_upper_bound i (S j)); lia).
    destruct (_ <? _) eqn:E.
    - apply steps_put; auto using nth_In. intros Ho. exact (put_exact _ _ _ _ Ho E).
    - apply IH; cbn [ws lc]; [|rewrite length_remove_nth by exact Hk; lia|exact Hcap].
      apply steps_skip; [exact Hs|apply incl_remove_nth|]. intros Ho. apply (tried_exact _ _ _ Ho).
  Qed.

  Lemma place_out_steps ng osz k s0 j : forall s,
    steps ng k s0 s -> (j <= length (ws s))%nat -> capped ng (lc s) = false ->
    steps ng (S k) s0 (place_out gs ovh maxG osz j s).
  Proof.
    induction j as [|j IH]; intros s Hs Hj Hcap; cbn [place_out]; [now apply steps_S|].
    assert (Hk : (N.to_nat (lc s) mod S j < length (ws s))%nat)
      by (pose proof (Nat.mod_upper_bound (N.to_nat (lc s)) (S j)); lia).
    destruct (_ <? _) eqn:E.
    - apply steps_put; auto using nth_In. intros Ho. exact (put_exact _ _ _ _ Ho E).
    - apply IH; cbn [ws lc]; [|lia|exact Hcap].
      apply steps_skip; [exact Hs|apply incl_refl|]. intros Ho. apply (tried_exact _ _ _ Ho).
  Qed.

  Lemma block_steps ng lsz i k s0 s okb :
    steps ng k s0 s ->
    let s1 := mkst (ws s) (al s) (ct s) (lc s) (ok s && okb) in
    steps ng (S k) s0 (if capped ng (lc s1) then s1 else place gs ovh maxG lsz i (length (ws s1)) s1).
  Proof.
    intros Hs s1.
    assert (H1 : steps ng k s0 s1) by (apply steps_skip; [exact Hs|apply incl_refl|]; intros H%andb_prop; apply H).
    destruct (capped ng _) eqn:Ec; [now apply steps_S|now apply place_steps].
  Qed.

  Lemma blocks_steps ng mm s0 bl : forall i lsz mw s k,
    steps ng k s0 s -> steps ng (k + length bl) s0 (snd (blocks_loop gs ovh maxG ng mm i bl lsz mw s)).
  Proof.
    induction bl as [|[[b kvp] kvm] bl IH]; intros i lsz mw s k Hs; cbn [blocks_loop length].
    - now rewrite Nat.add_0_r.
    - rewrite Nat.add_succ_r. destruct b as [sz|]; cbv beta iota zeta; apply (IH _ _ _ _ (S k)), block_steps, Hs.
  Qed.

  Lemma layout_steps ng mm blocks l0 mout s2 :
    let p := layout gs ovh maxG ng mm blocks l0 mout s2 in
    let bc := N.of_nat (length blocks) in
    steps ng (S (length blocks)) s2 (pl_st p) /\
    (lc (pl_st p) = bc + 1 -> pl_fully p = true) /\
    (pl_ok p = true -> ok (pl_st p) = true).
  Proof.
    cbv zeta. unfold layout.
    pose proof (blocks_steps ng mm s2 blocks O l0 0 s2 O (steps_refl ng 0 s2)) as Hb.
    destruct (blocks_loop gs ovh maxG ng mm 0 blocks l0 0 s2) as [[lsz mw] s3]. cbn [snd Nat.add] in Hb.
    set (bc := N.of_nat (length blocks)) in *.
    assert (Hok : forall s4 a b, ok s4 && a && b = true -> ok s4 = true) by (intros s4 a b [[H _]%andb_prop _]%andb_prop; exact H).
    destruct ((0 <? mout) && negb (capped ng (lc s3))) eqn:Eout.
    - apply andb_prop in Eout as [_ Ec%negb_true_iff].
      (* [place_out] seen from [s3] alone, to read off lc s3 <= lc s' <= lc s3 + 1 *)
      pose proof (steps_lc _ _ _ _ (place_out_steps ng mout _ _ _ _ (steps_refl ng 0 s3) (le_n _) Ec)) as Hl4.
      pose proof (place_out_steps ng mout _ _ _ _ Hb (le_n _) Ec) as Ho.
      set (s' := place_out gs ovh maxG mout (length (ws s3)) s3) in *.
      destruct (bc <=? lc s3) eqn:Efull; destruct (lc s' <? bc + 1) eqn:Elt; cbn [pl_st pl_fully pl_ok];
        (split; [exact Ho|split; [clear - Hl4 Efull Elt; lia|apply Hok]]).
    - destruct (bc <=? lc s3) eqn:Efull; cbn [pl_st pl_fully pl_ok];
        (split; [exact (steps_S _ _ _ _ Hb)|split; [clear - Efull; lia|apply Hok]]).
  Qed.

  Definition adm_ok_at (l0 : N) (z : nat) : Prop :=
    ovh + maxG + g_min (nth z gs gpu0) + 2 * l0 <= g_free (nth z gs gpu0).

  Lemma adm_exact fl zo gmin l0 :
    fl && fits (ovh + zo) && fits (w (ovh + zo) + maxG) && fits (w (w (ovh + zo) + maxG) + gmin) && fits (2 * l0)
      && fits (w (w (w (ovh + zo) + maxG) + gmin) + w (2 * l0)) = true ->
    fl = true /\ w (w (w (w (ovh + zo) + maxG) + gmin) + w (2 * l0)) = ovh + zo + maxG + gmin + 2 * l0.
  Proof.
    rewrite !andb_true_iff. intros (((((Hfl & H1) & H2) & H3) & H4) & H5).
    rewrite (w_fits _ H1) in *. rewrite (w_fits _ H2) in *. rewrite (w_fits _ H3) in *. rewrite (w_fits _ H4) in *.
    rewrite (w_fits _ H5). auto.
  Qed.

  Lemma adm_shape gzo l0 rest : forall i s,
    let s' := adm_loop ovh maxG gzo l0 i rest s in
    length (al s') = length (al s) /\ ct s' = ct s /\ lc s' = lc s /\
    (Forall (fun z => (z < i)%nat) (ws s) -> Forall (fun z => (z < i + length rest)%nat) (ws s')).
  Proof.
    induction rest as [|g rest IH]; intros i s; cbn [adm_loop length].
    - rewrite Nat.add_0_r. auto.
    - assert (Hlt : Forall (fun z => (z < i)%nat) (ws s) -> Forall (fun z => (z < S i)%nat) (ws s))
        by (apply Forall_impl; intros z; lia).
      rewrite Nat.add_succ_r. destruct (_ <? _); set (s1 := mkst _ _ _ _ _);
        destruct (IH (S i) s1) as (Ha & Hc & Hl & Hw); rewrite Ha, Hc, Hl; cbn [s1 al ct lc ws] in *.
      + auto 6.
      + rewrite length_upd. repeat split. intros Hf. apply Hw, Forall_app. auto.
  Qed.

  Definition adm_inv (gzo l0 : N) (s : st) : Prop :=
    (forall k, nth k (ct s) 0 = 0) /\
    (forall k, ~ In k (ws s) -> nth k (al s) 0 = 0) /\
    (forall k, In k (ws s) -> adm_ok_at l0 k /\ nth k (al s) 0 + maxG + ovh <= g_free (nth k gs gpu0)) /\
    match ws s with z :: _ => nth z (al s) 0 + gzo + maxG + ovh <= g_free (nth z gs gpu0) | [] => True end.

  (** [rest] is what is left of [gs] from index [i] on; every admitted index is below [i] *)
  Lemma adm_inv_loop gzo l0 rest : forall i s,
    (forall k, nth k rest gpu0 = nth (i + k) gs gpu0) ->
    Forall (fun z => (z < i)%nat) (ws s) ->
    ok (adm_loop ovh maxG gzo l0 i rest s) = true ->
    ok s = true /\ (adm_inv gzo l0 s -> adm_inv gzo l0 (adm_loop ovh maxG gzo l0 i rest s)).
  Proof.
    induction rest as [|g rest IH]; intros i s Hrest Hw Hok; cbn [adm_loop] in *; [auto|].
    assert (Hg : g_free g = g_free (nth i gs gpu0) /\ g_min g = g_min (nth i gs gpu0)).
    { specialize (Hrest O). cbn in Hrest. rewrite Nat.add_0_r in Hrest. rewrite Hrest. split; reflexivity. }
    assert (Hrest' : forall k, nth k rest gpu0 = nth (S i + k) gs gpu0).
    { intros k. rewrite Nat.add_succ_comm. exact (Hrest (S k)). }
    assert (Hi : forall k, In k (ws s) -> k <> i).
    { rewrite Forall_forall in Hw. intros k Hk%Hw. lia. }
    destruct (_ <? _) eqn:E.
    - apply IH in Hok as (Hok1 & Hinv); [|exact Hrest'|].
      + split; [exact (proj1 (adm_exact _ _ _ _ Hok1))|exact Hinv].
      + eapply Forall_impl; [|exact Hw]. cbv beta. lia.
    - apply IH in Hok as (Hok1 & Hinv); [|exact Hrest'|].
      2: { apply Forall_app. split; [|auto]. eapply Forall_impl; [|exact Hw]. cbv beta. lia. }
      + cbn [ok] in Hok1. apply andb_prop in Hok1 as [[[Ho Ex]%adm_exact Hd%w_fits]%andb_prop Hf%fits_lt].
        split; [exact Ho|]. intros (Hct & Hz & Hin & Hhd). apply Hinv. clear IH Hinv Hrest Hrest' Hw.
        rewrite Ex in E. apply N.ltb_ge in E. destruct Hg as (Hfr & Hmin).
        assert (Ha0 : nth i (al s) 0 = 0) by (apply Hz; intros H%Hi; congruence).
        pose proof (nth_upd_add (al s) i _ Hf) as Hnew.
        set (zo := match ws s with [] => gzo | _ => 0 end) in *.
        unfold adm_inv, adm_ok_at in *; cbn [ws al ct]. split; [exact Hct|split; [|split]].
        * intros k Hk. rewrite nth_upd_ne; [apply Hz|]; intros H; apply Hk, in_or_app; [now left|right; now left].
        * intros k [Hk|[<-|[]]]%in_app_or; [rewrite nth_upd_ne by auto; auto|]. lia.
        * destruct (ws s) as [|z0 wt]; cbn [app]; [lia|]. rewrite nth_upd_ne by (apply Hi; now left). exact Hhd.
  Qed.

  Lemma admission_ok_mono gzo l0 ok0 : ok (admission gs ovh maxG gzo l0 ok0) = true -> ok0 = true.
  Proof.
    unfold admission. set (s0 := mkst [] _ _ 0 ok0). intros H.
    assert (H1 : ok (adm_loop ovh maxG gzo l0 0 gs s0) = true).
    { destruct (ws _); [exact H|]. now apply andb_prop in H. }
    now apply (adm_inv_loop gzo l0 gs O s0 (fun k => eq_refl) (Forall_nil _)) in H1.
  Qed.

  Lemma admission_spec ng gzo l0 ok0 :
    let s := admission gs ovh maxG gzo l0 ok0 in
    wf (length gs) ng s /\ lc s = 0 /\
    (ok s = true -> planned (ws s) s /\ forall z, In z (ws s) -> adm_ok_at l0 z).
  Proof.
    cbv zeta. unfold admission.
    set (s0 := mkst [] (repeat 0 (length gs)) (repeat 0 (length gs)) 0 ok0).
    destruct (adm_shape gzo l0 gs O s0) as (Ha & Hc & Hl & Hw).
    pose proof (adm_inv_loop gzo l0 gs O s0 (fun k => eq_refl) (Forall_nil _)) as Hp.
    set (s1 := adm_loop ovh maxG gzo l0 0 gs s0) in *. cbn [s0 al ct lc ws] in Ha, Hc, Hl, Hw.
    assert (Hinv : ok s1 = true -> adm_inv gzo l0 s1).
    { intros H. apply (Hp H). unfold adm_inv; cbn [s0 ws al ct]. split; [|split; [|split]]; auto using nth_repeat. intros k []. }
    assert (Hwf : forall als o, length als = length gs -> wf (length gs) ng (mkst (ws s1) als (ct s1) (lc s1) o)).
    { intros als o Hlen. unfold wf; cbn [ws al ct lc]. rewrite Hc, Hl, repeat_length, sum_x_repeat0.
      rewrite repeat_length in Ha. specialize (Hw (Forall_nil _)). auto 6. }
    rewrite repeat_length in Ha. clearbody s1. clear Hp Hw Hc.
    destruct s1 as [w1 a1 c1 l1 o1]; cbn [ws al ct lc ok] in *. destruct w1 as [|z wt]; cbn [ws al ct lc ok].
    - split; [apply Hwf, Ha|split; [exact Hl|]]. intros (Hct & Hz & _)%Hinv.
      split; [split; [apply incl_refl|]|intros z []]. intros k. left. split; [apply Hz; intros []|apply Hct].
    - split; [apply Hwf; now rewrite length_upd|split; [exact Hl|]].
      intros [(Hct & Hz & Hin & Hhd)%Hinv Hf%fits_lt]%andb_prop. cbn [ws al ct] in Hct, Hz, Hin, Hhd.
      split; [split; [apply incl_refl|]|intros k Hk; apply Hin, Hk].
      intros k. cbn [al ct]. destruct (Nat.eq_dec k z) as [->|Hne].
      + right. split; [now left|]. pose proof (nth_upd_add a1 z gzo Hf). lia.
      + rewrite nth_upd_ne by exact Hne.
        destruct (in_dec Nat.eq_dec k (z :: wt)) as [Hk|Hk]; [right; split; [exact Hk|apply Hin, Hk]|left; auto].
  Qed.

  Lemma plan_spec ng mm blocks gzo l0 mout ok0 :
    let p := layout gs ovh maxG ng mm blocks l0 mout (admission gs ovh maxG gzo l0 ok0) in
    let bc := N.of_nat (length blocks) in
    wf (length gs) ng (pl_st p) /\ lc (pl_st p) <= bc + 1 /\ (lc (pl_st p) = bc + 1 -> pl_fully p = true) /\
    (pl_ok p = true -> exists A, planned A (pl_st p) /\ forall z, In z A -> adm_ok_at l0 z).
  Proof.
    cbv zeta. destruct (admission_spec ng gzo l0 ok0) as (Hwf & Hl & Hadm).
    destruct (layout_steps ng mm blocks l0 mout (admission gs ovh maxG gzo l0 ok0)) as (Hst & Hfull & Hok).
    pose proof (steps_lc _ _ _ _ Hst) as Hlc. rewrite Hl in Hlc.
    split; [exact (steps_wf _ _ _ _ _ Hst Hwf)|]. split; [lia|]. split; [exact Hfull|].
    intros H%Hok. destruct (steps_planned (ws (admission gs ovh maxG gzo l0 ok0)) _ _ _ _ Hst H) as (H2 & HP).
    destruct (Hadm H2) as (HP2 & HA). eauto.
  Qed.
End Plan.

Lemma add_graph_length g als cts : length (fst (add_graph g als cts)) = length als.
Proof.
  revert cts. induction als as [|a als' IH]; intros cts; cbn [add_graph]; auto.
  destruct cts as [|c cts']; cbn [fst length]; auto.
  specialize (IH cts'). destruct (add_graph g als' cts') as [r o]. cbn [fst] in IH.
  destruct (c =? 0); cbn [fst length]; now rewrite IH.
Qed.

Lemma add_graph_nth g als cts i :
  nth i (fst (add_graph g als cts)) 0 = nth i als 0 \/
  (nth i cts 0 <> 0 /\ (snd (add_graph g als cts) = true -> nth i (fst (add_graph g als cts)) 0 = nth i als 0 + g)).
Proof.
  revert cts i. induction als as [|a als' IH]; intros cts i; cbn [add_graph].
  - left. reflexivity.
  - destruct cts as [|c cts']; [left; reflexivity|].
    specialize (IH cts'). destruct (add_graph g als' cts') as [r o]. cbn [fst snd] in IH.
    destruct (c =? 0) eqn:Ec; cbn [fst snd]; destruct i as [|i']; cbn [nth].
    + left; reflexivity.
    + destruct (IH i') as [H|[H1 H2]]; auto.
    + right. split; [apply N.eqb_neq in Ec; exact Ec|]. intros [_ H%w_fits]%andb_prop. exact H.
    + destruct (IH i') as [H|[H1 H2]]; auto. right. split; auto. intros [H _]%andb_prop. auto.
Qed.

Lemma estimate_counts gs m o :
  let r := estimate gs m o in
  let bc := N.of_nat (length (m_blocks m)) in
  length (p_allocs r) = length gs /\ length (p_counts r) = length gs /\
  sum_x (p_counts r) = p_lc r /\ p_lc r <= bc + 1 /\
  (0 <= o_numgpu o -> Z.of_N (p_lc r) <= o_numgpu o)%Z /\
  (p_lc r = bc + 1 -> p_fully r = true).
Proof.
  intros r bc. unfold estimate in r. cbv zeta in r. set (q := prepare gs m o) in r.
  pose proof (plan_spec gs (o_overhead o) (N.max (q_gp q) (q_gf q)) (o_numgpu o) (q_mm q) (m_blocks m)
                (w (q_pw q + q_pg q)) (q_l0 q) (q_mout q) (q_ok q && fits (q_pw q + q_pg q))) as HP.
  cbv zeta in HP. set (p := layout _ _ _ _ _ _ _ _ _) in *.
  destruct HP as ((Hla & Hlc & _ & Hsum & Hcap) & Hle & Hfull & _).
  pose proof (add_graph_length (if pl_fully p then q_gf q else q_gp q) (al (pl_st p)) (ct (pl_st p))) as Hlen.
  destruct (add_graph _ _ _) as [als ok_a] in *. cbn [fst] in Hlen.
  subst r. cbn [p_allocs p_counts p_lc p_fully]. rewrite Hlen. auto 7.
Qed.

Lemma estimate_reported gs m o :
  let r := estimate gs m o in
  (r_layers r = 0 \/ r_layers r = p_lc r) /\
  (r_split r = [] \/ (r_split r = p_counts r /\ r_layers r = p_lc r)) /\
  (r_sizes r = [] \/ r_sizes r = p_allocs r) /\
  ((1 < length gs)%nat -> r_layers r <> 0 -> r_split r = p_counts r).
Proof.
  intros r. unfold estimate in r. cbv zeta in r. destruct (add_graph _ _ _) as [als ok_a] in r.
  subst r. cbn [r_layers r_split r_sizes p_lc p_counts p_allocs].
  destruct (eqb_str _ s_cpu || _); cbn [orb].
  - repeat (split; [now left|]). now intros _ [].
  - split; [now right|]. destruct (1 <? length gs)%nat eqn:E; cbn [negb].
    + split; [now right|]. split; [now right|]. reflexivity.
    + split; [now left|]. split; [now right|]. intros H%Nat.ltb_lt. congruence.
Qed.

Lemma estimate_bytes gs m o :
  let r := estimate gs m o in
  let q := prepare gs m o in
  r_ok r = true ->
  (forall i, (nth i (p_allocs r) 0 = 0 /\ nth i (p_counts r) 0 = 0) \/
     (o_overhead o + N.max (q_gp q) (q_gf q) + g_min (nth i gs gpu0) + 2 * q_l0 q <= g_free (nth i gs gpu0) /\
      nth i (p_allocs r) 0 + o_overhead o <= g_free (nth i gs gpu0))) /\
  r_vram r <= r_total r /\ r_vram r = sum_x (r_sizes r) /\ sum_x (p_allocs r) <= r_total r.
Proof.
  intros r q. unfold estimate in r. cbv zeta in r. fold q in r.
  pose proof (plan_spec gs (o_overhead o) (N.max (q_gp q) (q_gf q)) (o_numgpu o) (q_mm q) (m_blocks m)
                (w (q_pw q + q_pg q)) (q_l0 q) (q_mout q) (q_ok q && fits (q_pw q + q_pg q))) as HP.
  cbv zeta in HP. set (p := layout _ _ _ _ _ _ _ _ _) in *. destruct HP as (_ & _ & _ & HP).
  set (g := if pl_fully p then q_gf q else q_gp q) in *.
  assert (Hg : g <= N.max (q_gp q) (q_gf q)) by (unfold g; destruct (pl_fully p); lia).
  pose proof (add_graph_nth g (al (pl_st p)) (ct (pl_st p))) as Hnth.
  destruct (add_graph _ _ _) as [als ok_a] in *. cbn [fst snd] in Hnth.
  subst r. cbn [r_ok p_allocs p_counts r_vram r_total r_sizes].
  intros [[[(A & (_ & HB) & HA)%HP Hoa]%andb_prop Hs%fits_lt]%andb_prop Ht%fits_lt]%andb_prop.
  rewrite (sum_w_x als Hs) in *. rewrite (w_small _ Ht). split.
  - intros i. destruct (HB i) as [(Ha & Hc)|(Hin & Hb)].
    + left. split; [|exact Hc]. destruct (Hnth i) as [->|[Hne _]]; [exact Ha|contradiction].
    + right. split; [exact (HA i Hin)|]. destruct (Hnth i) as [->|[_ ->]]; auto; clear - Hb Hg; lia.
  - destruct (eqb_str _ s_cpu || _); repeat split; auto using N.le_0_l, N.le_add_r.
Qed.

Section ByLib.
  Context {A : Type}.
  Variable key : A -> str.

  Lemma add_to_In k g (groups : list (str * list A)) x :
    In x (concat (map snd (add_to k g groups))) <-> g = x \/ In x (concat (map snd groups)).
  Proof.
    induction groups as [|[k0 l0] rest IH]; cbn [add_to].
    - cbn. tauto.
    - destruct (eqb_str k0 k); cbn [map snd concat]; rewrite !in_app_iff; [cbn [In]|rewrite IH]; tauto.
  Qed.

  Lemma by_library_gen_In all x : In x (concat (by_library_gen key all)) <-> In x all.
  Proof.
    unfold by_library_gen.
    assert (H : forall l groups,
      In x (concat (map snd (fold_left (fun acc g => add_to (key g) g acc) l groups))) <->
      In x l \/ In x (concat (map snd groups))).
    { induction l as [|g l IH]; intros groups; cbn [fold_left In]; [tauto|]. rewrite IH, add_to_In. tauto. }
    rewrite H. cbn. tauto.
  Qed.

  Definition keyed (groups : list (str * list A)) : Prop :=
    Forall (fun kg => snd kg <> [] /\ Forall (fun x => key x = fst kg) (snd kg)) groups.

  Lemma add_to_keyed g groups : keyed groups -> keyed (add_to (key g) g groups).
  Proof.
    induction 1 as [|[k l] rest (Hne & Hall) Hrest IH]; cbn [add_to fst snd] in *.
    - repeat constructor. discriminate.
    - destruct (eqb_str k (key g)) eqn:E; constructor; cbn [fst snd]; auto.
      apply eqb_str_spec in E. split; [now destruct l|]. apply Forall_app. auto.
  Qed.

  Lemma fold_add_to_keyed l : forall groups,
    keyed groups -> keyed (fold_left (fun acc g => add_to (key g) g acc) l groups).
  Proof. induction l; cbn [fold_left]; auto using add_to_keyed. Qed.

  Lemma by_library_gen_groups all grp :
    In grp (by_library_gen key all) ->
    grp <> [] /\ (forall x, In x grp -> In x all) /\ (forall x y, In x grp -> In y grp -> key x = key y).
  Proof.
    intros Hgrp. pose proof Hgrp as Hin. unfold by_library_gen in Hin. apply in_map_iff in Hin as ([k l] & <- & Hin).
    pose proof (fold_add_to_keyed all [] (Forall_nil _)) as Hk. unfold keyed in Hk. rewrite Forall_forall in Hk.
    destruct (Hk _ Hin) as (Hne & Hall). cbn [fst snd] in *. rewrite Forall_forall in Hall.
    split; [exact Hne|split].
    - intros x Hx. apply by_library_gen_In, in_concat. eauto.
    - intros x y Hx Hy. now rewrite (Hall x Hx), (Hall y Hy).
  Qed.

  Lemma by_library_gen_complete all x : In x all -> exists grp, In grp (by_library_gen key all) /\ In x grp.
  Proof. intros H. apply in_concat, by_library_gen_In, H. Qed.
End ByLib.

Lemma predict_loop_true groups m o v0 v :
  predict_loop groups m o v0 = (true, v) ->
  exists g, In g groups /\ fits_fully m o (r_layers (estimate g m o)) = true /\ v = r_vram (estimate g m o).
Proof.
  revert v0. induction groups as [|g rest IH]; intros v0 H; cbn [predict_loop] in H.
  - discriminate.
  - destruct (fits_fully m o (r_layers (estimate g m o))) eqn:E.
    + inversion H; subst. exists g. repeat split; auto. now left.
    + destruct (IH _ H) as (g' & Hin & Hf & Hv). exists g'. repeat split; auto. now right.
Qed.

Lemma fit_sound all m o v :
  predict_server_fit all m o = (true, v) ->
  exists g, In g (by_library all) /\ g <> [] /\ (forall x, In x g -> In x all) /\
    (forall x y, In x g -> In y g -> requested x = requested y) /\
    let r := estimate g m o in
    let bc := N.of_nat (length (m_blocks m)) in
    v = r_vram r /\ 0 < r_layers r /\ r_layers r = p_lc r /\
    ((o_numgpu o < 0)%Z -> r_layers r = bc + 1 /\ p_fully r = true) /\
    ((0 <= o_numgpu o)%Z -> Z.of_N (r_layers r) = o_numgpu o /\ (o_numgpu o <= Z.of_N bc + 1)%Z).
Proof.
  unfold predict_server_fit. intros H. apply predict_loop_true in H. destruct H as (g & Hin & Hf & Hv).
  exists g. destruct (by_library_gen_groups requested all g Hin) as (Hne & Hsub & Hsame).
  repeat (split; [assumption|]). cbv zeta.
  destruct (estimate_counts g m o) as (_ & _ & _ & Hle & Hcap & Hfull).
  destruct (estimate_reported g m o) as (Hlay & _).
  unfold fits_fully in Hf.
  clear - Hf Hle Hcap Hfull Hlay.
  destruct (o_numgpu o <? 0)%Z eqn:Eng; apply andb_prop in Hf as (Hpos & Hall); lia.
Qed.

Definition cap (c : N) (l : list N) : Prop := forall k, nth k l 0 <= c.

Lemma cap_le c c' l : c <= c' -> cap c l -> cap c' l.
Proof. intros Hle H k. specialize (H k). lia. Qed.

Lemma cap_upd c l j sz : cap c l -> c + sz < W -> cap (c + sz) (upd l j (fun x => w (x + sz))).
Proof.
  intros Hc Hb k. destruct (Nat.eq_dec k j) as [->|Hne].
  - pose proof (Hc j). pose proof (nth_upd_add l j sz). lia.
  - rewrite nth_upd_ne by exact Hne. specialize (Hc k). lia.
Qed.

Lemma sum_x_cap (l : list N) b : cap b l -> sum_x l <= N.of_nat (length l) * b.
Proof.
  induction l as [|x t IH]; intros H.
  - cbn. lia.
  - rewrite sum_x_cons. cbn [length]. rewrite Nat2N.inj_succ, N.mul_succ_l.
    pose proof (H O) as H0. cbn in H0. specialize (IH (fun k => H (S k))). lia.
Qed.

(** blk.i + kv[i] over the blocks that exist; with the first layer it bounds layerSize and memoryWeights ([T] below) *)
Fixpoint blocks_sum (mm : bool) (bl : list (option N * N * N)) : N :=
  match bl with
  | [] => 0
  | (b, kvp, kvm) :: t =>
    (match b with Some sz => sz + (if mm then kvm else kvp) | None => 0 end) + blocks_sum mm t
  end.

Definition safe (c : N) (s : st) : Prop := ok s = true /\ cap c (al s).

Lemma safe_le c c' s : c <= c' -> safe c s -> safe c' s.
Proof. intros Hle [Hok Hc]. split; [exact Hok|exact (cap_le _ _ _ Hle Hc)]. Qed.

Section NoWrap.
  Variable gs : list gpu.
  Variable ovh maxG : N.

  Lemma tried_small a sz :
    ovh + a + maxG + sz < W ->
    fits (a + maxG) && fits (ovh + w (a + maxG)) && fits (w (ovh + w (a + maxG)) + sz) = true.
  Proof.
    intros H. rewrite (w_small (a + maxG)), (w_small (ovh + (a + maxG))) by lia. rewrite !fits_small by lia. reflexivity.
  Qed.

  Lemma adm_small zo gmin l0 :
    ovh + zo + maxG + gmin + 2 * l0 < W ->
    fits (ovh + zo) && fits (w (ovh + zo) + maxG) && fits (w (w (ovh + zo) + maxG) + gmin) && fits (2 * l0)
      && fits (w (w (w (ovh + zo) + maxG) + gmin) + w (2 * l0)) = true.
  Proof.
    intros H. rewrite (w_small (ovh + zo)), (w_small (ovh + zo + maxG)), (w_small (ovh + zo + maxG + gmin)),
      (w_small (2 * l0)) by lia. rewrite !fits_small by lia. reflexivity.
  Qed.

  Lemma place_nowrap lsz i j c : forall s,
    safe c s -> ovh + c + maxG + lsz < W -> safe (c + lsz) (place gs ovh maxG lsz i j s).
  Proof.
    induction j as [|j IH]; intros s [Hok Hc] Hb; cbn [place].
    - apply (safe_le c); [lia|now split].
    - pose proof (Hc (nth (i mod S j) (ws s) O)) as Ha.
      rewrite Hok. cbn [andb]. rewrite tried_small by lia.
      destruct (_ <? _); [|now apply IH].
      split; cbn [ok al andb]; [apply fits_small; lia|apply cap_upd; [exact Hc|lia]].
  Qed.

  Lemma place_out_nowrap osz j c : forall s,
    safe c s -> ovh + c + maxG + osz < W -> safe (c + osz) (place_out gs ovh maxG osz j s).
  Proof.
    induction j as [|j IH]; intros s [Hok Hc] Hb; cbn [place_out].
    - apply (safe_le c); [lia|now split].
    - pose proof (Hc (nth (N.to_nat (lc s) mod S j) (ws s) O)) as Ha.
      rewrite Hok. cbn [andb]. rewrite tried_small by lia.
      destruct (_ <? _); [|now apply IH].
      split; cbn [ok al andb]; [apply fits_small; lia|apply cap_upd; [exact Hc|lia]].
  Qed.

  Lemma block_nowrap ng lsz T i c s okb :
    safe c s -> okb = true -> lsz <= T -> ovh + c + maxG + T < W ->
    let s1 := mkst (ws s) (al s) (ct s) (lc s) (ok s && okb) in
    safe (c + T) (if capped ng (lc s1) then s1 else place gs ovh maxG lsz i (length (ws s1)) s1).
  Proof.
    intros [Hok Hc] -> Hl Hb s1.
    assert (H1 : safe c s1) by (split; cbn [s1 ok al]; [now rewrite Hok|exact Hc]).
    destruct (capped ng _).
    - apply (safe_le c); [lia|exact H1].
    - apply (safe_le (c + lsz)); [lia|]. apply place_nowrap; [exact H1|lia].
  Qed.

  Lemma blocks_nowrap ng mm T bl : forall i lsz mw s c,
    safe c s -> lsz <= T -> mw + blocks_sum mm bl <= T ->
    ovh + c + N.of_nat (length bl) * T + maxG + T < W ->
    let r := blocks_loop gs ovh maxG ng mm i bl lsz mw s in
    safe (c + N.of_nat (length bl) * T) (snd r) /\ fst (fst r) <= T.
  Proof.
    induction bl as [|[[b kvp] kvm] bl IH]; intros i lsz mw s c Hs Hl Hm Hb; cbv zeta;
      cbn [blocks_loop length blocks_sum snd fst] in *.
    - split; [|exact Hl]. apply (safe_le c); [lia|exact Hs].
    - rewrite Nat2N.inj_succ, N.mul_succ_l in *. set (nT := N.of_nat (length bl) * T) in *.
      replace (c + (nT + T)) with (c + T + nT) by lia.
      assert (Hb1 : ovh + c + maxG + T < W /\ ovh + (c + T) + nT + maxG + T < W) by lia.
      destruct b as [sz|]; cbv beta iota zeta.
      + set (kvi := if mm then kvm else kvp) in *.
        assert (HS : sz + kvi <= T /\ mw + sz + blocks_sum mm bl <= T /\ sz + kvi < W /\ mw + sz < W) by lia.
        rewrite (w_small (sz + kvi)), (w_small (mw + sz)), !fits_small by apply HS.
        apply IH; [apply block_nowrap; [exact Hs|reflexivity|..]|..]; apply HS || apply Hb1.
      + apply IH; [apply block_nowrap; [exact Hs|reflexivity|..]|..]; assumption || apply Hb1.
  Qed.

  Lemma adm_nowrap gzo l0 mbnd rest : forall i s,
    safe (mbnd + l0) s -> (forall k, (i <= k)%nat -> nth k (al s) 0 = 0) ->
    (forall g, In g rest -> g_min g <= mbnd) ->
    ovh + gzo + maxG + mbnd + 2 * l0 < W ->
    safe (mbnd + l0) (adm_loop ovh maxG gzo l0 i rest s).
  Proof.
    induction rest as [|g rest IH]; intros i s [Hok Hc] Hz Hmin Hb; cbn [adm_loop]; [now split|].
    assert (Hg : g_min g <= mbnd) by (apply Hmin; now left).
    set (zo := match ws s with [] => gzo | _ => 0 end).
    assert (Hzle : zo <= gzo) by (subst zo; destruct (ws s); [apply N.le_refl|apply N.le_0_l]).
    assert (HA : ovh + zo + maxG + g_min g + 2 * l0 < W /\ g_min g + l0 < W /\ 0 + (g_min g + l0) < W /\
                 0 + (g_min g + l0) <= mbnd + l0) by lia.
    destruct HA as (HA & Hd & Hd0 & Hle). rewrite Hok. cbn [andb]. rewrite (adm_small _ _ _ HA).
    destruct (_ <? _).
    - apply IH; auto using in_cons; [now split|]. intros k Hk. apply Hz, Nat.lt_le_incl, Hk.
    - rewrite (Hz i (le_n i)), (w_small _ Hd), !fits_small by assumption. cbn [andb].
      apply IH; cbn [ok al]; auto using in_cons.
      + split; [reflexivity|]. intros k. cbn [al]. destruct (Nat.eq_dec k i) as [->|Hne].
        * pose proof (nth_upd_add (al s) i (g_min g + l0)) as Hn. rewrite (Hz i (le_n i)) in Hn.
          exact (N.le_trans _ _ _ (Hn Hd0) Hle).
        * rewrite nth_upd_ne by exact Hne. apply Hc.
      + intros k Hk. rewrite nth_upd_ne by (intros ->; exact (Nat.nle_succ_diag_l _ Hk)). apply Hz, Nat.lt_le_incl, Hk.
  Qed.

  Lemma admission_nowrap gzo l0 mbnd ok0 :
    ok0 = true -> (forall g, In g gs -> g_min g <= mbnd) ->
    ovh + gzo + maxG + mbnd + 2 * l0 < W ->
    safe (mbnd + l0 + gzo) (admission gs ovh maxG gzo l0 ok0).
  Proof.
    intros -> Hmin Hb. unfold admission.
    set (s0 := mkst [] (repeat 0 (length gs)) (repeat 0 (length gs)) 0 true).
    destruct (adm_nowrap gzo l0 mbnd gs O s0) as (Hok1 & Hc1); auto.
    { split; [reflexivity|]. intros k. cbn [s0 al]. rewrite nth_repeat. lia. }
    { intros k _. apply nth_repeat. }
    set (s1 := adm_loop ovh maxG gzo l0 0 gs s0) in *.
    destruct (ws s1) as [|z wt].
    - apply (safe_le (mbnd + l0)); [lia|now split].
    - pose proof (Hc1 z). split; cbn [ok al]; [rewrite Hok1, fits_small by lia; reflexivity|apply cap_upd; [exact Hc1|lia]].
  Qed.

  Lemma layout_nowrap ng mm blocks l0 mout s2 c T :
    safe c s2 -> l0 <= T -> blocks_sum mm blocks <= T ->
    ovh + c + N.of_nat (length blocks) * T + maxG + T + mout < W ->
    let p := layout gs ovh maxG ng mm blocks l0 mout s2 in
    pl_ok p = true /\ cap (c + N.of_nat (length blocks) * T + mout) (al (pl_st p)) /\
    pl_ovf p <= N.of_nat (length blocks) * T + mout.
  Proof.
    intros Hs Hl Hsum Hb p. unfold layout in p.
    pose proof (blocks_nowrap ng mm T blocks O l0 0 s2 c Hs Hl) as Hbl. cbv zeta in Hbl.
    destruct (blocks_loop gs ovh maxG ng mm 0 blocks l0 0 s2) as [[lsz mw] s3] in *. cbn [snd fst] in Hbl.
    destruct Hbl as (Hs3 & Hlsz); [lia|lia|].
    set (bc := N.of_nat (length blocks)) in *.
    assert (Hov : (bc - lc s3) * lsz <= bc * T) by (apply N.mul_le_mono; lia).
    destruct (place_out_nowrap mout (length (ws s3)) (c + bc * T) s3 Hs3) as (Hok4 & Hc4); [lia|].
    destruct Hs3 as (Hok3 & Hc3). apply (cap_le _ (c + bc * T + mout)) in Hc3; [|lia].
    set (s' := place_out gs ovh maxG mout (length (ws s3)) s3) in *. set (X := (bc - lc s3) * lsz) in *.
    assert (H0 : 0 + mout < W /\ 0 + mout <= bc * T + mout /\ 0 <= bc * T + mout) by lia.
    assert (HX : X < W /\ X + mout < W /\ X <= bc * T + mout /\ X + mout <= bc * T + mout) by lia.
    destruct H0 as (? & ? & ?), HX as (? & ? & ? & ?).
    (* six outcomes; the overflow is 0 or X (+ mout), and the flags are [fits] of these *)
    destruct (bc <=? lc s3) in p; destruct (_ && negb _) in p; try destruct (lc s' <? bc + 1) in p;
      subst p; cbn [pl_ok pl_st pl_ovf];
      rewrite ?(w_small X), ?(fits_small X), ?(w_small (0 + mout)), ?(fits_small (0 + mout)),
        ?(w_small (X + mout)), ?(fits_small (X + mout)), ?Hok3, ?Hok4 by assumption;
      repeat split; assumption.
  Qed.
End NoWrap.

Lemma add_graph_nowrap g c als cts :
  cap c als -> c + g < W -> snd (add_graph g als cts) = true /\ cap (c + g) (fst (add_graph g als cts)).
Proof.
  revert cts. induction als as [|a als' IH]; intros cts Hc Hb; cbn [add_graph].
  - split; [reflexivity|]. intros k. cbn [fst]. destruct k; cbn; lia.
  - pose proof (Hc O) as Ha. cbn [nth] in Ha.
    destruct cts as [|ct0 cts'].
    + split; [reflexivity|]. apply (cap_le c); [lia|exact Hc].
    + destruct (IH cts' (fun k => Hc (S k)) Hb) as (Ho & Hr). destruct (add_graph g als' cts') as [r o]. cbn [fst snd] in *.
      subst o. destruct (ct0 =? 0); cbn [fst snd].
      * split; [reflexivity|]. intros [|k]; cbn [nth]; [lia|apply Hr].
      * rewrite (w_small (a + g)), (fits_small (a + g)) by lia. split; [reflexivity|].
        intros [|k]; cbn [nth]; [lia|apply Hr].
Qed.

(** the demand of a case: an explicit expression in the inputs ([prepare] only adds up sizes read from the file).
    [B + maxG] bounds one allocation, [n] times that their sum, [bc * T + mout] the overflow, [2 * T] the layers the
    tests add; the sum of the minimums stands in for the largest, so that no [max] over the GPUs is needed. *)
Definition demand (gs : list gpu) (m : model) (o : opts) : N :=
  let q := prepare gs m o in
  let n := N.of_nat (length gs) in
  let bc := N.of_nat (length (m_blocks m)) in
  let maxG := N.max (q_gp q) (q_gf q) in
  let T := q_l0 q + blocks_sum (q_mm q) (m_blocks m) in
  let B := sum_x (map g_min gs) + q_l0 q + (q_pw q + q_pg q) + bc * T + q_mout q in
  o_overhead o + (n + 1) * (B + maxG) + (bc + 2) * T + q_mout q.

Lemma estimate_nowrap gs m o :
  q_ok (prepare gs m o) = true -> demand gs m o < W -> r_ok (estimate gs m o) = true.
Proof.
  intros Hq HD. set (r := estimate gs m o). unfold estimate in r. cbv zeta in r.
  unfold demand in HD. cbv zeta in HD.
  set (q := prepare gs m o) in *.
  set (n := N.of_nat (length gs)) in *.
  set (bc := N.of_nat (length (m_blocks m))) in *.
  set (maxG := N.max (q_gp q) (q_gf q)) in *.
  set (T := q_l0 q + blocks_sum (q_mm q) (m_blocks m)) in *.
  set (mbnd := sum_x (map g_min gs)) in *.
  set (gz := q_pw q + q_pg q) in *.
  set (B := mbnd + q_l0 q + gz + bc * T + q_mout q) in *.
  (* everything the demand is needed for, with the two products kept folded *)
  assert (HF : gz < W /\ o_overhead o + gz + maxG + mbnd + 2 * q_l0 q < W /\
               o_overhead o + (mbnd + q_l0 q + gz) + bc * T + maxG + T + q_mout q < W /\
               B + maxG < W /\ n * (B + maxG) + (bc * T + q_mout q) < W /\ q_l0 q <= T /\
               blocks_sum (q_mm q) (m_blocks m) <= T).
  { replace ((n + 1) * (B + maxG)) with (n * (B + maxG) + (B + maxG)) in HD by lia.
    replace ((bc + 2) * T) with (bc * T + 2 * T) in HD by lia.
    set (nX := n * (B + maxG)) in *. set (bT := bc * T) in *. unfold B, T in *. lia. }
  destruct HF as (F1 & F2 & F3 & F4 & F5 & F6 & F7). clear HD.
  assert (Eok : q_ok q && fits gz = true) by (rewrite Hq; apply fits_small, F1).
  pose proof (w_small gz F1) as Egz.
  pose proof (admission_nowrap gs (o_overhead o) maxG (w gz) (q_l0 q) mbnd _ Eok) as Hs2.
  pose proof (plan_spec gs (o_overhead o) maxG (o_numgpu o) (q_mm q) (m_blocks m) (w gz) (q_l0 q) (q_mout q)
                (q_ok q && fits gz)) as Hwf.
  cbv zeta in Hwf. destruct Hwf as ((Hla & _) & _).
  set (s2 := admission _ _ _ _ _ _) in *.
  destruct (layout_nowrap gs (o_overhead o) maxG (o_numgpu o) (q_mm q) (m_blocks m) (q_l0 q) (q_mout q) s2
              (mbnd + q_l0 q + w gz) T) as (Hokp & Hcp & Hovf); [|exact F6|exact F7|rewrite Egz; exact F3|].
  { apply Hs2; [|rewrite Egz; exact F2]. intros g Hin. apply In_le_sum_x. now apply in_map. }
  fold bc in Hcp, Hovf. rewrite Egz in Hcp. fold B in Hcp.
  set (p := layout _ _ _ _ _ _ _ _ _) in *.
  set (g := if pl_fully p then q_gf q else q_gp q) in *.
  assert (Hg : B + g <= B + maxG).
  { apply N.add_le_mono_l. unfold g, maxG. destruct (pl_fully p); [apply N.le_max_r|apply N.le_max_l]. }
  destruct (add_graph_nowrap g B (al (pl_st p)) (ct (pl_st p)) Hcp) as (Hoka & Hals);
    [exact (N.le_lt_trans _ _ _ Hg F4)|].
  pose proof (add_graph_length g (al (pl_st p)) (ct (pl_st p))) as Hlen.
  destruct (add_graph _ _ _) as [als ok_a] in *. cbn [fst snd] in *.
  assert (Hsum : sum_x als <= n * (B + maxG)).
  { pose proof (sum_x_cap als (B + g) Hals) as Hs. rewrite Hlen, Hla in Hs.
    exact (N.le_trans _ _ _ Hs (N.mul_le_mono_l _ _ _ Hg)). }
  assert (Hfin : sum_x als < W /\ sum_x als + pl_ovf p < W) by (clear - Hsum Hovf F5; lia).
  subst r. cbn [r_ok]. rewrite Hokp, Hoka, (sum_w_x als), !fits_small by apply Hfin. reflexivity.
Qed.

From Coq Require Import List NArith ZArith Bool Arith Lia.
From Coq Require Import ZifyBool ZifyNat ZifyN Permutation.
From V Require Import Common.Bytes Mem.Model Mem.Proofs Mem.Sched.
Import ListNotations.
Open Scope N_scope.

(** two records describe the same GPU (everything but FreeMemory) *)
Definition same_ident (a b : xgpu) : Prop :=
  x_id a = x_id b /\ x_total a = x_total b /\ g_min (x_g a) = g_min (x_g b) /\
  g_lib (x_g a) = g_lib (x_g b) /\ g_var (x_g a) = g_var (x_g b).

Lemma new_free_le total free p : new_free total free p <= free.
Proof. unfold new_free. destruct (total <? p) eqn:E1; [lia|]. destruct (total - p <? free) eqn:E2; lia. Qed.

Lemma new_free_le_room total free p : p <= total -> new_free total free p + p <= total.
Proof. unfold new_free. intros H. destruct (total <? p) eqn:E1; [lia|]. destruct (total - p <? free) eqn:E2; lia. Qed.

Lemma Forall2_map_r {A B} (R : A -> B -> Prop) (f : A -> B) l : (forall x, R x (f x)) -> Forall2 R l (map f l).
Proof. intros H. induction l; cbn; constructor; auto. Qed.

Lemma Forall2_diag {A} (R : A -> A -> Prop) l : (forall x, R x x) -> Forall2 R l l.
Proof. intros H. induction l; constructor; auto. Qed.

Definition not_raised (g g' : xgpu) : Prop := same_ident g g' /\ x_free g' <= x_free g.

Lemma update_free_not_raised rs allg : Forall2 not_raised allg (update_free rs allg).
Proof.
  unfold update_free. destruct (existsb rn_llama rs).
  - apply Forall2_map_r. intros g. split.
    + unfold same_ident, set_free. cbn. auto.
    + unfold set_free, x_free. cbn [x_g g_free]. apply new_free_le.
  - apply Forall2_diag. intros g. split; [unfold same_ident; auto|lia].
Qed.

Lemma Forall2_In_r {A B} (R : A -> B -> Prop) l l' y : Forall2 R l l' -> In y l' -> exists x, In x l /\ R x y.
Proof.
  induction 1 as [|a b l l' Hab HF IH]; intros Hin; [destruct Hin|].
  destruct Hin as [<-|Hin]; [exists a; split; [now left|exact Hab]|].
  destruct (IH Hin) as (x & Hx & HR). exists x. split; [now right|exact HR].
Qed.

Lemma drop_first_id_incl id l x : In x (drop_first_id id l) -> In x l.
Proof.
  induction l as [|g t IH]; cbn [drop_first_id]; auto.
  destruct (eqb_str (x_id g) id); intros H; [now right|].
  destruct H as [<-|H]; [now left|right; auto].
Qed.

Lemma fold_drop_incl ids : forall l x, In x (fold_left (fun ret id => drop_first_id id ret) ids l) -> In x l.
Proof.
  induction ids as [|id ids' IH]; intros l x H; cbn [fold_left] in H; auto.
  apply IH in H. eapply drop_first_id_incl; exact H.
Qed.

Lemma filter_loading_incl rs : forall gpus x, In x (filter_loading rs gpus) -> In x gpus.
Proof.
  unfold filter_loading. induction rs as [|r rs' IH]; intros gpus x H; cbn [fold_left] in H; auto.
  apply IH in H. destruct (rn_loading r); [eapply fold_drop_incl; exact H|exact H].
Qed.

Lemma handed_not_raised rs gpus g' :
  In g' (update_free rs (filter_loading rs gpus)) -> exists g, In g gpus /\ not_raised g g'.
Proof.
  intros H. destruct (Forall2_In_r _ _ _ _ (update_free_not_raised rs (filter_loading rs gpus)) H) as (g & Hg & HR).
  exists g. split; [eapply filter_loading_incl; exact Hg|exact HR].
Qed.

Lemma ins_desc_perm y l : Permutation (y :: l) (ins_desc y l).
Proof.
  induction l as [|z t IH]; cbn [ins_desc]; [reflexivity|].
  destruct (x_free z <? x_free y); [reflexivity|]. exact (perm_trans (perm_swap z y t) (perm_skip z IH)).
Qed.

Lemma sort_desc_perm l : Permutation l (sort_desc l).
Proof.
  unfold sort_desc.
  assert (H : forall acc, Permutation (l ++ acc) (fold_left (fun acc x => ins_desc x acc) l acc)).
  { induction l as [|y t IH]; intros acc; cbn [fold_left app]; [reflexivity|].
    exact (perm_trans (Permutation_middle t acc y) (perm_trans (Permutation_app_head t (ins_desc_perm y acc)) (IH _))). }
  specialize (H []). now rewrite app_nil_r in H.
Qed.

Definition full_ok (pool : list xgpu) (ps : list Z) (mp : Z -> model) (o : opts) (r : Z * list xgpu) : Prop :=
  In (fst r) ps /\ snd r <> [] /\ (forall x, In x (snd r) -> In x pool) /\
  fst (predict_server_fit (map x_g (snd r)) (mp (fst r)) o) = true.

Lemma first_single_sound sgl m o g : first_single sgl m o = Some g ->
  In g sgl /\ fst (predict_server_fit [x_g g] m o) = true.
Proof.
  induction sgl as [|y t IH]; cbn [first_single]; [discriminate|].
  destruct (fst (predict_server_fit [x_g y] m o)) eqn:E; intros H.
  - inversion H; subst. split; [now left|exact E].
  - destruct (IH H). split; [now right|assumption].
Qed.

Lemma try_single_sound ps sgl mp o r : try_single ps sgl mp o = Some r -> full_ok sgl ps mp o r.
Proof.
  induction ps as [|p t IH]; cbn [try_single]; [discriminate|].
  destruct (first_single sgl (mp p) o) as [g|] eqn:E; intros H.
  - inversion H; subst. apply first_single_sound in E. destruct E as (Hin & Hfit).
    unfold full_ok; cbn [fst snd map]. repeat split; auto; [now left|discriminate|].
    intros x [<-|[]]. exact Hin.
  - destruct (IH H) as (H1 & H2 & H3 & H4). unfold full_ok. repeat split; auto. now right.
Qed.

Lemma try_all_sound ps sgl mp o r : sgl <> [] -> try_all ps sgl mp o = Some r -> full_ok sgl ps mp o r.
Proof.
  intros Hne. induction ps as [|p t IH]; cbn [try_all]; [discriminate|].
  destruct (fst (predict_server_fit (map x_g sgl) (mp p) o)) eqn:E; intros H.
  - inversion H; subst. unfold full_ok; cbn [fst snd]. repeat split; auto. now left.
  - destruct (IH H) as (H1 & H2 & H3 & H4). unfold full_ok. repeat split; auto. now right.
Qed.

Lemma pick_groups_sound groups spread ps mp o r :
  (forall gl, In gl groups -> gl <> []) ->
  pick_groups groups spread ps mp o = Some r ->
  exists gl, In gl groups /\ full_ok gl ps mp o r.
Proof.
  induction groups as [|gl rest IH]; intros Hne; cbn [pick_groups]; [discriminate|].
  assert (Hsub : forall ps' r', full_ok (sort_desc gl) ps' mp o r' -> full_ok gl ps' mp o r').
  { intros ps' r' (H1 & H2 & H3 & H4). repeat split; auto. intros x Hx.
    exact (Permutation_in x (Permutation_sym (sort_desc_perm gl)) (H3 x Hx)). }
  destruct (if spread then None else try_single ps (sort_desc gl) mp o) as [r1|] eqn:E1.
  - intros H; inversion H; subst. exists gl. split; [now left|]. apply Hsub.
    destruct spread; [discriminate|]. now apply try_single_sound.
  - destruct (try_all ps (sort_desc gl) mp o) as [r2|] eqn:E2.
    + intros H; inversion H; subst. exists gl. split; [now left|]. apply Hsub.
      apply try_all_sound; [|exact E2]. intros E. apply (Hne gl (or_introl eq_refl)), Permutation_nil.
      rewrite <- E. exact (Permutation_sym (sort_desc_perm gl)).
    + intros H. destruct IH as (gl' & Hin & Hok); auto.
      * intros g Hg. apply Hne. now right.
      * exists gl'. split; [now right|exact Hok].
Qed.

Lemma pick_full_sound gpus spread np mp o p chosen :
  pick_full gpus spread np mp o = Some (p, chosen) ->
  In p (tries np) /\ chosen <> [] /\ (forall x, In x chosen -> In x gpus) /\
  (forall x y, In x chosen -> In y chosen -> x_key x = x_key y) /\
  fst (predict_server_fit (map x_g chosen) (mp p) o) = true.
Proof.
  unfold pick_full. intros H.
  apply pick_groups_sound in H.
  - destruct H as (gl & Hin & (H1 & H2 & H3 & H4)). cbn [fst snd] in *.
    destruct (by_library_gen_groups x_key gpus gl Hin) as (_ & Hsub & Hsame).
    repeat split; auto.
  - intros gl Hin. apply (by_library_gen_groups x_key gpus gl Hin).
Qed.

Lemma pick_partial_incl gpus np mp o x : In x (snd (pick_partial gpus np mp o)) -> In x gpus.
Proof.
  unfold pick_partial.
  destruct (by_library_gen x_key gpus) as [|g1 [|g2 rest]] eqn:E; cbn [snd]; auto.
  intros H.
  destruct (nth_in_or_default (best_partial (g1 :: g2 :: rest) 0 (mp (if (np <=? 0)%Z then 1%Z else np)) o 0 0) (g1 :: g2 :: rest) []) as [Hin|Hd].
  - rewrite <- E in H, Hin. destruct (by_library_gen_groups x_key gpus _ Hin) as (_ & Hsub & _). apply Hsub. exact H.
  - rewrite Hd in H. destruct H.
Qed.

Lemma plan_bound chosen m o i :
  let r := plan_for chosen m o in
  r_ok r = true ->
  nth i (r_sizes r) 0 = 0 \/
  (In (nth i chosen x0) chosen /\ nth i (r_sizes r) 0 + o_overhead o <= x_free (nth i chosen x0)).
Proof.
  cbv zeta. unfold plan_for. intros Hok.
  destruct (estimate_bytes (map x_g chosen) m o Hok) as (Hb & _).
  destruct (estimate_counts (map x_g chosen) m o) as (Hlen & _).
  destruct (estimate_reported (map x_g chosen) m o) as (_ & _ & Hsz & _).
  rewrite map_length in Hlen.
  destruct Hsz as [E|E]; rewrite E; [left; now destruct i|].
  destruct (Nat.lt_ge_cases i (length chosen)) as [Hlt|Hge].
  - destruct (Hb i) as [[H _]|[_ H]]; [now left|right]. split; [now apply nth_In|].
    change gpu0 with (x_g x0) in H. rewrite map_nth in H. exact H.
  - left. apply nth_overflow. lia.
Qed.

Lemma sched_loaded_bound rs gpus spread np mp o avail p chosen i :
  sched_loaded rs gpus spread np mp o = (avail, Some (p, chosen)) ->
  let r := plan_for chosen (mp p) o in
  r_ok r = true ->
  nth i (r_sizes r) 0 = 0 \/
  exists g, In g gpus /\ same_ident g (nth i chosen x0) /\ nth i (r_sizes r) 0 + o_overhead o <= x_free g.
Proof.
  unfold sched_loaded. intros H Hok. injection H as Hav Hpick. rewrite Hav in Hpick.
  destruct (pick_full_sound _ _ _ _ _ _ _ Hpick) as (_ & _ & Hsub & _).
  destruct (plan_bound chosen (mp p) o i Hok) as [Hz|(Hin & Hle)]; [now left|right].
  rewrite <- Hav in Hsub.
  destruct (handed_not_raised rs gpus _ (Hsub _ Hin)) as (g & Hg & (Hid & Hfree)).
  exists g. split; [exact Hg|split; [exact Hid|lia]].
Qed.

Lemma sched_first_bound gpus spread np mp o p chosen i :
  sched_first gpus spread np mp o = (p, chosen) ->
  let r := plan_for chosen (mp p) o in
  r_ok r = true ->
  nth i (r_sizes r) 0 = 0 \/
  (In (nth i chosen x0) gpus /\ nth i (r_sizes r) 0 + o_overhead o <= x_free (nth i chosen x0)).
Proof.
  unfold sched_first. intros H Hok.
  assert (Hsub : forall x, In x chosen -> In x gpus).
  { destruct (pick_full gpus spread np mp o) as [[p' c']|] eqn:E.
    - inversion H; subst. apply (pick_full_sound _ _ _ _ _ _ _ E).
    - intros x Hx. apply (pick_partial_incl gpus np mp o). rewrite H. exact Hx. }
  destruct (plan_bound chosen (mp p) o i Hok) as [Hz|(Hin & Hle)]; [now left|right].
  split; auto.
Qed.

Lemma predicted_set_free rs allg g f : predicted rs allg (set_free g f) = predicted rs allg g.
Proof. reflexivity. Qed.

Lemma update_free_accounts rs allg g' :
  existsb rn_llama rs = true -> In g' (update_free rs allg) ->
  (predicted rs allg g' <= x_total g' -> x_free g' + predicted rs allg g' <= x_total g') /\
  (x_total g' < predicted rs allg g' -> x_free g' = 0).
Proof.
  unfold update_free. intros -> Hin. apply in_map_iff in Hin. destruct Hin as (g & <- & _).
  rewrite predicted_set_free. unfold set_free, x_free. cbn [x_g g_free x_total]. split.
  - apply new_free_le_room.
  - intros H. unfold new_free. apply N.ltb_lt in H. now rewrite H.
Qed.

Lemma sched_cpu_load_fits loaded g np_env emb mp o p :
  sched_cpu loaded g np_env emb mp o = CpuLoad p ->
  p = cpu_parallel np_env emb /\ (1 <= p)%Z /\
  (loaded <> O -> r_total (plan_for [g] (mp p) o) <= x_free g).
Proof.
  unfold sched_cpu, plan_for. cbn [map].
  assert (Hp : (1 <= cpu_parallel np_env emb)%Z).
  { unfold cpu_parallel, default_parallel. destruct emb; [cbn; lia|]. destruct (np_env <=? 0)%Z eqn:E; lia. }
  destruct (Nat.eqb loaded 0) eqn:E0.
  - intros H; inversion H; subst. repeat split; auto. apply Nat.eqb_eq in E0. congruence.
  - destruct (r_total (estimate [x_g g] (mp (cpu_parallel np_env emb)) o) <=? x_free g) eqn:E; [|discriminate].
    intros H; inversion H; subst. repeat split; auto. intros _. now apply N.leb_le.
Qed.

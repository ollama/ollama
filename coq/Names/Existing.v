(** C13 - the legacy case-insensitive lookup getExistingName (server/routes.go) as repaired by
    fixes/C04-getExistingName.patch: a case variant of a stored name is canonicalised to a stored name, the same
    one for every case variant and for every iteration order of the map. *)
From Coq Require Import List NArith ZArith Bool Arith Lia ZifyBool ZifyNat ZifyN.
From V Require Import Common.Bytes Names.Path Names.Model Names.PathProofs Names.Proofs Names.Confine Names.Fold.
Import ListNotations.
Open Scope N_scope.

Lemma str_cmp_refl a : str_cmp a a = Eq.
Proof. induction a as [|x a IH]; cbn; [reflexivity|]. rewrite N.compare_refl. exact IH. Qed.

Lemma str_cmp_eq a b : str_cmp a b = Eq -> a = b.
Proof.
  revert b; induction a as [|x a IH]; intros [|y b] H; cbn in H; try discriminate; [reflexivity|].
  destruct (N.compare x y) eqn:E; try discriminate. apply N.compare_eq in E. subst. f_equal. apply IH. exact H.
Qed.

Lemma str_cmp_antisym a b : str_cmp a b = CompOpp (str_cmp b a).
Proof.
  revert b; induction a as [|x a IH]; intros [|y b]; cbn; try reflexivity.
  rewrite (N.compare_antisym y x). destruct (N.compare y x); cbn; [apply IH|reflexivity|reflexivity].
Qed.

Lemma str_cmp_lt_trans a b c : str_cmp a b = Lt -> str_cmp b c = Lt -> str_cmp a c = Lt.
Proof.
  revert b c; induction a as [|x a IH]; intros [|y b] [|z c] H1 H2; cbn in *; try discriminate; try reflexivity.
  destruct (N.compare x y) eqn:E1; try discriminate.
  - apply N.compare_eq in E1. subst y. destruct (N.compare x z) eqn:E2; try discriminate; [eapply IH; eassumption|reflexivity].
  - destruct (N.compare y z) eqn:E2; try discriminate.
    + apply N.compare_eq in E2. subst z. rewrite E1. reflexivity.
    + assert (E3 : N.compare x z = Lt) by (rewrite N.compare_lt_iff in E1, E2 |- *; eapply N.lt_trans; eassumption). rewrite E3. reflexivity.
Qed.

Lemma str_ltb_irrefl a : str_ltb a a = false.
Proof. unfold str_ltb. rewrite str_cmp_refl. reflexivity. Qed.

Lemma str_ltb_trans a b c : str_ltb a b = true -> str_ltb b c = true -> str_ltb a c = true.
Proof.
  unfold str_ltb. destruct (str_cmp a b) eqn:E1; try discriminate. destruct (str_cmp b c) eqn:E2; try discriminate.
  intros _ _. rewrite (str_cmp_lt_trans a b c E1 E2). reflexivity.
Qed.

Lemma str_ltb_total a b : str_ltb a b = false -> str_ltb b a = false -> a = b.
Proof.
  unfold str_ltb. rewrite (str_cmp_antisym b a). destruct (str_cmp a b) eqn:E; cbn; try discriminate.
  intros _ _. apply str_cmp_eq. exact E.
Qed.

(** [gen_cand n e] = (candidate, number of leading parts of [e] that are EqualFold to those of [n]) *)
Definition kof (n e : mname) : nat := snd (gen_cand n e).
Definition cof (n e : mname) : mname := fst (gen_cand n e).

Lemma gen_cand_cases n e :
  (m_equal_fold e n = true /\ gen_cand n e = (e, 4%nat)) \/ (m_equal_fold e n = false /\ (kof n e < 4)%nat).
Proof.
  unfold kof, m_equal_fold, gen_cand. destruct e as [eh en em et]. cbn [mH mN mM mT].
  do 4 (destruct (equal_fold_au _ _); [|right; split; [reflexivity|cbn; lia]]). left. split; reflexivity.
Qed.

Lemma kof_le4 n e : (kof n e <= 4)%nat.
Proof. destruct (gen_cand_cases n e) as [[_ E]|[_ H]]; [unfold kof; rewrite E; cbn|]; lia. Qed.

Lemma kof4 n e : kof n e = 4%nat -> cof n e = e /\ m_equal_fold e n = true.
Proof.
  intro H. destruct (gen_cand_cases n e) as [[M E]|[_ L]]; [|lia]. split; [unfold cof; rewrite E; reflexivity|exact M].
Qed.

Lemma kof4_intro n e : m_equal_fold e n = true -> kof n e = 4%nat.
Proof. intro M. destruct (gen_cand_cases n e) as [[_ E]|[F _]]; [unfold kof; rewrite E; reflexivity|congruence]. Qed.

Lemma cof_cv n e : m_is_fq n = true -> cv_m (cof n e) n.
Proof.
  destruct n as [h ns m t]. intro H. apply m_is_fq_parts in H as (Hh & Hn & Hm & Ht).
  unfold cof, gen_cand. cbn [mH mN mM mT].
  destruct (equal_fold_au (mH e) h) eqn:E1; [|repeat split; apply cv_refl].
  apply (equal_fold_au_ascii _ _ (part_ok_ascii _ _ Hh)) in E1.
  destruct (equal_fold_au (mN e) ns) eqn:E2; [|repeat split; cbn; try apply cv_refl; assumption].
  apply (equal_fold_au_ascii _ _ (part_ok_ascii _ _ Hn)) in E2.
  destruct (equal_fold_au (mM e) m) eqn:E3; [|repeat split; cbn; try apply cv_refl; assumption].
  apply (equal_fold_au_ascii _ _ (part_ok_ascii _ _ Hm)) in E3.
  destruct (equal_fold_au (mT e) t) eqn:E4; [|repeat split; cbn; try apply cv_refl; assumption].
  apply (equal_fold_au_ascii _ _ (part_ok_ascii _ _ Ht)) in E4.
  repeat split; cbn; assumption.
Qed.

Lemma efa_parts_cv e n1 n2 :
  m_is_fq n1 = true -> cv_m n1 n2 ->
  equal_fold_au (mH e) (mH n1) = equal_fold_au (mH e) (mH n2) /\ equal_fold_au (mN e) (mN n1) = equal_fold_au (mN e) (mN n2) /\
  equal_fold_au (mM e) (mM n1) = equal_fold_au (mM e) (mM n2) /\ equal_fold_au (mT e) (mT n1) = equal_fold_au (mT e) (mT n2).
Proof.
  destruct n1 as [h1 s1 m1 t1]. intros F1 (C1 & C2 & C3 & C4). cbn [mH mN mM mT] in *.
  apply m_is_fq_parts in F1 as (Hh1 & Hn1 & Hm1 & Ht1).
  repeat split; apply equal_fold_au_congr_r; try assumption; eapply part_ok_ascii; eassumption.
Qed.

Lemma kof_cv n1 n2 e : m_is_fq n1 = true -> m_is_fq n2 = true -> cv_m n1 n2 -> kof n1 e = kof n2 e.
Proof.
  intros F1 _ C. destruct (efa_parts_cv e n1 n2 F1 C) as (E1 & E2 & E3 & E4).
  unfold kof, gen_cand. rewrite E1, E2, E3, E4. clear. do 4 (destruct (equal_fold_au _ _); [|reflexivity]). reflexivity.
Qed.

(** the loop invariant: [bl] is the longest match among the names seen; [best] is [n] while [bl = 0], else the candidate
    of some seen name with that length; no seen candidate of that length prints smaller than [best] *)
Definition pick_inv (n : mname) (seen : list mname) (acc : mname * nat) : Prop :=
  let '(best, bl) := acc in
  (forall e, In e seen -> (kof n e <= bl)%nat) /\
  (bl = 0%nat -> best = n) /\
  ((0 < bl)%nat -> exists e0, In e0 seen /\ gen_cand n e0 = (best, bl)) /\
  (forall e, In e seen -> kof n e = bl -> (0 < bl)%nat -> str_ltb (m_string (cof n e)) (m_string best) = false).

Lemma pick_inv_step n seen acc e : pick_inv n seen acc -> pick_inv n (seen ++ [e]) (gen_pick n acc e).
Proof.
  destruct acc as [best bl]. intros (I1 & I2 & I3 & I4). unfold gen_pick.
  destruct (gen_cand n e) as [c k] eqn:Ec.
  assert (Hk : kof n e = k) by (unfold kof; rewrite Ec; reflexivity).
  assert (Hc : cof n e = c) by (unfold cof; rewrite Ec; reflexivity).
  destruct ((bl <? k)%nat || ((k =? bl)%nat && (0 <? k)%nat && str_ltb (m_string c) (m_string best))) eqn:Ed.
  - (* the candidate replaces best *)
    assert (Hpos : (0 < k)%nat) by lia.
    assert (Hge : (bl <= k)%nat) by lia.
    repeat split.
    + intros e' Hin. apply in_app_or in Hin as [Hin|[<-|[]]]; [specialize (I1 e' Hin); lia|lia].
    + intro; lia.
    + intros _. exists e. split; [apply in_or_app; right; left; reflexivity|exact Ec].
    + intros e' Hin He' _. apply in_app_or in Hin as [Hin|[<-|[]]].
      * destruct (Nat.eq_dec k bl) as [->|Hne].
        -- assert (Hlt : str_ltb (m_string c) (m_string best) = true) by (destruct (str_ltb (m_string c) (m_string best)); [reflexivity|lia]).
           specialize (I4 e' Hin He' Hpos).
           destruct (str_ltb (m_string (cof n e')) (m_string c)) eqn:E; [|reflexivity].
           rewrite (str_ltb_trans _ _ _ E Hlt) in I4. discriminate.
        -- specialize (I1 e' Hin). lia.
      * rewrite Hc. apply str_ltb_irrefl.
  - (* best stays *)
    repeat split.
    + intros e' Hin. apply in_app_or in Hin as [Hin|[<-|[]]]; [apply I1; exact Hin|lia].
    + exact I2.
    + intro Hpos. destruct (I3 Hpos) as (e0 & Hin & H0). exists e0. split; [apply in_or_app; left; exact Hin|exact H0].
    + intros e' Hin He' Hpos. apply in_app_or in Hin as [Hin|[<-|[]]]; [apply I4; assumption|].
      rewrite Hc. destruct (str_ltb (m_string c) (m_string best)); [lia|reflexivity].
Qed.

Lemma pick_inv_fold n l seen acc : pick_inv n seen acc -> pick_inv n (seen ++ l) (fold_left (gen_pick n) l acc).
Proof.
  revert seen acc; induction l as [|e l IH]; intros seen acc H; cbn [fold_left].
  - rewrite app_nil_r. exact H.
  - replace (seen ++ e :: l) with ((seen ++ [e]) ++ l) by (rewrite <- app_assoc; reflexivity).
    apply IH. apply pick_inv_step. exact H.
Qed.

Lemma pick_inv_final n existing : pick_inv n existing (fold_left (gen_pick n) existing (n, 0%nat)).
Proof.
  apply (pick_inv_fold n existing [] (n, 0%nat)). repeat split; try (intros ? []); try reflexivity; intro; lia.
Qed.

Lemma get_existing_cv existing n : m_is_fq n = true -> cv_m (get_existing_name existing n) n.
Proof.
  intro Hn. unfold get_existing_name. pose proof (pick_inv_final n existing) as H.
  destruct (fold_left (gen_pick n) existing (n, 0%nat)) as [best bl]. destruct H as (_ & I2 & I3 & _). cbn [fst].
  destruct bl as [|bl].
  - rewrite (I2 eq_refl). repeat split; apply cv_refl.
  - destruct (I3 (Nat.lt_0_succ bl)) as (e0 & _ & H0). replace best with (cof n e0) by (unfold cof; rewrite H0; reflexivity).
    apply cof_cv. exact Hn.
Qed.

Lemma get_existing_full existing n :
  (exists e, In e existing /\ m_equal_fold e n = true) ->
  let r := get_existing_name existing n in
  In r existing /\ m_equal_fold r n = true /\
  (forall e, In e existing -> m_equal_fold e n = true -> str_ltb (m_string e) (m_string r) = false).
Proof.
  intros (e & Hin & He). cbv zeta. unfold get_existing_name. pose proof (pick_inv_final n existing) as H.
  destruct (fold_left (gen_pick n) existing (n, 0%nat)) as [best bl]. destruct H as (I1 & _ & I3 & I4). cbn [fst].
  pose proof (I1 e Hin) as Hle. rewrite (kof4_intro n e He) in Hle.
  assert (Hpos : (0 < bl)%nat) by lia. destruct (I3 Hpos) as (e0 & Hin0 & H0).
  assert (Hk0 : kof n e0 = bl) by (unfold kof; rewrite H0; reflexivity).
  pose proof (kof_le4 n e0) as H4. assert (Hb : bl = 4%nat) by lia. rewrite Hb in *. clear Hb.
  destruct (kof4 n e0 Hk0) as [Hc0 Hf0]. assert (best = e0) by (unfold cof in Hc0; rewrite H0 in Hc0; exact Hc0). subst best.
  repeat split; try assumption.
  intros e' Hin' He'. pose proof (kof4_intro n e' He') as Hk'. specialize (I4 e' Hin' Hk' Hpos).
  destruct (kof4 n e' Hk') as [Hc' _]. rewrite Hc' in I4. exact I4.
Qed.

Lemma m_string_inj a b : m_is_fq a = true -> m_is_fq b = true -> m_string a = m_string b -> a = b.
Proof. intros Ha Hb H. rewrite <- (m_roundtrip a Ha), <- (m_roundtrip b Hb), H. reflexivity. Qed.

Lemma m_equal_fold_cv e n1 n2 :
  m_is_fq n1 = true -> cv_m n1 n2 -> m_equal_fold e n1 = m_equal_fold e n2.
Proof.
  intros F1 C. destruct (efa_parts_cv e n1 n2 F1 C) as (E1 & E2 & E3 & E4).
  unfold m_equal_fold. rewrite E1, E2, E3, E4. reflexivity.
Qed.

Lemma get_existing_same l1 l2 n1 n2 :
  (forall e, In e l1 <-> In e l2) -> Forall (fun e => m_is_fq e = true) l1 ->
  m_is_fq n1 = true -> cv_m n1 n2 ->
  (exists e, In e l1 /\ m_equal_fold e n1 = true) ->
  let r := get_existing_name l1 n1 in
  r = get_existing_name l2 n2 /\ In r l1 /\ m_equal_fold r n1 = true.
Proof.
  intros Hl Hfq F1 Hcv (e & Hin & He). cbv zeta.
  assert (Hef : forall x, m_equal_fold x n1 = m_equal_fold x n2) by (intro x; apply m_equal_fold_cv; assumption).
  destruct (get_existing_full l1 n1) as (R1 & E1 & M1); [exists e; split; assumption|].
  destruct (get_existing_full l2 n2) as (R2 & E2 & M2); [exists e; split; [apply Hl; exact Hin|rewrite <- Hef; exact He]|].
  split; [|split; assumption].
  rewrite Forall_forall in Hfq.
  apply m_string_inj; [apply Hfq; exact R1|apply Hfq, Hl; exact R2|].
  apply str_ltb_total.
  - apply M2; [apply Hl; exact R1|rewrite <- Hef; exact E1].
  - apply M1; [apply Hl; exact R2|rewrite Hef; exact E2].
Qed.

(** the unchanged tree: every part is taken from whichever stored name happens to be visited last *)
Lemma legacy_witness :
  let a := MkM [104] [110] [77] [116] in          (* h/n/M:t  *)
  let b := MkM [104] [120] [109] [117] in         (* h/x/m:u  *)
  m_is_fq a = true /\ m_is_fq b = true /\
  get_existing_name_legacy [a; b] a = MkM [104] [110] [109] [116] /\           (* h/n/m:t: not stored *)
  ~ In (get_existing_name_legacy [a; b] a) [a; b] /\
  get_existing_name_legacy [b; a] a = a.
Proof.
  cbv zeta. repeat split; try (vm_compute; reflexivity).
  vm_compute. intros [H|[H|[]]]; discriminate.
Qed.

(** the legacy loop does return the stored case variant [estar] (for every visiting order) when no other stored
    name spells a matching part differently: the guard excludes exactly the mixing of parts of different names *)
Definition part_agree (a_e a_n a_star : str) : bool := negb (equal_fold_au a_e a_n) || eqb_str a_e a_star.
Definition legacy_guard (existing : list mname) (n estar : mname) : bool :=
  m_equal_fold estar n &&
  forallb (fun e => part_agree (mH e) (mH n) (mH estar) && part_agree (mN e) (mN n) (mN estar) &&
                    part_agree (mM e) (mM n) (mM estar) && part_agree (mT e) (mT n) (mT estar)) existing.

Definition near (n estar acc : mname) : Prop :=
  (mH acc = mH n \/ mH acc = mH estar) /\ (mN acc = mN n \/ mN acc = mN estar) /\
  (mM acc = mM n \/ mM acc = mM estar) /\ (mT acc = mT n \/ mT acc = mT estar).

Lemma efa_near a pn ps pa :
  Forall (fun c => c < 128) pn -> cv ps pn -> (pa = pn \/ pa = ps) -> equal_fold_au a pa = equal_fold_au a pn.
Proof. intros An Hcv [->| ->]; [reflexivity|]. symmetry. apply equal_fold_au_congr_r; [exact An|apply cv_sym, Hcv]. Qed.

Lemma part_step a_e pn ps pa :
  Forall (fun c => c < 128) pn -> cv ps pn -> part_agree a_e pn ps = true -> (pa = pn \/ pa = ps) ->
  let pa' := if equal_fold_au a_e pa then a_e else pa in
  (pa' = pn \/ pa' = ps) /\ (pa = ps -> pa' = ps).
Proof.
  intros An Hcv Hg Hpa. cbv zeta. rewrite (efa_near a_e pn ps pa An Hcv Hpa).
  unfold part_agree in Hg. destruct (equal_fold_au a_e pn) eqn:E; cbn in Hg.
  - apply eqb_str_spec in Hg. subst a_e. split; [right; reflexivity|reflexivity].
  - split; [exact Hpa|intro H; exact H].
Qed.

(** every part of the accumulator is [n]'s or [estar]'s spelling ([near]); under the guard a step keeps that, never
    leaves [estar]'s spelling, and visiting [estar] sets all four parts to it *)
Lemma legacy_partial_aux existing n estar :
  m_is_fq n = true -> legacy_guard existing n estar = true ->
  forall l acc, incl l existing -> near n estar acc ->
    near n estar (fold_left gen_step l acc) /\
    (acc = estar -> fold_left gen_step l acc = estar) /\
    (In estar l -> fold_left gen_step l acc = estar).
Proof.
  intros Fn Hg. unfold legacy_guard in Hg. apply andb_true_iff in Hg as [Hef Hall].
  pose proof (proj1 (cv_m_equal_fold estar n Fn) Hef) as (C1 & C2 & C3 & C4).
  destruct n as [h ns m t], estar as [hs nss ms ts]. cbn [mH mN mM mT] in *.
  apply m_is_fq_parts in Fn as (Ph & Pn & Pm & Pt).
  pose proof (part_ok_ascii _ _ Ph) as Ah. pose proof (part_ok_ascii _ _ Pn) as An. pose proof (part_ok_ascii _ _ Pm) as Am.
  pose proof (part_ok_ascii _ _ Pt) as At.
  rewrite forallb_forall in Hall.
  assert (Hstep : forall e acc, In e existing -> near (MkM h ns m t) (MkM hs nss ms ts) acc ->
            near (MkM h ns m t) (MkM hs nss ms ts) (gen_step acc e) /\
            (acc = MkM hs nss ms ts -> gen_step acc e = MkM hs nss ms ts) /\
            (e = MkM hs nss ms ts -> gen_step acc e = MkM hs nss ms ts)).
  { intros e acc Hin (N1 & N2 & N3 & N4). cbn [mH mN mM mT] in *.
    specialize (Hall e Hin). repeat (apply andb_true_iff in Hall as [Hall ?]).
    destruct (part_step (mH e) h hs (mH acc) Ah C1 Hall N1) as [S1 T1].
    destruct (part_step (mN e) ns nss (mN acc) An C2 H1 N2) as [S2 T2].
    destruct (part_step (mM e) m ms (mM acc) Am C3 H0 N3) as [S3 T3].
    destruct (part_step (mT e) t ts (mT acc) At C4 H N4) as [S4 T4].
    unfold gen_step. split; [repeat split; cbn [mH mN mM mT]; assumption|]. split.
    - intros ->. cbn [mH mN mM mT] in *. rewrite (T1 eq_refl), (T2 eq_refl), (T3 eq_refl), (T4 eq_refl). reflexivity.
    - intros ->. cbn [mH mN mM mT] in *.
      rewrite (efa_near hs h hs (mH acc) Ah C1 N1), (efa_near nss ns nss (mN acc) An C2 N2),
              (efa_near ms m ms (mM acc) Am C3 N3), (efa_near ts t ts (mT acc) At C4 N4).
      rewrite (proj2 (equal_fold_au_ascii hs h Ah) C1), (proj2 (equal_fold_au_ascii nss ns An) C2),
              (proj2 (equal_fold_au_ascii ms m Am) C3), (proj2 (equal_fold_au_ascii ts t At) C4). reflexivity. }
  induction l as [|e l IH]; intros acc Hincl Hnear; cbn [fold_left].
  - split; [exact Hnear|]. split; [intro H; exact H|intros []].
  - assert (Hin : In e existing) by (apply Hincl; left; reflexivity).
    assert (Hincl' : incl l existing) by (intros x Hx; apply Hincl; right; exact Hx).
    destruct (Hstep e acc Hin Hnear) as (Hn' & Hk & He).
    destruct (IH (gen_step acc e) Hincl' Hn') as (R1 & R2 & R3).
    split; [exact R1|]. split.
    + intro Ha. apply R2, Hk, Ha.
    + intros [Heq|Hl]; [apply R2, He; exact Heq|apply R3; exact Hl].
Qed.

Lemma legacy_partial existing n estar :
  m_is_fq n = true -> m_is_fq estar = true -> In estar existing -> legacy_guard existing n estar = true ->
  get_existing_name_legacy existing n = estar.
Proof.
  intros Fn _ Hin Hg. unfold get_existing_name_legacy.
  destruct (legacy_partial_aux existing n estar Fn Hg existing n) as (_ & _ & H).
  - intros x Hx; exact Hx.
  - repeat split; left; reflexivity.
  - apply H. exact Hin.
Qed.

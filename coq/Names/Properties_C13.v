(** C13 - Model names and digests cannot address anything outside the model store.

    Vocabulary:
    - [str] = list of bytes; every theorem quantifies over all byte strings / all values of the Go structs;
    - [part_ok k s]    : s is a valid part of kind k (length 1..350 for a host, 1..80 otherwise; first byte
                         alphanumeric or '_'; every byte allowed by the per-kind rule) - lemma [m_valid_part_ok] shows
                         that this is exactly isValidPart;
    - [fq_parts h n m t] : the four parts are valid for host/namespace/model/tag;
    - [safe_comp c]    : c is a path element that cannot move: not empty, not ".", not "..", no '/';
    - [fp_clean], [fp_join], [fp_abs] : filepath.Clean / Join / Abs (model in Path.v, tied to the real library);
    - [path_append base [c1..cn]] : base/c1/../cn - "inside base at depth n";
    - [cv a b]         : a and b differ only in the case of ASCII letters. *)
From Coq Require Import List NArith Bool.
From V Require Import Common.Bytes Names.Path Names.Model Names.PathProofs Names.Proofs Names.Confine Names.Fold Names.Fold2 Names.Existing Names.Hist Names.HistProofs.
Import ListNotations.
Open Scope N_scope.

(** valid parts are path elements that cannot traverse *)
Theorem C13_parts_are_safe : forall h n m t, fq_parts h n m t -> Forall safe_comp [h; n; m; t].
Proof. exact fq_parts_safe. Qed.
Print Assumptions C13_parts_are_safe.

(** ModelPath.GetManifestPath, for every root directory and every ModelPath (hence for every name string given to
    ParseModelPath): an error, or exactly Clean(root)/manifests/host/namespace/model/tag; never a panic *)
Theorem C13_confined : forall root mp,
  (mp_manifest_path root mp = Err ENotExist /\ m_is_fq (mp_name mp) = false) \/
  (fq_parts (mpRegistry mp) (mpNamespace mp) (mpRepository mp) (mpTag mp) /\
   mp_manifest_path root mp =
   Ok (path_append (fp_clean root) [s_manifests; mpRegistry mp; mpNamespace mp; mpRepository mp; mpTag mp])).
Proof. exact mp_manifest_path_cases. Qed.
Print Assumptions C13_confined.

Example C13_confined_nonvacuous :
  mp_manifest_path [47; 109] (mp_parse [104; 58; 56; 47; 110; 47; 109; 58; 116])      (* root "/m", name "h:8/n/m:t" *)
  = Ok [47; 109; 47; 109; 97; 110; 105; 102; 101; 115; 116; 115; 47; 104; 58; 56; 47; 110; 47; 109; 47; 116].
Proof. vm_compute. reflexivity. Qed.                                                 (* "/m/manifests/h:8/n/m/t" *)

(** Name.Filepath refuses a name that is not fully qualified, and is host/namespace/model/tag otherwise;
    manifest.go joins it below <root>/manifests *)
Theorem C13_filepath : forall root n,
  (m_is_fq n = false /\ m_filepath n = Panic) \/
  (fq_parts (mH n) (mN n) (mM n) (mT n) /\
   exists fp, m_filepath n = Ok fp /\ fp = intercalate [c_slash] [mH n; mN n; mM n; mT n] /\
              fp_join [root; s_manifests; fp] = path_append (fp_clean root) [s_manifests; mH n; mN n; mM n; mT n]).
Proof.
  intros root n. destruct (m_filepath_cases n) as [H|[P E]]; [left; exact H|right].
  split; [exact P|]. eexists. split; [exact E|]. split; [reflexivity|apply manifest_join, P].
Qed.
Print Assumptions C13_filepath.

(** GetBlobsPath, for every root and every digest string: rejected, or the blobs directory itself (empty string, by
    design), or Clean(root)/blobs/sha256-<the 64 hex digits of the input> *)
Theorem C13_confined_digest : forall root d,
  (get_blobs_path root d = Err EInvalidDigest /\ d <> [] /\ digest_re_match d = false) \/
  (d = [] /\ get_blobs_path root d = Ok (path_append (fp_clean root) [s_blobs])) \/
  (exists hexs, digest_shape d hexs /\ safe_comp (s_sha256 ++ c_dash :: hexs) /\
                get_blobs_path root d = Ok (path_append (fp_clean root) [s_blobs; s_sha256 ++ c_dash :: hexs])).
Proof. exact get_blobs_path_cases. Qed.
Print Assumptions C13_confined_digest.

(** the two digest gates accept the same language: ^sha256[:-][0-9a-fA-F]{64}$ *)
Theorem C13_digest_gates_agree : forall s, digest_re_match s = true <-> exists sum, b_parse_digest s = Ok sum.
Proof. exact digest_gates_agree. Qed.
Print Assumptions C13_digest_gates_agree.

(** blob.ParseDigest + DiskCache.GetFile (cache directory absolute): <dir>/blobs/sha256-<lower-case hex of the input> *)
Theorem C13_confined_cache_blob : forall cwd dir s sum,
  fp_is_abs dir = true -> b_parse_digest s = Ok sum ->
  exists hexs, digest_shape s hexs /\ safe_comp (s_sha256 ++ c_dash :: map fold_byte hexs) /\
               b_get_file cwd dir sum = path_append (fp_clean dir) [s_blobs; s_sha256 ++ c_dash :: map fold_byte hexs].
Proof. exact b_get_file_abs. Qed.
Print Assumptions C13_confined_cache_blob.

Example C13_confined_cache_blob_nonvacuous :
  exists sum, b_parse_digest (s_sha256 ++ c_colon :: repeat 65 64) = Ok sum /\ fp_is_abs [47; 99] = true.
Proof. eexists. split; vm_compute; reflexivity. Qed.

(** blob.nameToPath / DiskCache.manifestPath, for every cache directory, every name string and every set of links on
    disk: rejected, or <dir>/manifests/a/b/c/d with four elements that cannot traverse.  Hypothesis: c.links() yields
    only paths "manifests/a/b/c/d" of directory entries (what fs.Glob("manifests/*/*/*/*") returns). *)
Theorem C13_confined_cache_manifest : forall dir links name,
  Forall link_wf links ->
  b_manifest_path dir links name = Err EInvalidName \/
  exists a b c d, Forall safe_comp [a; b; c; d] /\
                  b_manifest_path dir links name = Ok (path_append (fp_clean dir) [s_manifests; a; b; c; d]).
Proof. exact b_manifest_path_cases. Qed.
Print Assumptions C13_confined_cache_manifest.

Example C13_confined_cache_manifest_nonvacuous :
  link_wf [109; 97; 110; 105; 102; 101; 115; 116; 115; 47; 72; 47; 110; 47; 109; 47; 116] /\       (* "manifests/H/n/m/t" *)
  b_manifest_path [47; 99] [[109; 97; 110; 105; 102; 101; 115; 116; 115; 47; 72; 47; 110; 47; 109; 47; 116]] [104; 47; 110; 47; 109; 58; 116]
  = Ok [47; 99; 47; 109; 97; 110; 105; 102; 101; 115; 116; 115; 47; 72; 47; 110; 47; 109; 47; 116].   (* "h/n/m:t" -> "/c/manifests/H/n/m/t" *)
Proof.
  split; [|vm_compute; reflexivity].
  exists [72], [110], [109], [116]. split; [|reflexivity].
  repeat constructor; try discriminate; intros [H|[]]; discriminate.
Qed.

(** a name relative path (ParseNameFromFilepath), for every string: rejected (the zero Name), or exactly four valid
    parts joined by '/', nothing else *)
Theorem C13_confined_relpath : forall s,
  m_parse_from_filepath s = m_empty \/
  exists h n m t, fq_parts h n m t /\ m_parse_from_filepath s = MkM h n m t /\ s = intercalate [c_slash] [h; n; m; t].
Proof. exact m_parse_from_filepath_cases. Qed.
Print Assumptions C13_confined_relpath.

(** every byte string, through every entry point: rejected or confined (nothing else can happen) *)
Theorem C13_reject_or_confined : forall (root s : str),
  (* as a name: ParseModelPath + GetManifestPath *)
  ((exists e, mp_manifest_path root (mp_parse s) = Err e) \/
   exists h n m t, fq_parts h n m t /\ Forall safe_comp [s_manifests; h; n; m; t] /\
                   mp_manifest_path root (mp_parse s) = Ok (path_append (fp_clean root) [s_manifests; h; n; m; t])) /\
  (* as a name: model.ParseName + IsValid + Filepath *)
  ((m_is_valid (m_parse s) = false /\ m_filepath (m_parse s) = Panic) \/
   exists h n m t, fq_parts h n m t /\ m_parse s = MkM h n m t /\
                   m_filepath (m_parse s) = Ok (intercalate [c_slash] [h; n; m; t])) /\
  (* as a name: names.Parse + nameToPath + manifestPath of the blob cache *)
  (forall links, Forall link_wf links ->
     b_manifest_path root links s = Err EInvalidName \/
     exists a b c d, Forall safe_comp [s_manifests; a; b; c; d] /\
                     b_manifest_path root links s = Ok (path_append (fp_clean root) [s_manifests; a; b; c; d])) /\
  (* as a name relative path *)
  (m_parse_from_filepath s = m_empty \/
   exists h n m t, fq_parts h n m t /\ m_parse_from_filepath s = MkM h n m t /\ s = intercalate [c_slash] [h; n; m; t]) /\
  (* as a digest: GetBlobsPath *)
  ((exists e, get_blobs_path root s = Err e) \/
   (s = [] /\ get_blobs_path root s = Ok (path_append (fp_clean root) [s_blobs])) \/
   exists file, safe_comp file /\ get_blobs_path root s = Ok (path_append (fp_clean root) [s_blobs; file])) /\
  (* as a digest: blob.ParseDigest + GetFile *)
  ((exists e, b_parse_digest s = Err e) \/
   exists sum, b_parse_digest s = Ok sum /\
               (fp_is_abs root = true -> forall cwd, exists file, safe_comp file /\
                                                                  b_get_file cwd root sum = path_append (fp_clean root) [s_blobs; file])).
Proof.
  intros root s. repeat split.
  - destruct (mp_manifest_path_cases root (mp_parse s)) as [[H _]|[P H]]; [left; eexists; exact H|].
    right. do 4 eexists. split; [exact P|]. split; [|exact H].
    constructor; [exact manifests_safe|apply fq_parts_safe; exact P].
  - destruct (m_filepath_cases (m_parse s)) as [H|[P E]]; [left; exact H|right].
    destruct (m_parse s) as [h n m t]. exists h, n, m, t. split; [exact P|]. split; [reflexivity|exact E].
  - intros links Hl. destruct (b_manifest_path_cases root links s Hl) as [H|(a & b & c & d & Hs & H)]; [left; exact H|].
    right. exists a, b, c, d. split; [constructor; [exact manifests_safe|exact Hs]|exact H].
  - exact (m_parse_from_filepath_cases s).
  - destruct (get_blobs_path_cases root s) as [[H _]|[H|(hexs & _ & Hs & H)]]; [left; eexists; exact H|right; left; exact H|].
    right; right. eexists. split; [exact Hs|exact H].
  - destruct (b_parse_digest s) as [sum|e|] eqn:E; [right|left; eexists; reflexivity|exfalso; exact (b_parse_digest_no_panic s E)].
    exists sum. split; [reflexivity|]. intros Ha cwd.
    destruct (b_get_file_abs cwd root s sum Ha E) as (hexs & _ & Hs & H). eexists. split; [exact Hs|exact H].
Qed.
Print Assumptions C13_reject_or_confined.

Theorem C13_roundtrip_model : forall n, m_is_valid n = true -> m_parse (m_string n) = n.
Proof. exact m_roundtrip. Qed.
Print Assumptions C13_roundtrip_model.

Example C13_roundtrip_model_nonvacuous : m_is_valid (m_parse [104; 58; 56; 47; 110; 47; 109; 58; 116]) = true.
Proof. vm_compute. reflexivity. Qed.

(** package names, with IsValid as repaired by fixes/C13-names-host-without-namespace.patch *)
Theorem C13_roundtrip_names : forall n, n_is_valid n = true -> n_parse (n_string n) = n.
Proof. exact n_roundtrip. Qed.
Print Assumptions C13_roundtrip_names.

Example C13_roundtrip_names_nonvacuous :
  n_is_valid (n_parse [110; 47; 109]) = true /\ n_is_fq (n_parse [110; 47; 109]) = false.   (* "n/m": valid, not fully qualified *)
Proof. vm_compute. split; reflexivity. Qed.

(** the unchanged tree: the full statement is false, exactly for a host without a namespace *)
Definition C13_roundtrip_names_unrepaired_full : Prop :=
  forall n, n_is_valid_unrepaired n = true -> n_parse (n_string n) = n.

Theorem C13_roundtrip_names_unrepaired_refuted : ~ C13_roundtrip_names_unrepaired_full.
Proof. intro H. destruct n_roundtrip_unrepaired_witness as [Hv Hn]. apply Hn, H, Hv. Qed.
Print Assumptions C13_roundtrip_names_unrepaired_refuted.

Theorem C13_roundtrip_names_unrepaired_partial : forall n,
  n_is_valid_unrepaired n = true -> nonempty (nH n) && negb (nonempty (nN n)) = false -> n_parse (n_string n) = n.
Proof. intros n Hv Hg. apply n_roundtrip. rewrite n_is_valid_repair, Hg, Hv. reflexivity. Qed.
Print Assumptions C13_roundtrip_names_unrepaired_partial.

Example C13_roundtrip_names_unrepaired_partial_nonvacuous :
  let n := n_parse [104; 47; 110; 47; 109; 58; 116] in
  n_is_valid_unrepaired n = true /\ nonempty (nH n) && negb (nonempty (nN n)) = false.
Proof. vm_compute. split; reflexivity. Qed.

(** the relative path form: ParseNameFromFilepath(n.Filepath()) = n *)
Theorem C13_roundtrip_relpath : forall h n m t,
  fq_parts h n m t -> m_parse_from_filepath (intercalate [c_slash] [h; n; m; t]) = MkM h n m t.
Proof. exact m_parse_from_filepath_roundtrip. Qed.
Print Assumptions C13_roundtrip_relpath.

(** the extended names of the registry client (scheme://name@digest): accepted means supported scheme and a fully
    qualified name (to which the confinement and round-trip theorems apply) or a digest alone *)
Theorem C13_extended_name : forall mask s scheme n d,
  r_parse_name_extended mask s = Ok (scheme, n, d) ->
  r_supported_scheme scheme = true /\ ((n = n_empty /\ d <> None) \/ n_is_fq n = true).
Proof.
  intros mask s scheme n d. unfold r_parse_name_extended, r_parse_name. destruct (r_split_extended s) as [[sc name] digest].
  destruct (r_supported_scheme (or_str sc s_https)) eqn:Es; cbn [negb]; [|discriminate].
  destruct (nonempty digest).
  - destruct (b_parse_digest digest) as [sum|e|]; try discriminate.
    destruct (nonempty name).
    + destruct (n_is_fq (n_merge (n_parse name) mask)) eqn:Ef; [|discriminate].
      intros [= <- <- <-]. split; [exact Es|right; exact Ef].
    + intros [= <- <- <-]. split; [exact Es|left; split; [reflexivity|discriminate]].
  - destruct (n_is_fq (n_merge (n_parse name) mask)) eqn:Ef; [|discriminate].
    intros [= <- <- <-]. split; [exact Es|right; exact Ef].
Qed.
Print Assumptions C13_extended_name.

Example C13_extended_name_nonvacuous :
  exists n, r_parse_name_extended n_default_mask [104; 116; 116; 112; 58; 47; 47; 104; 47; 110; 47; 109] = Ok (s_http, n, None).   (* "http://h/n/m" *)
Proof. eexists. vm_compute. reflexivity. Qed.

(** names.Parse is total: its loop never exhausts the fuel [S (length s)] of the model *)
Theorem C13_names_parse_total : forall s acc, n_parse_loop (S (length s)) s acc <> None.
Proof. intros s acc. apply n_parse_loop_total. constructor. Qed.
Print Assumptions C13_names_parse_total.

Theorem C13_cross_parser : forall h n m t,
  m_is_fq (MkM h n m t) = n_is_fq (MkN h n m t) /\
  (m_is_fq (MkM h n m t) = true ->
     n_parse (m_string (MkM h n m t)) = MkN h n m t /\ m_parse (n_string (MkN h n m t)) = MkM h n m t).
Proof.
  intros h n m t. split; [apply fq_same|]. intro H. split.
  - rewrite mn_string_same. apply n_roundtrip, n_is_fq_valid. rewrite <- fq_same. exact H.
  - rewrite <- mn_string_same. apply m_roundtrip, H.
Qed.
Print Assumptions C13_cross_parser.

Example C13_cross_parser_nonvacuous : m_is_fq (MkM [104; 58; 56] [110] [109; 46; 49] [116]) = true.
Proof. vm_compute. reflexivity. Qed.

(** isValidPart is exactly [part_ok] (first byte, per-kind byte rule, length), although the loop ranges over runes *)
Theorem C13_valid_part_spec : forall k s, m_valid_part k s = true <-> part_ok k s.
Proof. exact m_valid_part_ok. Qed.
Print Assumptions C13_valid_part_spec.

(** case variants are accepted alike by both packages, and model.Name.EqualFold relates exactly the case variants *)
Theorem C13_casefold_accepted_alike : forall a b,
  cv_m a b -> m_is_valid a = m_is_valid b /\ (m_is_valid b = true -> m_equal_fold a b = true).
Proof. intros a b H. split; [apply cv_m_fq, H|]. intro Hb. apply cv_m_equal_fold; assumption. Qed.
Print Assumptions C13_casefold_accepted_alike.

(** blob cache: two name strings that differ only in letter case are rejected alike, or resolve to the same stored
    link, or (nothing stored under any case variant) to their own not-yet-existing paths *)
Theorem C13_casefold_same_model : forall dir links s1 s2,
  cv s1 s2 ->
  (b_manifest_path dir links s1 = Err EInvalidName /\ b_manifest_path dir links s2 = Err EInvalidName) \/
  (exists l, In l links /\ b_manifest_path dir links s1 = Ok (fp_join [dir; l]) /\
             b_manifest_path dir links s2 = Ok (fp_join [dir; l])) \/
  (exists h1 n1 m1 t1 h2 n2 m2 t2,
      fq_parts h1 n1 m1 t1 /\ fq_parts h2 n2 m2 t2 /\ cv_parts h1 n1 m1 t1 h2 n2 m2 t2 /\
      link_lookup links h1 n1 m1 t1 = None /\ link_lookup links h2 n2 m2 t2 = None /\
      b_manifest_path dir links s1 = Ok (fp_join [dir; intercalate [c_slash] [s_manifests; h1; n1; m1; t1]]) /\
      b_manifest_path dir links s2 = Ok (fp_join [dir; intercalate [c_slash] [s_manifests; h2; n2; m2; t2]])).
Proof.
  intros dir links s1 s2 H. rewrite !b_manifest_path_rel.
  destruct (rel_target_cv links s1 s2 H) as [[E1 E2]|[(l & Hin & E1 & E2)|(h1 & n1 & m1 & t1 & h2 & n2 & m2 & t2 & Q1 & Q2 & Hcv & L1 & L2 & E1 & E2)]];
    rewrite E1, E2; [left; split; reflexivity|right; left|right; right].
  - exists l. split; [exact Hin|split; reflexivity].
  - exists h1, n1, m1, t1, h2, n2, m2, t2. exact (conj Q1 (conj Q2 (conj Hcv (conj L1 (conj L2 (conj eq_refl eq_refl)))))).
Qed.
Print Assumptions C13_casefold_same_model.

Example C13_casefold_same_model_nonvacuous :
  cv [72; 47; 110; 47; 77; 58; 116] [104; 47; 78; 47; 109; 58; 84] /\                                (* "H/n/M:t" ~ "h/N/m:T" *)
  b_manifest_path [47; 99] [[109; 97; 110; 105; 102; 101; 115; 116; 115; 47; 72; 47; 110; 47; 109; 47; 116]] [72; 47; 110; 47; 77; 58; 116]
  = b_manifest_path [47; 99] [[109; 97; 110; 105; 102; 101; 115; 116; 115; 47; 72; 47; 110; 47; 109; 47; 116]] [104; 47; 78; 47; 109; 58; 84].
Proof. split; vm_compute; reflexivity. Qed.

(** names.Parse commutes with case folding *)
Theorem C13_casefold_parse : forall s1 s2,
  cv s1 s2 -> cv_n (n_parse s1) (n_parse s2) /\ n_is_fq (n_parse s1) = n_is_fq (n_parse s2) /\
              n_is_valid (n_parse s1) = n_is_valid (n_parse s2).
Proof. exact cv_n_parse. Qed.
Print Assumptions C13_casefold_parse.

(** model.ParseName on two strings that differ only in letter case: the names are case variants of each other, valid
    alike, and EqualFold when valid *)
Theorem C13_casefold_parse_model : forall s1 s2,
  cv s1 s2 -> cv_m (m_parse s1) (m_parse s2) /\ m_is_valid (m_parse s1) = m_is_valid (m_parse s2) /\
              (m_is_valid (m_parse s2) = true -> m_equal_fold (m_parse s1) (m_parse s2) = true).
Proof. intros s1 s2 H. split; [exact (m_parse_cv s1 s2 H)|exact (C13_casefold_accepted_alike _ _ (m_parse_cv s1 s2 H))]. Qed.
Print Assumptions C13_casefold_parse_model.

(** DisplayShortest (used to hand a name to PullModel/PushModel) prints a string that parses back to a fully
    qualified case variant of the name with the same model and tag *)
Theorem C13_display_shortest : forall h n m t,
  fq_parts h n m t ->
  let n' := m_parse (m_display_shortest (MkM h n m t)) in
  m_is_fq n' = true /\ cv_m n' (MkM h n m t) /\ mM n' = m /\ mT n' = t.
Proof. exact m_display_shortest_parse. Qed.
Print Assumptions C13_display_shortest.

(** as repaired by fixes/C04-getExistingName.patch (owned by C04): the lookup never changes a name into one that is
    not EqualFold to it ... *)
Theorem C13_lookup_equalfold : forall existing n, m_is_fq n = true -> cv_m (get_existing_name existing n) n.
Proof. exact get_existing_cv. Qed.
Print Assumptions C13_lookup_equalfold.

(** ... and case variants of a stored name are canonicalised to one and the same stored name, for every order (and
    multiplicity) in which the map of stored names is visited: [l1], [l2] are any two enumerations of the store *)
Theorem C13_casefold_legacy_lookup : forall l1 l2 n1 n2,
  (forall e, In e l1 <-> In e l2) -> Forall (fun e => m_is_fq e = true) l1 ->
  m_is_fq n1 = true -> cv_m n1 n2 ->
  (exists e, In e l1 /\ m_equal_fold e n1 = true) ->
  let r := get_existing_name l1 n1 in
  r = get_existing_name l2 n2 /\ In r l1 /\ m_equal_fold r n1 = true.
Proof. exact get_existing_same. Qed.
Print Assumptions C13_casefold_legacy_lookup.

Example C13_casefold_legacy_lookup_nonvacuous :
  let a := MkM [104] [110] [77] [116] in let b := MkM [104] [120] [109] [117] in
  get_existing_name [a; b] (MkM [72] [110] [109] [116]) = a /\ get_existing_name [b; a] (MkM [104] [78] [109] [84]) = a.
Proof. vm_compute. split; reflexivity. Qed.

(** the unchanged tree (no patch): a stored name, looked up by its exact spelling, can be rewritten to a name that
    is not stored, depending on the order of the map iteration *)
Definition C13_casefold_legacy_unrepaired_full : Prop :=
  forall existing n, Forall (fun e => m_is_fq e = true) existing -> m_is_fq n = true ->
    (exists e, In e existing /\ m_equal_fold e n = true) -> In (get_existing_name_legacy existing n) existing.

Theorem C13_casefold_legacy_unrepaired_refuted : ~ C13_casefold_legacy_unrepaired_full.
Proof.
  intro H. destruct legacy_witness as (Fa & Fb & _ & Hn & _). apply Hn, H.
  - repeat constructor; assumption.
  - exact Fa.
  - eexists. split; [left; reflexivity|reflexivity].
Qed.
Print Assumptions C13_casefold_legacy_unrepaired_refuted.

(** what does hold on the unchanged tree: if no other stored name spells a matching part differently from the stored
    case variant [estar] (decidable guard [legacy_guard]), the lookup returns [estar], for every order *)
Theorem C13_casefold_legacy_unrepaired_partial : forall existing n estar,
  m_is_fq n = true -> m_is_fq estar = true -> In estar existing -> legacy_guard existing n estar = true ->
  get_existing_name_legacy existing n = estar.
Proof. exact legacy_partial. Qed.
Print Assumptions C13_casefold_legacy_unrepaired_partial.

Example C13_casefold_legacy_unrepaired_partial_nonvacuous :
  let a := MkM [104] [110] [77] [116] in let b := MkM [104] [120] [122] [117] in
  legacy_guard [a; b] (MkM [72] [110] [109] [116]) a = true /\ m_is_fq a = true.
Proof. vm_compute. split; reflexivity. Qed.

(** one long-lived blob.DiskCache whose models directory is also written by others (legacy store code, other
    processes).  [cstate] is the set of manifest files on disk in c.links() order; at every state - hence after every
    history of Link / Resolve / Unlink and foreign Plant / Remove - Resolve answers alike for all case variants *)
Theorem C13_cache_history_casefold : forall (ops : list cop) s1 s2,
  cv s1 s2 -> snd (c_step (c_run [] ops) (CResolve s1)) = snd (c_step (c_run [] ops) (CResolve s2)).
Proof. intros ops s1 s2. apply c_resolve_cv. Qed.
Print Assumptions C13_cache_history_casefold.

(** after Link(s1, d) on any state, Resolve of every case variant of s1 yields d *)
Theorem C13_cache_link_then_resolve : forall st s1 s2 d l,
  cv s1 s2 -> c_target st s1 = Ok l -> snd (c_step (fst (c_step st (CLink s1 d))) (CResolve s2)) = (0, d).
Proof. exact c_link_resolve. Qed.
Print Assumptions C13_cache_link_then_resolve.

Example C13_cache_link_then_resolve_nonvacuous :
  exists l, c_target [([109; 97; 110; 105; 102; 101; 115; 116; 115; 47; 72; 47; 110; 47; 109; 47; 116], 5)] [104; 47; 110; 47; 109; 58; 116] = Ok l.
Proof. eexists. vm_compute. reflexivity. Qed.

(** the cache's own operations never write a second manifest that differs only in letter case *)
Theorem C13_cache_history_no_twin : forall ops st,
  forallb is_cache_op ops = true -> no_twin (paths st) -> no_twin (paths (c_run st ops)).
Proof. exact c_run_no_twin. Qed.
Print Assumptions C13_cache_history_no_twin.

Example C13_cache_history_no_twin_nonvacuous : no_twin (paths []) /\ forallb is_cache_op [CLink [104; 47; 110; 47; 109; 58; 116] 1; CResolve [72; 47; 110; 47; 109; 58; 116]] = true.
Proof. split; [intros p q []|reflexivity]. Qed.

(** the legacy handlers (show, delete, copy, create-from): every history keeps the store valid and free of names that
    differ only in case ... *)
Theorem C13_handlers_history : forall ops st, h_inv st -> h_inv (h_run st ops).
Proof. exact h_run_inv. Qed.
Print Assumptions C13_handlers_history.

Example C13_handlers_history_nonvacuous : h_inv [(MkM [104] [110] [77] [116], 1)].
Proof.
  split; [repeat constructor|]. intros a b [<-|[]] [<-|[]] _. reflexivity.
Qed.

(** ... and in such a store a request that spells a stored name in any letter case addresses exactly that model *)
Theorem C13_handlers_address : forall st s1 s2,
  h_inv st -> In (m_parse s1) (names st) -> cv s1 s2 ->
  h_step st (HShow s2) = h_step st (HShow s1) /\ h_step st (HDelete s2) = h_step st (HDelete s1) /\
  exists d, h_step st (HShow s1) = (st, (true, d)).
Proof. exact h_show_cv. Qed.
Print Assumptions C13_handlers_address.

(** whatever strings a stored manifest holds as layer / config digests, the files that deleteUnusedLayers, Layer.Remove
    and PruneLayers can remove are the blobs directory entry <root>/blobs/<file> (or, for the empty string, the blobs
    directory itself, which os.Remove leaves alone unless it is empty); a non-empty string outside the grammar names no file *)
Theorem C13_cleanup_confined : forall root refs ds d p,
  (In p (cleanup_targets root ds) \/ In p (layer_remove_targets root refs d) \/ In p (delete_unused_targets root refs ds)) ->
  p = path_append (fp_clean root) [s_blobs] \/
  exists file, safe_comp file /\ p = path_append (fp_clean root) [s_blobs; file].
Proof.
  intros root refs ds d p [H|[H|H]];
    [exact (cleanup_targets_confined root ds p H)|exact (layer_remove_confined root refs d p H)|exact (delete_unused_confined root refs ds p H)].
Qed.
Print Assumptions C13_cleanup_confined.

Theorem C13_cleanup_rejects : forall root d, d <> [] -> digest_re_match d = false -> cleanup_targets root [d] = [].
Proof. exact cleanup_rejects. Qed.
Print Assumptions C13_cleanup_rejects.

Example C13_cleanup_rejects_nonvacuous :
  digest_re_match [46; 46; 47; 105; 100] = false /\ cleanup_targets [47; 109] [[46; 46; 47; 105; 100]] = [].   (* "../id" *)
Proof. vm_compute. split; reflexivity. Qed.

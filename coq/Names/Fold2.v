(** C13 - model.ParseName on strings that differ only in letter case: the parsed names are case variants of each
    other (hence valid alike and EqualFold).  ParseNameBare does not literally commute with folding (the "!MISSING!"
    marker is inserted unfolded), so the statement is relational: [rel a a'] = "a' is a, or a' is a folded". *)
From Coq Require Import List NArith ZArith Bool Arith Lia ZifyBool ZifyNat ZifyN.
From V Require Import Common.Bytes Names.Path Names.Model Names.PathProofs Names.Proofs Names.Confine Names.Fold.
Import ListNotations.
Open Scope N_scope.

Definition rel (a a' : str) : Prop := a' = fold_str a \/ a' = a.

Lemma rel_cv a a' : rel a a' -> cv a' a.
Proof. intros [-> | ->]; [apply cv_fold|apply cv_refl]. Qed.

Lemma rel_refl a : rel a a.
Proof. right; reflexivity. Qed.

Lemma rel_length a a' : rel a a' -> length a' = length a.
Proof. intros [-> | ->]; [apply map_length|reflexivity]. Qed.

Lemma cut_last_fold c s :
  (forall x, N.eqb c (fold_byte x) = N.eqb c x) ->
  cut_last c (fold_str s) = let '(b, a, ok) := cut_last c s in (fold_str b, fold_str a, ok).
Proof.
  intro Hc. unfold cut_last. rewrite (cut_last_by_fold (N.eqb c) s Hc).
  destruct (cut_last_by (N.eqb c) s) as [[[b d] a]|]; reflexivity.
Qed.

Lemma last_index_fold c s : (forall x, N.eqb c (fold_byte x) = N.eqb c x) -> last_index c (fold_str s) = last_index c s.
Proof.
  intro Hc. unfold last_index. rewrite (cut_last_by_fold (N.eqb c) s Hc).
  destruct (cut_last_by (N.eqb c) s) as [[[b d] a]|]; [|reflexivity]. unfold fold_str. rewrite map_length. reflexivity.
Qed.

Lemma or_str_rel b : rel (or_str b s_missing) (or_str (fold_str b) s_missing).
Proof. destruct b as [|x r]; [right; reflexivity|left; reflexivity]. Qed.

Lemma cut_promised_rel c s s' :
  (forall x, N.eqb c (fold_byte x) = N.eqb c x) -> rel s s' ->
  let '(b, a, ok) := cut_promised c s in
  let '(b', a', ok') := cut_promised c s' in
  rel b b' /\ rel a a' /\ ok' = ok.
Proof.
  intros Hc [-> | ->].
  - unfold cut_promised. rewrite (cut_last_fold c s Hc). destruct (cut_last c s) as [[b a] ok].
    destruct ok.
    + repeat split; apply or_str_rel.
    + repeat split; left; reflexivity.
  - destruct (cut_promised c s) as [[b a] ok]. repeat split; apply rel_refl.
Qed.

Definition no_letter (p : str) : Prop := Forall (fun x => is_upper x = false /\ is_lower x = false) p.

Lemma prefixb_fold p s : no_letter p -> prefixb p (fold_str s) = prefixb p s.
Proof.
  intro Hp. revert s. induction Hp as [|x p [H1 H2] _ IH]; intros [|c s]; cbn [fold_str map prefixb]; try reflexivity.
  rewrite fold_byte_eqb_l by assumption. apply f_equal, IH.
Qed.

Lemma index_from_fold p i s : no_letter p -> index_from i (fold_str s) p = index_from i s p.
Proof.
  intro Hp. revert i; induction s as [|x s IH]; intro i; [reflexivity|].
  change (fold_str (x :: s)) with (fold_byte x :: fold_str s). cbn [index_from].
  change (fold_byte x :: fold_str s) with (fold_str (x :: s)). rewrite (prefixb_fold p _ Hp).
  destruct (prefixb p (x :: s)); [reflexivity|apply IH].
Qed.

Lemma host_rel s s' :
  rel s s' ->
  rel (match cut_sub s_scheme_sep s with Some (_, after) => after | None => s end)
      (match cut_sub s_scheme_sep s' with Some (_, after) => after | None => s' end).
Proof.
  intros [-> | ->]; [|apply rel_refl]. unfold cut_sub, index_of. rewrite index_from_fold by (repeat constructor).
  destruct (index_from 0 s s_scheme_sep) as [i|]; [|left; reflexivity].
  left. unfold fold_str. rewrite skipn_map. reflexivity.
Qed.

Definition rel_m (a a' : mname) : Prop := rel (mH a) (mH a') /\ rel (mN a) (mN a') /\ rel (mM a) (mM a') /\ rel (mT a) (mT a').

Lemma m_parse_front_rel s1 s1' t t' : rel s1 s1' -> rel t t' -> rel_m (m_parse_front s1 t) (m_parse_front s1' t').
Proof.
  intros R1 Rt. unfold m_parse_front.
  pose proof (cut_promised_rel c_slash s1 s1' fold_eqb_slash R1) as H2.
  destruct (cut_promised c_slash s1) as [[s2 mdl] p1]. destruct (cut_promised c_slash s1') as [[s2' mdl'] p1'].
  destruct H2 as (R2 & Rm & ->).
  destruct p1; cbn [negb]; [|repeat split; cbn [mH mN mM mT]; try apply rel_refl; assumption].
  pose proof (cut_promised_rel c_slash s2 s2' fold_eqb_slash R2) as H3.
  destruct (cut_promised c_slash s2) as [[s3 ns] p2]. destruct (cut_promised c_slash s2') as [[s3' ns'] p2'].
  destruct H3 as (R3 & Rn & ->).
  destruct p2; cbn [negb]; [|repeat split; cbn [mH mN mM mT]; try apply rel_refl; assumption].
  repeat split; cbn [mH mN mM mT]; try assumption. apply host_rel. exact R3.
Qed.

Lemma m_parse_bare_rel s : rel_m (m_parse_bare s) (m_parse_bare (fold_str s)).
Proof.
  rewrite !m_parse_bare_eq, (last_index_fold c_colon s fold_eqb_colon), (last_index_fold c_slash s fold_eqb_slash).
  destruct (last_index c_colon s >? last_index c_slash s)%Z.
  - pose proof (cut_promised_rel c_colon s (fold_str s) fold_eqb_colon (or_introl eq_refl)) as H.
    destruct (cut_promised c_colon s) as [[b a] ok]. destruct (cut_promised c_colon (fold_str s)) as [[b' a'] ok'].
    destruct H as (Hb & Ha & _). apply m_parse_front_rel; assumption.
  - apply m_parse_front_rel; [left; reflexivity|apply rel_refl].
Qed.

Lemma or_str_cv a a' b : cv a' a -> cv (or_str a' b) (or_str a b).
Proof.
  intro H. pose proof (cv_length _ _ H) as Hl. destruct a, a'; cbn in Hl; try discriminate; [apply cv_refl|exact H].
Qed.

Lemma m_parse_cv s1 s2 : cv s1 s2 -> cv_m (m_parse s1) (m_parse s2).
Proof.
  intro H.
  assert (Hb : forall s, cv_m (m_parse (fold_str s)) (m_parse s)).
  { intro s. destruct (m_parse_bare_rel s) as (R1 & R2 & R3 & R4). unfold m_parse, m_merge. cbn [mH mN mM mT].
    repeat split; cbn [mH mN mM mT]; try apply or_str_cv; apply rel_cv; assumption. }
  assert (E : m_parse (fold_str s1) = m_parse (fold_str s2)) by (unfold cv in H; rewrite H; reflexivity).
  destruct (Hb s1) as (A1 & A2 & A3 & A4). destruct (Hb s2) as (B1 & B2 & B3 & B4). rewrite E in A1, A2, A3, A4.
  unfold cv in *. repeat split; congruence.
Qed.

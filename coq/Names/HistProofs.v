(** C13 - histories: at every point of every history, case variants of a name address the same manifest; neither
    the blob cache nor the legacy handlers ever write a second manifest that differs only in letter case. *)
From Coq Require Import List NArith ZArith Bool Arith Lia ZifyBool ZifyNat ZifyN.
From V Require Import Common.Bytes Names.Path Names.Model Names.PathProofs Names.Proofs Names.Confine Names.Fold Names.Fold2
  Names.Existing Names.Hist.
Import ListNotations.
Open Scope N_scope.

Definition paths (st : cstate) : list str := map fst st.

Lemma c_target_rel st name : c_target st name = rel_target (paths st) name.
Proof. unfold c_target, rel_target, paths. destruct (b_name_to_path name); [cbv zeta; destruct (find _ _)|..]; reflexivity. Qed.

Lemma maybe_ascii h n m t : fq_parts h n m t -> Forall (fun c => c < 128) (intercalate [c_slash] [s_manifests; h; n; m; t]).
Proof.
  intros (Hh & Hn & Hm & Ht). cbn [intercalate].
  repeat (apply Forall_app; split); try (repeat constructor; fail);
    try exact (part_ok_ascii _ _ manifests_ok); eapply part_ok_ascii; eassumption.
Qed.

Lemma efa_refl a : Forall (fun c => c < 128) a -> equal_fold_au a a = true.
Proof. intro H. apply (equal_fold_au_ascii a a H). apply cv_refl. Qed.

Lemma lookup_none_paths links h n m t :
  fq_parts h n m t -> link_lookup links h n m t = None ->
  forall p, In p links -> ~ cv (intercalate [c_slash] [s_manifests; h; n; m; t]) p.
Proof.
  intros Hfq Hl p Hin Hcv. unfold link_lookup in Hl.
  pose proof (find_none _ _ Hl p Hin) as Hf. cbv beta in Hf.
  pose proof (maybe_ascii _ _ _ _ Hfq) as Ha.
  rewrite (proj2 (equal_fold_au_ascii _ p (cv_ascii _ _ Ha Hcv)) Hcv) in Hf. discriminate.
Qed.

Lemma lookup_path_none p st : ~ In p (paths st) -> lookup_path p st = None.
Proof.
  induction st as [|[q e] r IH]; intro H; cbn; [reflexivity|].
  destruct (eqb_str p q) eqn:E; [apply eqb_str_spec in E; subst; exfalso; apply H; left; reflexivity|].
  apply IH. intro Hin. apply H. right. exact Hin.
Qed.

Lemma lookup_path_some p st : In p (paths st) -> exists d, lookup_path p st = Some d.
Proof.
  induction st as [|[q e] r IH]; intro H; cbn in *; [contradiction|].
  destruct (eqb_str p q) eqn:E; [eexists; reflexivity|].
  destruct H as [H|H]; [subst; rewrite eqb_str_refl in E; discriminate|apply IH; exact H].
Qed.

Lemma c_target_cv st s1 s2 :
  cv s1 s2 ->
  (c_target st s1 = Err EInvalidName /\ c_target st s2 = Err EInvalidName) \/
  (exists l, In l (paths st) /\ c_target st s1 = Ok l /\ c_target st s2 = Ok l) \/
  (exists l1 l2, c_target st s1 = Ok l1 /\ c_target st s2 = Ok l2 /\
                 (forall p, In p (paths st) -> ~ cv l1 p) /\ (forall p, In p (paths st) -> ~ cv l2 p)).
Proof.
  intro H. rewrite !c_target_rel.
  destruct (rel_target_cv (paths st) s1 s2 H) as [E|[E|(h1 & n1 & m1 & t1 & h2 & n2 & m2 & t2 & Q1 & Q2 & _ & L1 & L2 & E1 & E2)]];
    [left; exact E|right; left; exact E|right; right].
  do 2 eexists. split; [exact E1|]. split; [exact E2|]. split; apply lookup_none_paths; assumption.
Qed.

Lemma c_target_cv_in st s1 s2 l : cv s1 s2 -> c_target st s1 = Ok l -> In l (paths st) -> c_target st s2 = Ok l.
Proof.
  intros H E Hin. destruct (c_target_cv st s1 s2 H) as [[E1 _]|[(l' & _ & E1 & E2)|(l1 & l2 & E1 & _ & N1 & _)]];
    rewrite E in E1; [discriminate|injection E1 as ->; exact E2|injection E1 as <-].
  destruct (N1 l Hin (cv_refl l)).
Qed.

Lemma c_resolve_cv st s1 s2 : cv s1 s2 -> snd (c_step st (CResolve s1)) = snd (c_step st (CResolve s2)).
Proof.
  intro H. cbn [c_step].
  destruct (c_target_cv st s1 s2 H) as [[-> ->]|[(l & _ & -> & ->)|(l1 & l2 & -> & -> & N1 & N2)]]; try reflexivity.
  rewrite (lookup_path_none l1 st), (lookup_path_none l2 st); [reflexivity|..]; intro Hin; [exact (N2 _ Hin (cv_refl _))|exact (N1 _ Hin (cv_refl _))].
Qed.

Lemma has_path_spec p st : has_path p st = true <-> In p (paths st).
Proof.
  unfold has_path, paths. rewrite existsb_exists. split.
  - intros ([q e] & Hin & He). apply eqb_str_spec in He. cbn in He. subst. apply in_map_iff. exists (q, e). split; [reflexivity|exact Hin].
  - intro H. apply in_map_iff in H as ([q e] & <- & Hin). exists (q, e). split; [exact Hin|apply eqb_str_refl].
Qed.

Lemma paths_insert p d st x : In x (paths (insert_path p d st)) <-> x = p \/ In x (paths st).
Proof.
  assert (Hc : forall q l, In x (q :: l) <-> x = q \/ In x l) by (intros; cbn; split; intros [H|H]; auto).
  induction st as [|[q e] r IH]; cbn [insert_path]; [apply Hc|]. destruct (path_ltb p q); [apply Hc|].
  change (q = x \/ In x (paths (insert_path p d r)) <-> x = p \/ q = x \/ In x (paths r)). split.
  - intros [H|H]; [right; left; exact H|]. apply IH in H as [H|H]; [left|right; right]; exact H.
  - intros [H|[H|H]]; [right; apply IH; left; exact H|left; exact H|right; apply IH; right; exact H].
Qed.

Lemma paths_upsert_in p d st : In p (paths st) -> paths (upsert p d st) = paths st.
Proof.
  intro H. unfold upsert. rewrite (proj2 (has_path_spec p st) H). unfold paths. rewrite map_map.
  apply map_ext. intros [q e]. cbn. destruct (eqb_str p q); reflexivity.
Qed.

Lemma paths_upsert p d st x : In x (paths (upsert p d st)) <-> x = p \/ In x (paths st).
Proof.
  destruct (has_path p st) eqn:E.
  - apply has_path_spec in E. rewrite (paths_upsert_in p d st E). split; [intro; right; assumption|intros [->|H]; assumption].
  - unfold upsert. rewrite E. apply paths_insert.
Qed.

Lemma lookup_insert p d st : ~ In p (paths st) -> lookup_path p (insert_path p d st) = Some d.
Proof.
  induction st as [|[q e] r IH]; intro H; cbn; [rewrite eqb_str_refl; reflexivity|].
  destruct (path_ltb p q); cbn; [rewrite eqb_str_refl; reflexivity|].
  destruct (eqb_str p q) eqn:E; [apply eqb_str_spec in E; subst; exfalso; apply H; left; reflexivity|].
  apply IH. intro Hin. apply H. right. exact Hin.
Qed.

Lemma lookup_upsert p d st : lookup_path p (upsert p d st) = Some d.
Proof.
  destruct (has_path p st) eqn:E; unfold upsert; rewrite E.
  - apply has_path_spec in E. induction st as [|[q e] r IH]; cbn in *; [contradiction|].
    destruct (eqb_str p q) eqn:Eq; cbn; rewrite Eq; [reflexivity|].
    apply IH. destruct E as [E|E]; [subst; rewrite eqb_str_refl in Eq; discriminate|exact E].
  - apply lookup_insert. intro H. apply has_path_spec in H. congruence.
Qed.

(** a stored path keeps its place in the listing; a new path is the only stored one that matches *)
Lemma find_upsert (f : str -> bool) mb st l d :
  match find f (paths st) with Some x => x | None => mb end = l ->
  match find f (paths (upsert l d st)) with Some x => x | None => mb end = l.
Proof.
  destruct (find f (paths st)) as [x|] eqn:E; intros <-.
  - destruct (find_some _ _ E) as [Hin _]. rewrite (paths_upsert_in x d st Hin), E. reflexivity.
  - destruct (find f (paths (upsert mb d st))) as [x|] eqn:Ex; [|reflexivity].
    apply find_some in Ex as [Hin Hf]. apply paths_upsert in Hin as [->|Hin]; [reflexivity|].
    rewrite (find_none _ _ E _ Hin) in Hf. discriminate.
Qed.

Lemma c_target_upsert st s l d : c_target st s = Ok l -> c_target (upsert l d st) s = Ok l.
Proof.
  rewrite !c_target_rel. destruct (rel_target_cases (paths st) s) as [[_ E]|(h & n & m & t & Hp & Hfq & E)]; rewrite E; [discriminate|].
  rewrite (rel_target_ok _ s h n m t Hp Hfq). intros [= H]. f_equal. apply find_upsert, H.
Qed.

Lemma c_link_resolve st s1 s2 d l :
  cv s1 s2 -> c_target st s1 = Ok l ->
  snd (c_step (fst (c_step st (CLink s1 d))) (CResolve s2)) = (0, d).
Proof.
  intros Hcv Ht. cbn [c_step]. rewrite Ht. cbn [fst].
  assert (Hin : In l (paths (upsert l d st))) by (apply paths_upsert; left; reflexivity).
  rewrite (c_target_cv_in _ s1 s2 l Hcv (c_target_upsert st s1 l d Ht) Hin), lookup_upsert. reflexivity.
Qed.

Definition no_twin (ps : list str) : Prop := forall p q, In p ps -> In q ps -> cv p q -> p = q.

Lemma paths_remove p st x : In x (paths (remove_path p st)) -> In x (paths st).
Proof.
  induction st as [|[q e] r IH]; cbn; [tauto|]. destruct (eqb_str p q); cbn; [intro H; right; apply IH; exact H|].
  intros [H|H]; [left; exact H|right; apply IH; exact H].
Qed.

Lemma c_step_no_twin st op : is_cache_op op = true -> no_twin (paths st) -> no_twin (paths (fst (c_step st op))).
Proof.
  intros Hop Hn. destruct op as [name d|name|name|p d|p]; try discriminate Hop; cbn [c_step].
  - (* Link: the name against itself gives the three cases invalid / stored link / new path without a stored case variant *)
    destruct (c_target_cv st name name (cv_refl _)) as [[E _]|[(l & Hin & E & _)|(l1 & l2 & E & _ & Nall & _)]]; rewrite E; cbn [fst].
    + exact Hn.
    + rewrite (paths_upsert_in l d st Hin). exact Hn.
    + intros p q Hp Hq Hcv. apply paths_upsert in Hp, Hq.
      destruct Hp as [->|Hp], Hq as [->|Hq]; [reflexivity| | |apply Hn; assumption].
      * exfalso. exact (Nall q Hq Hcv).
      * exfalso. exact (Nall p Hp (cv_sym _ _ Hcv)).
  - destruct (c_target st name); [destruct (lookup_path a st)|..]; exact Hn.
  - destruct (c_target st name) as [l| |]; [|exact Hn|exact Hn].
    destruct (lookup_path l st); [|exact Hn]. cbn [fst].
    intros p q Hp Hq. apply Hn; eapply paths_remove; eassumption.
Qed.

Lemma c_run_no_twin ops st : forallb is_cache_op ops = true -> no_twin (paths st) -> no_twin (paths (c_run st ops)).
Proof.
  revert st; induction ops as [|op r IH]; intros st Ho Hn; cbn [c_run]; [exact Hn|].
  cbn [forallb] in Ho. apply andb_true_iff in Ho as [H1 H2]. apply IH; [exact H2|]. apply c_step_no_twin; assumption.
Qed.

Definition names (st : hstate) : list mname := map fst st.
Definition h_inv (st : hstate) : Prop :=
  Forall (fun e => m_is_fq e = true) (names st) /\ (forall a b, In a (names st) -> In b (names st) -> cv_m a b -> a = b).

Lemma h_canon_spec st s c :
  h_canon st s = Some c -> m_is_fq c = true /\ (In c (names st) \/ forall e, In e (names st) -> ~ cv_m e c).
Proof.
  unfold h_canon. cbv zeta. unfold m_is_valid. destruct (m_is_fq (m_parse s)) eqn:Ev; [|discriminate].
  intros [= <-]. fold (names st). set (n := m_parse s) in *.
  pose proof (get_existing_cv (names st) n Ev) as Hcv.
  split; [rewrite (cv_m_fq _ _ Hcv); exact Ev|].
  destruct (existsb (fun e => m_equal_fold e n) (names st)) eqn:Ex.
  - left. apply existsb_exists in Ex as (e & Hin & He).
    destruct (get_existing_full (names st) n) as (R & _ & _); [exists e; split; assumption|exact R].
  - right. intros e Hin Hce.
    assert (m_equal_fold e n = true) by (apply cv_m_equal_fold; [exact Ev|eapply cv_m_trans; eassumption]).
    assert (existsb (fun e => m_equal_fold e n) (names st) = true) by (apply existsb_exists; exists e; split; assumption).
    congruence.
Qed.

Lemma names_h_set n d st : names (h_set n d st) = names st \/ (~ In n (names st) /\ names (h_set n d st) = names st ++ [n]).
Proof.
  induction st as [|[e x] r IH]; cbn; [right; split; [tauto|reflexivity]|].
  destruct (m_eqb n e) eqn:E; cbn; [left; reflexivity|].
  destruct IH as [IH|[IH1 IH2]]; [left; unfold names in *; rewrite IH; reflexivity|].
  right. split.
  - intros [H|H]; [subst; rewrite (proj2 (m_eqb_spec n n) eq_refl) in E; discriminate|contradiction].
  - unfold names in *. rewrite IH2. reflexivity.
Qed.

Lemma names_h_remove n st x : In x (names (h_remove n st)) -> In x (names st).
Proof.
  induction st as [|[e d] r IH]; cbn; [tauto|]. destruct (m_eqb n e); cbn; [intro H; right; apply IH; exact H|].
  intros [H|H]; [left; exact H|right; apply IH; exact H].
Qed.

Lemma h_inv_set st c d :
  h_inv st -> m_is_fq c = true -> (In c (names st) \/ forall e, In e (names st) -> ~ cv_m e c) -> h_inv (h_set c d st).
Proof.
  intros [Hv Hn] Hc Hor. destruct (names_h_set c d st) as [E|[Hni E]]; unfold h_inv; rewrite E; [split; assumption|].
  destruct Hor as [Hin|Hno]; [contradiction|]. split.
  - apply Forall_app. split; [exact Hv|constructor; [exact Hc|constructor]].
  - intros a b Ha Hb Hcv. apply in_app_or in Ha, Hb.
    destruct Ha as [Ha|[<-|[]]], Hb as [Hb|[<-|[]]]; [apply Hn; assumption| | |reflexivity].
    + exfalso. exact (Hno a Ha Hcv).
    + exfalso. exact (Hno b Hb (cv_m_sym _ _ Hcv)).
Qed.

Lemma h_inv_remove st c : h_inv st -> h_inv (h_remove c st).
Proof.
  intros [Hv Hn]. split.
  - apply Forall_forall. intros x Hx. rewrite Forall_forall in Hv. apply Hv. eapply names_h_remove; eassumption.
  - intros a b Ha Hb. apply Hn; eapply names_h_remove; eassumption.
Qed.

Lemma h_step_inv st op : h_inv st -> h_inv (fst (h_step st op)).
Proof.
  intro Hi. destruct op as [s|s|src dst|name from d|]; cbn [h_step].
  - destruct (h_canon st s); [destruct (h_lookup m st)|]; exact Hi.
  - destruct (h_canon st s) as [c|]; [|exact Hi]. destruct (h_lookup c st); [|exact Hi]. apply h_inv_remove. exact Hi.
  - destruct (h_canon st src) as [s|] eqn:Es; [|exact Hi]. destruct (h_canon st dst) as [d|] eqn:Ed; [|exact Hi].
    destruct (m_eqb s d); [exact Hi|]. destruct (h_lookup s st); [|exact Hi]. cbn [fst].
    destruct (h_canon_spec st dst d Ed) as (Fd & Hor). apply h_inv_set; assumption.
  - destruct (h_canon st name) as [c|] eqn:Ec; [|exact Hi]. cbv zeta.
    destruct (m_is_valid (m_parse from)); [|exact Hi]. destruct (h_lookup (m_parse from) st); [|exact Hi]. cbn [fst].
    destruct (h_canon_spec st name c Ec) as (Fc & Hor). apply h_inv_set; assumption.
  - exact Hi.
Qed.

Lemma h_run_inv ops st : h_inv st -> h_inv (h_run st ops).
Proof. revert st; induction ops as [|op r IH]; intros st H; cbn [h_run]; [exact H|]. apply IH, h_step_inv, H. Qed.

Lemma h_canon_addresses st s e :
  h_inv st -> In e (names st) -> m_is_valid (m_parse s) = true -> cv_m e (m_parse s) -> h_canon st s = Some e.
Proof.
  intros [Hv Hn] Hin Hval Hcv. unfold h_canon. cbv zeta. rewrite Hval. f_equal. fold (names st).
  unfold m_is_valid in Hval.
  assert (He : m_equal_fold e (m_parse s) = true) by (apply cv_m_equal_fold; assumption).
  destruct (get_existing_full (names st) (m_parse s)) as (R & Rf & _); [exists e; split; assumption|].
  apply Hn; [exact R|exact Hin|].
  eapply cv_m_trans; [apply (cv_m_equal_fold _ _ Hval); exact Rf|apply cv_m_sym; exact Hcv].
Qed.

Lemma h_lookup_in e st : In e (names st) -> exists d, h_lookup e st = Some d.
Proof.
  induction st as [|[x d] r IH]; cbn; [tauto|]. destruct (m_eqb e x) eqn:E; [eexists; reflexivity|].
  intros [H|H]; [subst; rewrite (proj2 (m_eqb_spec e e) eq_refl) in E; discriminate|apply IH; exact H].
Qed.

Lemma h_show_cv st s1 s2 :
  h_inv st -> In (m_parse s1) (names st) -> cv s1 s2 ->
  h_step st (HShow s2) = h_step st (HShow s1) /\ h_step st (HDelete s2) = h_step st (HDelete s1) /\
  exists d, h_step st (HShow s1) = (st, (true, d)).
Proof.
  intros Hi Hin Hcv. pose proof Hi as [Hv _].
  assert (F1 : m_is_valid (m_parse s1) = true) by (rewrite Forall_forall in Hv; apply Hv; exact Hin).
  assert (C : cv_m (m_parse s1) (m_parse s2)) by (apply m_parse_cv; exact Hcv).
  assert (F2 : m_is_valid (m_parse s2) = true) by (unfold m_is_valid in *; rewrite <- (cv_m_fq _ _ C); exact F1).
  assert (E1 : h_canon st s1 = Some (m_parse s1)) by (apply h_canon_addresses; try assumption; repeat split; apply cv_refl).
  assert (E2 : h_canon st s2 = Some (m_parse s1)) by (apply h_canon_addresses; assumption).
  cbn [h_step]. rewrite E1, E2. destruct (h_lookup_in _ _ Hin) as [d Hd]. rewrite Hd.
  split; [reflexivity|]. split; [reflexivity|]. exists d. reflexivity.
Qed.

Lemma cleanup_targets_confined root ds p :
  In p (cleanup_targets root ds) ->
  p = path_append (fp_clean root) [s_blobs] \/
  exists file, safe_comp file /\ p = path_append (fp_clean root) [s_blobs; file].
Proof.
  unfold cleanup_targets. intro H. apply in_flat_map in H as (d & _ & Hp).
  destruct (get_blobs_path_cases root d) as [[E _]|[[_ E]|(hexs & _ & Hs & E)]]; rewrite E in Hp.
  - destruct Hp.
  - destruct Hp as [<-|[]]. left. reflexivity.
  - destruct Hp as [<-|[]]. right. eexists. split; [exact Hs|reflexivity].
Qed.

Lemma cleanup_targets_incl root a b : incl a b -> incl (cleanup_targets root a) (cleanup_targets root b).
Proof.
  intros Hi p Hp. unfold cleanup_targets in *. apply in_flat_map in Hp as (d & Hd & Hp). apply in_flat_map. exists d. split; [apply Hi; exact Hd|exact Hp].
Qed.

Lemma layer_remove_confined root refs d p :
  In p (layer_remove_targets root refs d) ->
  p = path_append (fp_clean root) [s_blobs] \/ exists file, safe_comp file /\ p = path_append (fp_clean root) [s_blobs; file].
Proof.
  unfold layer_remove_targets. destruct (nonempty d && negb (referenced refs d)); [apply cleanup_targets_confined|intros []].
Qed.

Lemma delete_unused_confined root refs dm p :
  In p (delete_unused_targets root refs dm) ->
  p = path_append (fp_clean root) [s_blobs] \/ exists file, safe_comp file /\ p = path_append (fp_clean root) [s_blobs; file].
Proof. apply cleanup_targets_confined. Qed.

Lemma cleanup_rejects root d : d <> [] -> digest_re_match d = false -> cleanup_targets root [d] = [].
Proof.
  intros Hne Hm. unfold cleanup_targets. cbn [flat_map]. unfold get_blobs_path.
  destruct d; [congruence|]. cbn [nonempty andb]. rewrite Hm. reflexivity.
Qed.

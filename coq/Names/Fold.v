(** C13 - letter case: names that differ only in letter case are accepted alike, are EqualFold, and resolve to the
    same manifest in the blob cache; DisplayShortest prints a name that parses back to a case variant of it. *)
From Coq Require Import List NArith ZArith Bool Arith Lia ZifyBool ZifyNat ZifyN.
From V Require Import Common.Bytes Names.Path Names.Model Names.PathProofs Names.Proofs Names.Confine.
Import ListNotations.
Open Scope N_scope.

Definition fold_str (s : str) : str := map fold_byte s.
(** [cv a b]: the byte strings differ only in the case of ASCII letters *)
Definition cv (a b : str) : Prop := fold_str a = fold_str b.

Lemma cv_refl a : cv a a.
Proof. reflexivity. Qed.
Lemma cv_sym a b : cv a b -> cv b a.
Proof. unfold cv. congruence. Qed.
Lemma cv_length a b : cv a b -> length a = length b.
Proof. unfold cv, fold_str. intro H. apply (f_equal (@length N)) in H. rewrite !map_length in H. exact H. Qed.
Lemma cv_app a1 a2 b1 b2 : cv a1 a2 -> cv b1 b2 -> cv (a1 ++ b1) (a2 ++ b2).
Proof. unfold cv, fold_str. intros H1 H2. rewrite !map_app. congruence. Qed.
Lemma cv_cons c a b : cv a b -> cv (c :: a) (c :: b).
Proof. unfold cv, fold_str. cbn. congruence. Qed.

Lemma cv_fold a : cv (fold_str a) a.
Proof. unfold cv, fold_str. rewrite map_map. apply map_ext. intro; apply fold_idem. Qed.

Lemma fold_str_ascii s : Forall (fun c => c < 128) (fold_str s) <-> Forall (fun c => c < 128) s.
Proof.
  unfold fold_str. rewrite Forall_map. split; apply Forall_impl; intro c; rewrite <- !N.ltb_lt, fold_ascii; trivial.
Qed.

Lemma cv_ascii a p : Forall (fun c => c < 128) a -> cv a p -> Forall (fun c => c < 128) p.
Proof. unfold cv. intros Ha H. apply fold_str_ascii. rewrite <- H. apply fold_str_ascii, Ha. Qed.

Lemma equal_fold_au_congr a1 a2 u : cv a1 a2 -> equal_fold_au a1 u = equal_fold_au a2 u.
Proof.
  revert a2 u; induction a1 as [|c1 a1 IH]; intros [|c2 a2] u H; try discriminate; [reflexivity|].
  injection H as Hc Hr. destruct u as [|d u']; [reflexivity|].
  cbn [equal_fold_au]. unfold ascii_fold_eq. rewrite Hc.
  rewrite (IH a2 (tl (d :: u')) Hr), (IH a2 (skipn 3 (d :: u')) Hr), (IH a2 (skipn 2 (d :: u')) Hr). reflexivity.
Qed.

Lemma equal_fold_au_ascii a u : Forall (fun c => c < 128) u -> (equal_fold_au a u = true <-> cv a u).
Proof.
  revert u; induction a as [|c a IH]; intros [|d u] Hu.
  - split; reflexivity.
  - split; [discriminate|]. intro H. discriminate.
  - split; [discriminate|]. intro H. discriminate.
  - inversion Hu as [|? ? Hd Hu']; subst. cbn [equal_fold_au tl].
    assert (E : (d <? 128) = true) by lia. rewrite E. unfold ascii_fold_eq.
    rewrite andb_true_iff, (IH u Hu'), N.eqb_eq. unfold cv, fold_str. cbn [map]. split.
    + intros [H1 H2]. congruence.
    + intro H. injection H as H1 H2. split; assumption.
Qed.

Lemma equal_fold_au_congr_r a u1 u2 : Forall (fun c => c < 128) u1 -> cv u1 u2 -> equal_fold_au a u1 = equal_fold_au a u2.
Proof.
  intros A1 H. pose proof (cv_ascii _ _ A1 H) as A2. apply eq_true_iff_eq. rewrite !equal_fold_au_ascii by assumption.
  unfold cv in *. rewrite H. reflexivity.
Qed.

Lemma bytes_ok_fold okc s : (forall c, okc (fold_byte c) = okc c) -> bytes_ok okc (fold_str s) = bytes_ok okc s.
Proof.
  intro H. destruct s as [|c r]; [reflexivity|]. cbn [fold_str map bytes_ok]. rewrite fold_alnum, (forallb_fold okc r H). reflexivity.
Qed.

Lemma fold_m_valid k s : m_valid_part k (fold_str s) = m_valid_part k s.
Proof.
  rewrite !m_valid_part_spec. unfold fold_str at 1 2. rewrite map_length. f_equal. apply bytes_ok_fold. apply fold_mchar.
Qed.

Lemma fold_n_valid k s : n_valid_part k (fold_str s) = n_valid_part k s.
Proof.
  rewrite !n_valid_part_spec. unfold fold_str at 1. rewrite map_length. f_equal. apply bytes_ok_fold. apply fold_nchar.
Qed.

Lemma cv_m_valid k a b : cv a b -> m_valid_part k a = m_valid_part k b.
Proof. intro H. rewrite <- (fold_m_valid k a), <- (fold_m_valid k b). unfold cv in H. rewrite H. reflexivity. Qed.

Lemma cv_part_ok k a b : cv a b -> part_ok k a -> part_ok k b.
Proof. intros H Ha. apply m_valid_part_ok. rewrite <- (cv_m_valid k a b H). apply m_valid_part_ok. exact Ha. Qed.

Definition cv_m (a b : mname) : Prop := cv (mH a) (mH b) /\ cv (mN a) (mN b) /\ cv (mM a) (mM b) /\ cv (mT a) (mT b).

Lemma cv_m_sym a b : cv_m a b -> cv_m b a.
Proof. intros (H1 & H2 & H3 & H4). repeat split; apply cv_sym; assumption. Qed.

Lemma cv_m_trans a b c : cv_m a b -> cv_m b c -> cv_m a c.
Proof. unfold cv_m, cv. intros (H1 & H2 & H3 & H4) (G1 & G2 & G3 & G4). repeat split; congruence. Qed.

Lemma cv_m_fq a b : cv_m a b -> m_is_fq a = m_is_fq b.
Proof.
  intros (H1 & H2 & H3 & H4). unfold m_is_fq.
  rewrite (cv_m_valid _ _ _ H1), (cv_m_valid _ _ _ H2), (cv_m_valid _ _ _ H3), (cv_m_valid _ _ _ H4). reflexivity.
Qed.

Lemma cv_m_equal_fold a b : m_is_fq b = true -> (m_equal_fold a b = true <-> cv_m a b).
Proof.
  destruct b as [h n m t]. intro H. apply m_is_fq_parts in H as (Hh & Hn & Hm & Ht).
  unfold m_equal_fold, cv_m. cbn [mH mN mM mT]. rewrite !andb_true_iff.
  rewrite !equal_fold_au_ascii by (eapply part_ok_ascii; eassumption). tauto.
Qed.

(** names.Parse commutes with case folding, so case variants of a string parse to case variants *)
Definition nmap (n : nname) : nname := MkN (fold_str (nH n)) (fold_str (nN n)) (fold_str (nM n)) (fold_str (nT n)).

Lemma cut_last_by_fold p s :
  (forall c, p (fold_byte c) = p c) ->
  cut_last_by p (fold_str s) =
  match cut_last_by p s with
  | Some (b, d, a) => Some (fold_str b, fold_byte d, fold_str a)
  | None => None
  end.
Proof.
  intro Hp. induction s as [|c s IH]; [reflexivity|]. cbn [fold_str map cut_last_by]. fold (fold_str s). rewrite IH.
  destruct (cut_last_by p s) as [[[b d] a]|]; [reflexivity|]. rewrite Hp. destruct (p c); reflexivity.
Qed.

Lemma fold_is_sep c : is_slash_or_colon (fold_byte c) = is_slash_or_colon c.
Proof. unfold is_slash_or_colon. rewrite !fold_byte_eqb by reflexivity. reflexivity. Qed.
Lemma fold_eqb_slash c : N.eqb c_slash (fold_byte c) = N.eqb c_slash c.
Proof. apply fold_byte_eqb_l; reflexivity. Qed.
Lemma fold_eqb_colon c : N.eqb c_colon (fold_byte c) = N.eqb c_colon c.
Proof. apply fold_byte_eqb_l; reflexivity. Qed.

Lemma cut_last_any_fold p s :
  (forall c, p (fold_byte c) = p c) ->
  cut_last_any p (fold_str s) = let '(b, a, d) := cut_last_any p s in (fold_str b, fold_str a, fold_byte d).
Proof.
  intro Hp. unfold cut_last_any. rewrite cut_last_by_fold by assumption.
  destruct (cut_last_by p s) as [[[b d] a]|]; reflexivity.
Qed.

Lemma n_parse_loop_fold f s acc :
  n_parse_loop f (fold_str s) (nmap acc) = option_map nmap (n_parse_loop f s acc).
Proof.
  revert s acc; induction f as [|f IH]; intros s acc; [reflexivity|].
  cbn [n_parse_loop]. rewrite (cut_last_any_fold is_slash_or_colon s fold_is_sep).
  destruct (cut_last_any is_slash_or_colon s) as [[b a] d].
  rewrite !fold_byte_eqb by reflexivity.
  destruct (d =? c_colon).
  - rewrite <- IH. reflexivity.
  - destruct (d =? c_slash); [|reflexivity].
    rewrite (cut_last_any_fold (N.eqb c_slash) b fold_eqb_slash).
    destruct (cut_last_any (N.eqb c_slash) b) as [[h ns] x]. reflexivity.
Qed.

Lemma n_parse_fold s : n_parse (fold_str s) = nmap (n_parse s).
Proof.
  unfold n_parse. unfold fold_str at 1 2. rewrite map_length. fold (fold_str s).
  destruct (max_name_length <? length s)%nat; [reflexivity|].
  change n_empty with (nmap n_empty) at 1. rewrite n_parse_loop_fold.
  destruct (n_parse_loop (S (length s)) s n_empty); reflexivity.
Qed.

Lemma nonempty_fold s : nonempty (fold_str s) = nonempty s.
Proof. destruct s; reflexivity. Qed.

Lemma n_is_fq_fold n : n_is_fq (nmap n) = n_is_fq n.
Proof.
  unfold n_is_fq, n_is_valid, nmap. cbn [nH nN nM nT]. rewrite !nonempty_fold, !fold_n_valid. reflexivity.
Qed.

Lemma n_is_valid_fold n : n_is_valid (nmap n) = n_is_valid n.
Proof. unfold n_is_valid, nmap. cbn [nH nN nM nT]. rewrite !nonempty_fold, !fold_n_valid. reflexivity. Qed.

Definition cv_n (a b : nname) : Prop := cv (nH a) (nH b) /\ cv (nN a) (nN b) /\ cv (nM a) (nM b) /\ cv (nT a) (nT b).

Lemma cv_n_parse s1 s2 : cv s1 s2 -> cv_n (n_parse s1) (n_parse s2) /\ n_is_fq (n_parse s1) = n_is_fq (n_parse s2)
                                     /\ n_is_valid (n_parse s1) = n_is_valid (n_parse s2).
Proof.
  intro H. assert (E : nmap (n_parse s1) = nmap (n_parse s2)) by (rewrite <- !n_parse_fold; unfold cv in H; rewrite H; reflexivity).
  split; [|split].
  - unfold nmap in E. injection E as E1 E2 E3 E4. repeat split; assumption.
  - rewrite <- (n_is_fq_fold (n_parse s1)), <- (n_is_fq_fold (n_parse s2)), E. reflexivity.
  - rewrite <- (n_is_valid_fold (n_parse s1)), <- (n_is_valid_fold (n_parse s2)), E. reflexivity.
Qed.

Lemma fold_slash : fold_byte c_slash = c_slash.
Proof. reflexivity. Qed.

Lemma cv_intercalate sep l1 l2 : Forall2 cv l1 l2 -> cv (intercalate sep l1) (intercalate sep l2).
Proof.
  induction 1 as [|a b l1 l2 Hab Hl IH]; [reflexivity|].
  destruct Hl as [|a' b' l1' l2' Hab' Hl'].
  - exact Hab.
  - rewrite !intercalate_cons2. apply cv_app; [exact Hab|]. apply cv_app; [apply cv_refl|exact IH].
Qed.

(** [cv_m] / [cv_n] on the parts (convertible on constructors) *)
Definition cv_parts (h1 n1 m1 t1 h2 n2 m2 t2 : str) : Prop := cv h1 h2 /\ cv n1 n2 /\ cv m1 m2 /\ cv t1 t2.

(** the lookup of manifestPath, as a function of the four parts of an accepted name *)
Definition link_lookup (links : list str) (h n m t : str) : option str :=
  find (fun l => equal_fold_au (intercalate [c_slash] [s_manifests; h; n; m; t]) l) links.

Lemma link_lookup_cv links h1 n1 m1 t1 h2 n2 m2 t2 :
  cv_parts h1 n1 m1 t1 h2 n2 m2 t2 -> link_lookup links h1 n1 m1 t1 = link_lookup links h2 n2 m2 t2.
Proof.
  intros (H1 & H2 & H3 & H4). unfold link_lookup. apply find_ext. intro l. apply equal_fold_au_congr.
  apply cv_intercalate. repeat constructor; try assumption; try apply cv_refl.
Qed.

Lemma rel_target_cv links s1 s2 :
  cv s1 s2 ->
  (rel_target links s1 = Err EInvalidName /\ rel_target links s2 = Err EInvalidName) \/
  (exists l, In l links /\ rel_target links s1 = Ok l /\ rel_target links s2 = Ok l) \/
  (exists h1 n1 m1 t1 h2 n2 m2 t2,
      fq_parts h1 n1 m1 t1 /\ fq_parts h2 n2 m2 t2 /\ cv_parts h1 n1 m1 t1 h2 n2 m2 t2 /\
      link_lookup links h1 n1 m1 t1 = None /\ link_lookup links h2 n2 m2 t2 = None /\
      rel_target links s1 = Ok (intercalate [c_slash] [s_manifests; h1; n1; m1; t1]) /\
      rel_target links s2 = Ok (intercalate [c_slash] [s_manifests; h2; n2; m2; t2])).
Proof.
  intro H. destruct (cv_n_parse s1 s2 H) as (Hcv & Hfq & _).
  destruct (rel_target_cases links s1) as [[F1 E1]|(h1 & n1 & m1 & t1 & P1 & Q1 & E1)];
    destruct (rel_target_cases links s2) as [[F2 E2]|(h2 & n2 & m2 & t2 & P2 & Q2 & E2)].
  - left. split; assumption.
  - rewrite P2, (proj2 (n_is_fq_parts _ _ _ _) Q2) in Hfq. congruence.
  - rewrite P1, (proj2 (n_is_fq_parts _ _ _ _) Q1) in Hfq. congruence.
  - right. rewrite P1, P2 in Hcv. change (cv_parts h1 n1 m1 t1 h2 n2 m2 t2) in Hcv.
    rewrite E1, E2. fold (link_lookup links h1 n1 m1 t1) (link_lookup links h2 n2 m2 t2).
    rewrite (link_lookup_cv links _ _ _ _ _ _ _ _ Hcv).
    destruct (link_lookup links h2 n2 m2 t2) as [l|] eqn:El.
    + left. exists l. split; [|split; reflexivity]. apply find_some in El as [Hin _]. exact Hin.
    + right. exists h1, n1, m1, t1, h2, n2, m2, t2.
      rewrite (link_lookup_cv links _ _ _ _ _ _ _ _ Hcv), El.
      exact (conj Q1 (conj Q2 (conj Hcv (conj eq_refl (conj eq_refl (conj eq_refl eq_refl)))))).
Qed.

Lemma default_host_ok : part_ok KHost s_default_host.
Proof. apply m_valid_part_ok. reflexivity. Qed.
Lemma default_namespace_ok : part_ok KNamespace s_default_namespace.
Proof. apply m_valid_part_ok. reflexivity. Qed.
Lemma default_tag_ok : part_ok KTag s_default_tag.
Proof. apply m_valid_part_ok. reflexivity. Qed.

(** what is printed is the name without a default host (and namespace); ParseName reads the parts back and Merge
    puts the defaults in again *)
Lemma m_display_shortest_parse h n m t :
  fq_parts h n m t ->
  let n' := m_parse (m_display_shortest (MkM h n m t)) in
  m_is_fq n' = true /\ cv_m n' (MkM h n m t) /\ mM n' = m /\ mT n' = t.
Proof.
  intros Hfq. pose proof Hfq as (Hh & Hn & Hm & Ht). cbv zeta.
  pose proof (part_ok_nonempty _ _ Hh) as Nh. pose proof (part_ok_nonempty _ _ Hn) as Nn. pose proof (part_ok_nonempty _ _ Ht) as Nt.
  assert (Hd : forall h' n', (h' = [] \/ h' = h) -> (n' = [] \/ n' = n) -> (h' <> [] -> n' <> []) ->
            m_parse (front_string h' n' m ++ c_colon :: t) = MkM (or_str h' s_default_host) (or_str n' s_default_namespace) m t).
  { intros h' n' Eh En Hhn. unfold m_parse. rewrite m_parse_bare_front; try assumption.
    - unfold m_merge, m_default. cbn [mH mN mM mT]. rewrite (or_str_nonempty t _ Nt). reflexivity.
    - destruct Eh as [->| ->]; [left; reflexivity|right; exact Hh].
    - destruct En as [->| ->]; [left; reflexivity|right; exact Hn]. }
  unfold m_display_shortest. cbn [mH mN mM mT].
  destruct (equal_fold_au s_default_host h) eqn:Eh; cbn [negb].
  - apply (equal_fold_au_ascii s_default_host h (part_ok_ascii _ _ Hh)) in Eh.
    destruct (equal_fold_au s_default_namespace n) eqn:En; cbn [negb].
    + apply (equal_fold_au_ascii s_default_namespace n (part_ok_ascii _ _ Hn)) in En.
      change ([] ++ m ++ [c_colon] ++ t) with (front_string [] [] m ++ c_colon :: t). rewrite Hd by (auto; congruence).
      split; [apply m_is_fq_parts; exact (conj default_host_ok (conj default_namespace_ok (conj Hm Ht)))|].
      split; [exact (conj Eh (conj En (conj (cv_refl m) (cv_refl t))))|split; reflexivity].
    + replace ((n ++ [c_slash]) ++ m ++ [c_colon] ++ t) with (front_string [] n m ++ c_colon :: t)
        by (rewrite front_string_n, <- !app_assoc by exact Nn; reflexivity).
      rewrite Hd by (auto; congruence). cbn [or_str]. rewrite (or_str_nonempty n _ Nn).
      split; [apply m_is_fq_parts; exact (conj default_host_ok (conj Hn (conj Hm Ht)))|].
      split; [exact (conj Eh (conj (cv_refl n) (conj (cv_refl m) (cv_refl t))))|split; reflexivity].
  - replace ((h ++ [c_slash] ++ n ++ [c_slash]) ++ m ++ [c_colon] ++ t) with (front_string h n m ++ c_colon :: t)
      by (rewrite front_string_hn by assumption; repeat (rewrite <- app_assoc; cbn [app]); reflexivity).
    rewrite Hd by auto. rewrite (or_str_nonempty h _ Nh), (or_str_nonempty n _ Nn).
    split; [apply m_is_fq_parts; exact Hfq|]. split; [repeat split; apply cv_refl|split; reflexivity].
Qed.

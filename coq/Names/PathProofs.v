(** C13 - lemmas about the path model: joining validated elements below any root is "root, then exactly those
    elements"; nothing is collapsed, nothing climbs. *)
From Coq Require Import List NArith Bool Arith Lia.
From V Require Import Common.Bytes Names.Path.
Import ListNotations.
Open Scope N_scope.

(** a path element that Clean keeps as it is *)
Definition safe_comp (c : str) : Prop := c <> [] /\ c <> s_dot /\ c <> s_dotdot /\ ~ In c_slash c.

Lemma eqb_str_false a b : a <> b -> eqb_str a b = false.
Proof.
  intro H. destruct (eqb_str a b) eqn:E; [|reflexivity]. apply eqb_str_spec in E. contradiction.
Qed.

Lemma eqb_str_refl a : eqb_str a a = true.
Proof. apply eqb_str_spec. reflexivity. Qed.

Lemma split_on_nonnil c s : split_on c s <> [].
Proof.
  induction s as [|x s IH]; cbn; [discriminate|].
  destruct (x =? c); [discriminate|]. destruct (split_on c s); discriminate.
Qed.

Lemma split_on_app_sep c a b : split_on c (a ++ c :: b) = split_on c a ++ split_on c b.
Proof.
  induction a as [|x a IH]; cbn.
  - rewrite N.eqb_refl. reflexivity.
  - destruct (x =? c); [rewrite IH; reflexivity|].
    rewrite IH. destruct (split_on c a) as [|h t] eqn:E; [exfalso; eapply split_on_nonnil; eassumption|].
    reflexivity.
Qed.

Lemma split_on_nosep c s : ~ In c s -> split_on c s = [s].
Proof.
  induction s as [|x s IH]; intro H; cbn; [reflexivity|].
  destruct (x =? c) eqn:E.
  - apply N.eqb_eq in E. exfalso. apply H. left. exact E.
  - rewrite IH; [reflexivity|]. intro Hin. apply H. right. exact Hin.
Qed.

Lemma split_on_intercalate c comps :
  comps <> [] -> Forall (fun x => ~ In c x) comps -> split_on c (intercalate [c] comps) = comps.
Proof.
  induction comps as [|x t IH]; intros Hne Hall; [congruence|].
  inversion Hall as [|? ? Hx Ht]; subst.
  destruct t as [|y t'].
  - cbn. apply split_on_nosep. exact Hx.
  - change (intercalate [c] (x :: y :: t')) with (x ++ [c] ++ intercalate [c] (y :: t')).
    cbn [app]. rewrite split_on_app_sep, (split_on_nosep c x Hx), IH; [reflexivity|discriminate|exact Ht].
Qed.

Lemma split_on_pieces_no_sep c s : Forall (fun x => ~ In c x) (split_on c s).
Proof.
  induction s as [|x s IH]; cbn.
  - constructor; [intros []|constructor].
  - destruct (x =? c) eqn:E.
    + constructor; [intros []|exact IH].
    + destruct (split_on c s) as [|h t]; [constructor; [|constructor]|].
      * intros [H|[]]. subst. rewrite N.eqb_refl in E. discriminate.
      * inversion IH; subst. constructor; [|assumption].
        intros [H|H]; [subst; rewrite N.eqb_refl in E; discriminate|contradiction].
Qed.

Lemma intercalate_cons2 sep x y t : intercalate sep (x :: y :: t) = x ++ sep ++ intercalate sep (y :: t).
Proof. reflexivity. Qed.

Lemma intercalate_split c s : intercalate [c] (split_on c s) = s.
Proof.
  induction s as [|x s IH]; [reflexivity|]. cbn [split_on].
  destruct (x =? c) eqn:E.
  - apply N.eqb_eq in E. subst x. destruct (split_on c s) as [|h t] eqn:Es; [exfalso; eapply split_on_nonnil; eassumption|].
    rewrite intercalate_cons2, IH. reflexivity.
  - destruct (split_on c s) as [|h t] eqn:Es; [exfalso; eapply split_on_nonnil; eassumption|].
    destruct t as [|y t'].
    + cbn in IH |- *. rewrite IH. reflexivity.
    + rewrite intercalate_cons2 in IH |- *. cbn [app] in IH |- *. rewrite IH. reflexivity.
Qed.

Lemma intercalate_app sep l1 l2 :
  l1 <> [] -> l2 <> [] -> intercalate sep (l1 ++ l2) = intercalate sep l1 ++ sep ++ intercalate sep l2.
Proof.
  induction l1 as [|x t IH]; intros H1 H2; [congruence|].
  destruct t as [|y t'].
  - cbn [app]. destruct l2 as [|z l2']; [congruence|]. reflexivity.
  - change ((x :: y :: t') ++ l2) with (x :: y :: (t' ++ l2)).
    rewrite !intercalate_cons2. change (y :: t' ++ l2) with ((y :: t') ++ l2).
    rewrite IH; [|discriminate|exact H2]. rewrite <- !app_assoc. reflexivity.
Qed.

Lemma intercalate_nonempty sep l : l <> [] -> Forall (fun x => x <> []) l -> intercalate sep l <> [].
Proof.
  destruct l as [|x t]; intros Hne Hall; [congruence|].
  inversion Hall; subst. destruct t; cbn; [assumption|].
  destruct x; [congruence|discriminate].
Qed.

Lemma clean_step_safe st c : safe_comp c -> clean_step st c = MkCS (cs_rooted st) (c :: cs_stack st).
Proof.
  intros (H1 & H2 & H3 & _). unfold clean_step. rewrite !eqb_str_false by assumption. reflexivity.
Qed.

Lemma fold_clean_safe comps st :
  Forall safe_comp comps -> fold_left clean_step comps st = MkCS (cs_rooted st) (rev comps ++ cs_stack st).
Proof.
  revert st; induction comps as [|c t IH]; intros st H; cbn [fold_left rev app].
  - destruct st; reflexivity.
  - inversion H; subst. rewrite clean_step_safe by assumption. rewrite IH by assumption. cbn [cs_rooted cs_stack].
    rewrite <- app_assoc. reflexivity.
Qed.

(** invariant of the Clean loop: the stack may hold ".." only when not rooted (a rooted Clean drops ".." at the
    root), so a rooted stack is all [safe_comp]; [comp_ok] is [safe_comp] without the ".." clause *)
Definition comp_ok (c : str) : Prop := c <> [] /\ c <> s_dot /\ ~ In c_slash c.
Definition st_ok (st : cstate) : Prop :=
  Forall comp_ok (cs_stack st) /\ (cs_rooted st = true -> Forall safe_comp (cs_stack st)).

Lemma safe_comp_ok c : safe_comp c -> comp_ok c.
Proof. intros (H1 & H2 & _ & H4). repeat split; assumption. Qed.

Lemma clean_step_ok st c : ~ In c_slash c -> st_ok st -> st_ok (clean_step st c).
Proof.
  intros Hns [Hok Hr]. unfold clean_step.
  destruct (eqb_str c []) eqn:E1; [split; assumption|].
  destruct (eqb_str c s_dot) eqn:E2; [split; assumption|]. cbn [orb].
  assert (N1 : c <> []) by (intro; subst; discriminate).
  assert (N2 : c <> s_dot) by (intro; subst; discriminate).
  destruct (eqb_str c s_dotdot) eqn:E3.
  - destruct (cs_stack st) as [|top r] eqn:Es.
    + destruct (cs_rooted st) eqn:Er; [split; [rewrite Es; constructor|intros _; rewrite Es; constructor]|].
      split; cbn.
      * constructor; [|constructor]. repeat split; try discriminate. intros [H|[H|[]]]; discriminate.
      * discriminate.
    + destruct (eqb_str top s_dotdot) eqn:E4; cbn [cs_stack cs_rooted].
      * apply eqb_str_spec in E4. subst top. split.
        -- constructor; [|exact Hok]. repeat split; try discriminate. intros [H|[H|[]]]; discriminate.
        -- intro Ht. specialize (Hr Ht). inversion Hr as [|? ? (_ & _ & Hdd & _) _]. congruence.
      * split.
        -- inversion Hok; assumption.
        -- intro Ht. specialize (Hr Ht). inversion Hr; assumption.
  - cbn [cs_stack cs_rooted]. assert (N3 : c <> s_dotdot) by (intro; subst; rewrite eqb_str_refl in E3; discriminate).
    split.
    + constructor; [repeat split; assumption|exact Hok].
    + intro Ht. constructor; [repeat split; assumption|exact (Hr Ht)].
Qed.

Lemma fold_clean_ok comps st : Forall (fun x => ~ In c_slash x) comps -> st_ok st -> st_ok (fold_left clean_step comps st).
Proof.
  revert st; induction comps as [|c t IH]; intros st H Hok; cbn [fold_left]; [exact Hok|].
  inversion H; subst. apply IH; [assumption|]. apply clean_step_ok; assumption.
Qed.

Lemma clean_state_ok path : st_ok (clean_state path).
Proof.
  unfold clean_state. apply fold_clean_ok; [apply split_on_pieces_no_sep|].
  split; cbn; [constructor|intros _; constructor].
Qed.

Lemma clean_state_app root rest :
  root <> [] -> clean_state (root ++ c_slash :: rest) = fold_left clean_step (split_on c_slash rest) (clean_state root).
Proof.
  intro Hne. unfold clean_state. rewrite split_on_app_sep, fold_left_app.
  destruct root as [|c r]; [congruence|]. reflexivity.
Qed.

Lemma intercalate_not_single d c l :
  l <> [] -> Forall (fun a => a <> [] /\ a <> [c]) l -> intercalate [d] l <> [c].
Proof.
  destruct l as [|y [|z l']]; intros Hne Hall; [congruence|..]; inversion Hall as [|? ? [Hy Hc] _]; subst; [exact Hc|].
  rewrite intercalate_cons2. destruct y as [|a y']; [congruence|]. intros [= _ E]. destruct y'; discriminate.
Qed.

Lemma rev_nonempty {A} (l : list A) : l <> [] -> rev l <> [].
Proof. intros H E. apply (f_equal (@rev A)) in E. rewrite rev_involutive in E. exact (H E). Qed.

Lemma render_cases st :
  st_ok st ->
  (cs_stack st = [] /\ clean_render st = if cs_rooted st then [c_slash] else s_dot) \/
  (cs_stack st <> [] /\ clean_render st <> [c_slash] /\ clean_render st <> s_dot).
Proof.
  intros [Hok _]. revert Hok. unfold clean_render.
  destruct (cs_stack st) as [|x t]; intro Hok; [left; destruct (cs_rooted st); split; reflexivity|right].
  split; [discriminate|]. cbv iota.
  assert (Hr : rev (x :: t) <> []) by (apply rev_nonempty; discriminate).
  apply Forall_rev in Hok. revert Hr Hok. generalize (rev (x :: t)). intros l Hr Hok.
  destruct (cs_rooted st).
  - split; [|discriminate]. intros [= E]. revert E. apply intercalate_nonempty; [exact Hr|].
    eapply Forall_impl; [|exact Hok]. intros a (Ha & _). exact Ha.
  - split; apply intercalate_not_single; try exact Hr; (eapply Forall_impl; [|exact Hok]);
      intros a (Ha & Hd & Hs); (split; [exact Ha|]); [intros ->; apply Hs; left; reflexivity|exact Hd].
Qed.

Lemma render_push st comps :
  st_ok st -> comps <> [] ->
  clean_render (MkCS (cs_rooted st) (rev comps ++ cs_stack st)) = path_append (clean_render st) comps.
Proof.
  intros Hok Hne. unfold path_append.
  assert (Hrev : rev (rev comps ++ cs_stack st) = rev (cs_stack st) ++ comps) by (rewrite rev_app_distr, rev_involutive; reflexivity).
  assert (Hst : rev comps ++ cs_stack st <> []) by (intro E; apply app_eq_nil in E as [E _]; exact (rev_nonempty _ Hne E)).
  unfold clean_render at 1. cbn [cs_rooted cs_stack]. rewrite Hrev.
  destruct (rev comps ++ cs_stack st) as [|y l] eqn:E; [contradiction|clear E Hst].
  destruct (render_cases st Hok) as [[Es ->]|(Ns & N1 & N2)].
  - rewrite Es. destruct (cs_rooted st); reflexivity.
  - rewrite (eqb_str_false _ _ N1), (eqb_str_false _ _ N2). unfold clean_render.
    rewrite intercalate_app by (try assumption; apply rev_nonempty, Ns).
    destruct (cs_rooted st); [reflexivity|]. destruct (cs_stack st); [contradiction|reflexivity].
Qed.

Lemma safe_no_slash comps : Forall safe_comp comps -> Forall (fun x => ~ In c_slash x) comps.
Proof. intro H. eapply Forall_impl; [|exact H]. intros a (_ & _ & _ & Ha). exact Ha. Qed.

Lemma fp_clean_under root comps :
  root <> [] -> Forall safe_comp comps -> comps <> [] ->
  fp_clean (root ++ c_slash :: intercalate [c_slash] comps) = path_append (fp_clean root) comps.
Proof.
  intros Hr Hs Hne. unfold fp_clean. rewrite clean_state_app by assumption.
  rewrite split_on_intercalate by (try assumption; apply safe_no_slash; assumption).
  rewrite fold_clean_safe by assumption. apply render_push; [apply clean_state_ok|assumption].
Qed.

Lemma safe_head_not_slash c : safe_comp c -> fp_is_abs c = false.
Proof.
  intros (H1 & _ & _ & H4). destruct c as [|x r]; [congruence|]. cbn.
  destruct (x =? c_slash) eqn:E; [|reflexivity]. apply N.eqb_eq in E. exfalso. apply H4. left. exact E.
Qed.

Lemma fp_clean_safe comps :
  Forall safe_comp comps -> comps <> [] -> fp_clean (intercalate [c_slash] comps) = intercalate [c_slash] comps.
Proof.
  intros Hs Hne. unfold fp_clean, clean_state.
  rewrite split_on_intercalate by (try assumption; apply safe_no_slash; assumption).
  rewrite fold_clean_safe by assumption. cbn [cs_rooted cs_stack].
  assert (Ha : fp_is_abs (intercalate [c_slash] comps) = false).
  { destruct comps as [|c t]; [congruence|]. inversion Hs as [|? ? Hc _]; subst.
    pose proof (safe_head_not_slash c Hc) as Hh. destruct Hc as (Hc & _).
    destruct c as [|x r]; [congruence|]. destruct t; exact Hh. }
  rewrite Ha, app_nil_r. unfold clean_render. cbn [cs_rooted cs_stack]. rewrite rev_involutive.
  destruct (rev comps) eqn:E; [exact (match rev_nonempty _ Hne E with end)|reflexivity].
Qed.

Lemma fp_clean_nil : fp_clean [] = s_dot.
Proof. reflexivity. Qed.

Lemma fp_join_under root comps :
  Forall safe_comp comps -> comps <> [] ->
  fp_join [root; intercalate [c_slash] comps] = path_append (fp_clean root) comps.
Proof.
  intros Hs Hne.
  assert (Hi : intercalate [c_slash] comps <> []).
  { apply intercalate_nonempty; [assumption|]. eapply Forall_impl; [|exact Hs]. intros a (Ha & _). exact Ha. }
  unfold fp_join. destruct root as [|c r].
  - cbn [drop_empty_prefix]. destruct (intercalate [c_slash] comps) eqn:E; [congruence|].
    cbn [drop_empty_prefix intercalate]. rewrite <- E, fp_clean_safe by assumption. reflexivity.
  - cbn [drop_empty_prefix]. change (intercalate [c_slash] [c :: r; intercalate [c_slash] comps])
      with ((c :: r) ++ [c_slash] ++ intercalate [c_slash] comps).
    cbn [app]. apply (fp_clean_under (c :: r)); [discriminate|assumption|assumption].
Qed.

Lemma fp_join_under_cons root x comps :
  safe_comp x -> Forall safe_comp comps ->
  fp_join [root; x; intercalate [c_slash] comps] = path_append (fp_clean root) (x :: comps).
Proof.
  intros Hx Hs. destruct comps as [|y t].
  - (* the last argument is "": its separator gives one more, empty, piece of the split, which Clean skips *)
    pose proof (safe_head_not_slash x Hx) as Hh. pose proof Hx as (Hne & _ & _ & Hsl).
    assert (Hsplit : split_on c_slash (x ++ [c_slash]) = [x; []]) by (rewrite split_on_app_sep, split_on_nosep by exact Hsl; reflexivity).
    assert (Hfold : forall st, fold_left clean_step [x; []] st = MkCS (cs_rooted st) (rev [x] ++ cs_stack st)).
    { intro st. cbn [fold_left]. rewrite (clean_step_safe st x) by assumption. reflexivity. }
    change (intercalate [c_slash] []) with ([] : str). unfold fp_join. destruct root as [|c r]; cbn [drop_empty_prefix].
    + destruct x as [|a b]; [congruence|]. cbn [drop_empty_prefix].
      change (intercalate [c_slash] [a :: b; []]) with ((a :: b) ++ [c_slash]).
      unfold fp_clean at 1, clean_state. rewrite Hsplit, Hfold. cbn [cs_rooted cs_stack rev app].
      change (fp_is_abs (a :: b ++ [c_slash])) with (fp_is_abs (a :: b)). rewrite Hh. reflexivity.
    + change (intercalate [c_slash] [c :: r; x; []]) with ((c :: r) ++ c_slash :: (x ++ [c_slash])).
      unfold fp_clean at 1. rewrite clean_state_app by discriminate. rewrite Hsplit, Hfold.
      apply (render_push (clean_state (c :: r)) [x]); [apply clean_state_ok|discriminate].
  - rewrite <- (fp_join_under root (x :: y :: t)); [|constructor; assumption|discriminate].
    unfold fp_join. destruct root as [|c r]; cbn [drop_empty_prefix]; [|reflexivity].
    destruct Hx as (Hx & _). destruct x as [|a b]; [congruence|]. reflexivity.
Qed.

Lemma fp_join_under_pair root x y :
  safe_comp x -> safe_comp y -> fp_join [root; x; y] = path_append (fp_clean root) [x; y].
Proof. intros Hx Hy. apply (fp_join_under_cons root x [y]); [assumption|constructor; [assumption|constructor]]. Qed.

Lemma fp_join_head x comps :
  safe_comp x -> Forall safe_comp comps -> comps <> [] ->
  fp_join [x; intercalate [c_slash] comps] = intercalate [c_slash] (x :: comps).
Proof.
  intros Hx Hs Hne. pose proof Hx as (Hx0 & _). unfold fp_join. destruct x as [|a b]; [congruence|].
  cbn [drop_empty_prefix]. destruct comps as [|y t]; [congruence|].
  change (intercalate [c_slash] [a :: b; intercalate [c_slash] (y :: t)]) with (intercalate [c_slash] ((a :: b) :: y :: t)).
  apply fp_clean_safe; [constructor; assumption|discriminate].
Qed.

Lemma fp_join_safe comps : Forall safe_comp comps -> comps <> [] -> fp_join comps = intercalate [c_slash] comps.
Proof.
  intros Hs Hne. unfold fp_join. destruct comps as [|c t]; [congruence|].
  inversion Hs as [|? ? Hc _]; subst. destruct Hc as (Hc & _). destruct c as [|a b]; [congruence|].
  cbn [drop_empty_prefix]. apply fp_clean_safe; assumption.
Qed.

Lemma clean_render_rooted_fixed st :
  cs_rooted st = true -> Forall safe_comp (cs_stack st) -> fp_clean (clean_render st) = clean_render st.
Proof.
  intros Hr Hs. destruct st as [r stk]. cbn in Hr, Hs. subst r.
  unfold clean_render at 1. cbn [cs_rooted cs_stack].
  destruct stk as [|x t].
  - reflexivity.
  - unfold fp_clean, clean_state.
    change (c_slash :: intercalate [c_slash] (rev (x :: t))) with ([] ++ c_slash :: intercalate [c_slash] (rev (x :: t))).
    rewrite split_on_app_sep.
    assert (Hrs : Forall safe_comp (rev (x :: t))) by (apply Forall_rev; assumption).
    assert (Hne : rev (x :: t) <> []) by (apply rev_nonempty; discriminate).
    rewrite split_on_intercalate by (try assumption; apply safe_no_slash; assumption).
    cbn [split_on app fold_left]. unfold clean_step at 2. cbn [eqb_str orb].
    rewrite fold_clean_safe by assumption. cbn [fp_is_abs cs_rooted cs_stack]. rewrite N.eqb_refl.
    rewrite rev_involutive, app_nil_r. reflexivity.
Qed.

Lemma fold_clean_rooted l st : cs_rooted (fold_left clean_step l st) = cs_rooted st.
Proof.
  revert st; induction l as [|c t IH]; intro st; cbn [fold_left]; [reflexivity|]. rewrite IH.
  unfold clean_step. destruct (eqb_str c [] || eqb_str c s_dot); [reflexivity|].
  destruct (eqb_str c s_dotdot); [|reflexivity].
  destruct (cs_stack st); [destruct (cs_rooted st) eqn:E; [exact E|reflexivity]|].
  destruct (eqb_str _ _); reflexivity.
Qed.

Lemma clean_state_rooted path : cs_rooted (clean_state path) = fp_is_abs path.
Proof. unfold clean_state. rewrite fold_clean_rooted. reflexivity. Qed.

Lemma fp_under_abs_clean root comps :
  fp_is_abs root = true -> Forall safe_comp comps -> comps <> [] ->
  let p := path_append (fp_clean root) comps in fp_is_abs p = true /\ fp_clean p = p.
Proof.
  intros Ha Hs Hne p. subst p.
  pose proof (clean_state_ok root) as Hok. pose proof (clean_state_rooted root) as Hr. rewrite Ha in Hr.
  set (st' := MkCS (cs_rooted (clean_state root)) (rev comps ++ cs_stack (clean_state root))).
  assert (Hp : path_append (fp_clean root) comps = clean_render st').
  { unfold fp_clean. symmetry. apply render_push; assumption. }
  rewrite Hp.
  assert (Hr' : cs_rooted st' = true) by exact Hr.
  assert (Hs' : Forall safe_comp (cs_stack st')).
  { cbn. apply Forall_app. split; [apply Forall_rev; assumption|]. destruct Hok as [_ H]. apply H. exact Hr. }
  split.
  - unfold clean_render. rewrite Hr'. reflexivity.
  - apply clean_render_rooted_fixed; assumption.
Qed.

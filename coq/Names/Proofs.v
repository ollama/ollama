(** C13 - lemmas about the name parsers: character-level validity, print/parse round trips, agreement of the two
    parsers. *)
From Coq Require Import List NArith ZArith Bool Arith Lia ZifyBool ZifyNat ZifyN.
From V Require Import Common.Bytes Names.Path Names.Model Names.PathProofs.
Import ListNotations.
Open Scope N_scope.

Definition none_sat (p : N -> bool) (s : str) : Prop := Forall (fun c => p c = false) s.

Lemma none_sat_app p a b : none_sat p (a ++ b) <-> none_sat p a /\ none_sat p b.
Proof. apply Forall_app. Qed.

Lemma none_sat_eqb c s : ~ In c s <-> none_sat (N.eqb c) s.
Proof.
  unfold none_sat. rewrite Forall_forall. split.
  - intros H x Hx. apply N.eqb_neq. intro E. subst. contradiction.
  - intros H Hin. specialize (H c Hin). rewrite N.eqb_refl in H. discriminate.
Qed.

Lemma cut_last_by_spec p s :
  match cut_last_by p s with
  | Some (b, d, a) => s = b ++ d :: a /\ p d = true /\ none_sat p a
  | None => none_sat p s
  end.
Proof.
  induction s as [|c s IH]; cbn; [constructor|].
  destruct (cut_last_by p s) as [[[b d] a]|].
  - destruct IH as (-> & Hd & Ha). repeat split; assumption.
  - destruct (p c) eqn:E.
    + repeat split; assumption.
    + constructor; assumption.
Qed.

Lemma cut_last_by_none_intro p s : none_sat p s -> cut_last_by p s = None.
Proof. induction 1 as [|c s Hc _ IH]; cbn; [reflexivity|]. rewrite IH, Hc. reflexivity. Qed.

Lemma cut_last_by_app p b d a : p d = true -> none_sat p a -> cut_last_by p (b ++ d :: a) = Some (b, d, a).
Proof.
  intros Hd Ha. induction b as [|c b IH]; cbn.
  - rewrite (cut_last_by_none_intro p a Ha), Hd. reflexivity.
  - rewrite IH. reflexivity.
Qed.

Lemma cut_first_by_spec p s :
  match cut_first_by p s with
  | Some (b, d, a) => s = b ++ d :: a /\ p d = true /\ none_sat p b
  | None => none_sat p s
  end.
Proof.
  induction s as [|c s IH]; cbn; [constructor|].
  destruct (p c) eqn:E.
  - repeat split; [assumption|constructor].
  - destruct (cut_first_by p s) as [[[b d] a]|].
    + destruct IH as (-> & Hd & Hb). repeat split; [assumption|constructor; assumption].
    + constructor; assumption.
Qed.

Lemma cut_first_by_app p b d a : none_sat p b -> p d = true -> cut_first_by p (b ++ d :: a) = Some (b, d, a).
Proof.
  intros Hb Hd. induction Hb as [|c b Hc _ IH]; cbn.
  - rewrite Hd. reflexivity.
  - rewrite Hc, IH. reflexivity.
Qed.

Lemma cut_first_by_none_intro p s : none_sat p s -> cut_first_by p s = None.
Proof. induction 1 as [|c s Hc _ IH]; cbn; [reflexivity|]. rewrite Hc, IH. reflexivity. Qed.

Lemma cut_last_app c b a : ~ In c a -> cut_last c (b ++ c :: a) = (b, a, true).
Proof.
  intro H. unfold cut_last. rewrite cut_last_by_app; [reflexivity|apply N.eqb_refl|apply none_sat_eqb; assumption].
Qed.

Lemma cut_last_none c s : ~ In c s -> cut_last c s = (s, [], false).
Proof. intro H. unfold cut_last. rewrite cut_last_by_none_intro; [reflexivity|apply none_sat_eqb; assumption]. Qed.

Lemma or_str_nonempty a b : a <> [] -> or_str a b = a.
Proof. destruct a; [congruence|reflexivity]. Qed.

Lemma cut_promised_app c b a : ~ In c a -> b <> [] -> a <> [] -> cut_promised c (b ++ c :: a) = (b, a, true).
Proof.
  intros H Hb Ha. unfold cut_promised. rewrite cut_last_app by assumption.
  rewrite !or_str_nonempty by assumption. reflexivity.
Qed.

Lemma cut_promised_none c s : ~ In c s -> cut_promised c s = (s, [], false).
Proof. intro H. unfold cut_promised. rewrite cut_last_none by assumption. reflexivity. Qed.

Lemma last_index_app c b a : ~ In c a -> last_index c (b ++ c :: a) = Z.of_nat (length b).
Proof.
  intro H. unfold last_index. rewrite cut_last_by_app; [reflexivity|apply N.eqb_refl|apply none_sat_eqb; assumption].
Qed.

Lemma last_index_none c s : ~ In c s -> last_index c s = (-1)%Z.
Proof. intro H. unfold last_index. rewrite cut_last_by_none_intro; [reflexivity|apply none_sat_eqb; assumption]. Qed.

Ltac unf :=
  unfold ascii_fold_eq, fold_byte, is_alnum_us, is_hex, is_upper, is_lower, is_digit, is_slash_or_colon,
    is_colon_or_dash, c_us, c_dash, c_dot, c_colon, c_slash, c_at in *.

Lemma alnum_facts c : is_alnum_us c = true -> c < 128 /\ c <> c_slash /\ c <> c_dot /\ c <> c_colon /\ c <> c_dash.
Proof. intro H. unf. lia. Qed.

Lemma mchar_cases k c :
  m_char_ok k c = true ->
  is_alnum_us c = true \/ c = c_dash \/ (c = c_dot /\ k <> KNamespace) \/ (c = c_colon /\ (k = KHost \/ k = KDigest)).
Proof.
  unfold m_char_ok.
  destruct (N.eqb_spec c c_us) as [->|_]; [left; reflexivity|].
  destruct (N.eqb_spec c c_dash) as [->|_]; [right; left; reflexivity|]. cbn [orb].
  destruct (N.eqb_spec c c_dot) as [->|_].
  { intro H. right; right; left. split; [reflexivity|]. intros ->. discriminate H. }
  destruct (N.eqb_spec c c_colon) as [->|_]; [|left; assumption].
  intro H. do 3 right. split; [reflexivity|]. destruct k; try discriminate H; [left|right]; reflexivity.
Qed.

Lemma alnum_mchar k c : is_alnum_us c = true -> m_char_ok k c = true.
Proof.
  intro H. unfold m_char_ok.
  destruct (N.eqb_spec c c_dot) as [->|_]; [discriminate H|].
  destruct (N.eqb_spec c c_colon) as [->|_]; [discriminate H|].
  rewrite H. destruct ((c =? c_us) || (c =? c_dash)); reflexivity.
Qed.

Lemma mchar_facts k c : m_char_ok k c = true -> c <> c_slash /\ c < 128.
Proof.
  intro H. destruct (mchar_cases k c H) as [H1|[->|[[-> _]|[-> _]]]]; [apply alnum_facts in H1; tauto|..];
    split; (discriminate || reflexivity).
Qed.

Lemma mchar_nocolon k c : k <> KHost -> k <> KDigest -> m_char_ok k c = true -> c <> c_colon.
Proof.
  intros H1 H2 H. destruct (mchar_cases k c H) as [Ha|[->|[[-> _]|[_ [Hk|Hk]]]]]; [apply alnum_facts in Ha; tauto|..];
    (discriminate || contradiction).
Qed.

Lemma high_not_alnum c : 128 <= c -> is_alnum_us c = false.
Proof. intro H. destruct (is_alnum_us c) eqn:E; [apply alnum_facts in E; lia|reflexivity]. Qed.

Lemma high_not_mchar k c : 128 <= c -> m_char_ok k c = false.
Proof. intro H. destruct (m_char_ok k c) eqn:E; [apply mchar_facts in E; lia|reflexivity]. Qed.

(** package names has no digest kind: [n_char_ok] treats [KDigest] like any kind that is neither host nor namespace *)
Definition nk (k : pk) : pk := match k with KDigest => KModel | _ => k end.

Lemma nchar_as_mchar k c : n_char_ok k c = m_char_ok (nk k) c.
Proof. destruct k; reflexivity. Qed.

Lemma nchar_mchar k c : k <> KDigest -> n_char_ok k c = m_char_ok k c.
Proof. intro H. rewrite nchar_as_mchar. destruct k; [..|contradiction]; reflexivity. Qed.

Lemma high_not_nchar k c : 128 <= c -> n_char_ok k c = false.
Proof. rewrite nchar_as_mchar. apply high_not_mchar. Qed.

Lemma alnum_nchar k c : is_alnum_us c = true -> n_char_ok k c = true.
Proof. rewrite nchar_as_mchar. apply alnum_mchar. Qed.

(** [fold_byte] moves the upper-case letters onto the lower-case ones and nothing else, so a predicate is unchanged by
    it as soon as it does not tell a letter from its lower-case form *)
Lemma fold_byte_inv (P : N -> bool) c : (is_upper c = true -> P (c + 32) = P c) -> P (fold_byte c) = P c.
Proof. unfold fold_byte. destruct (is_upper c); intro H; [apply H|]; reflexivity. Qed.

Lemma upper_alnum c : is_upper c = true -> is_alnum_us c = true /\ is_alnum_us (c + 32) = true.
Proof. intro H. unf. lia. Qed.

Lemma fold_alnum_closed (P : N -> bool) : (forall c, is_alnum_us c = true -> P c = true) -> forall c, P (fold_byte c) = P c.
Proof.
  intros HP c. apply fold_byte_inv. intro Hu. destruct (upper_alnum c Hu) as [H1 H2]. rewrite (HP _ H1), (HP _ H2). reflexivity.
Qed.

Lemma fold_alnum c : is_alnum_us (fold_byte c) = is_alnum_us c.
Proof. apply (fold_alnum_closed is_alnum_us). trivial. Qed.

Lemma fold_mchar k c : m_char_ok k (fold_byte c) = m_char_ok k c.
Proof. apply (fold_alnum_closed (m_char_ok k)), alnum_mchar. Qed.

Lemma fold_nchar k c : n_char_ok k (fold_byte c) = n_char_ok k c.
Proof. rewrite !nchar_as_mchar. apply fold_mchar. Qed.

Lemma fold_hex c : is_hex (fold_byte c) = is_hex c.
Proof. apply (fold_byte_inv is_hex). intro H. unf. lia. Qed.

Lemma fold_ascii c : (fold_byte c <? 128) = (c <? 128).
Proof. apply (fold_byte_inv (fun c => c <? 128)). intro H. unf. lia. Qed.

Lemma fold_byte_eqb x c : is_upper x = false -> is_lower x = false -> (fold_byte c =? x) = (c =? x).
Proof. intros H1 H2. apply (fold_byte_inv (fun c => c =? x)). intro H. unf. lia. Qed.

Lemma fold_byte_eqb_l x c : is_upper x = false -> is_lower x = false -> (x =? fold_byte c) = (x =? c).
Proof. intros H1 H2. rewrite !(N.eqb_sym x). apply fold_byte_eqb; assumption. Qed.

Lemma fold_idem c : fold_byte (fold_byte c) = fold_byte c.
Proof. unf. destruct ((65 <=? c) && (c <=? 90)) eqn:E; [|rewrite E; reflexivity]. destruct ((65 <=? c + 32) && (c + 32 <=? 90)) eqn:E'; [lia|reflexivity]. Qed.

(** the validity loop visits every byte: [for i := range s] decodes runes, but a byte >= 0x80 at a rune start
    fails the test, and every byte that follows ASCII bytes only is a rune start *)
Definition bytes_ok (okc : N -> bool) (s : str) : bool :=
  match s with
  | [] => true
  | c :: r => is_alnum_us c && forallb okc r
  end.

Lemma rune_width_ascii c r : c < 128 -> rune_width (c :: r) = 1%nat.
Proof. intro H. cbn [rune_width]. destruct (c <? 128) eqn:E; [reflexivity|lia]. Qed.

Lemma m_valid_runes_rest fuel k s : (length s < fuel)%nat -> m_valid_runes fuel k false s = forallb (m_char_ok k) s.
Proof.
  revert s; induction fuel as [|f IH]; intros s Hl; [lia|].
  destruct s as [|c r]; [reflexivity|]. cbn [m_valid_runes forallb].
  destruct (N.lt_ge_cases c 128) as [Hc|Hc].
  - rewrite rune_width_ascii by assumption. cbn [skipn]. rewrite IH by (cbn in Hl; lia); try reflexivity.
  - rewrite high_not_mchar by assumption. reflexivity.
Qed.

Lemma m_valid_runes_first fuel k s : (length s < fuel)%nat -> m_valid_runes fuel k true s = bytes_ok (m_char_ok k) s.
Proof.
  intro Hl. destruct fuel as [|f]; [lia|]. destruct s as [|c r]; [reflexivity|]. cbn [m_valid_runes bytes_ok].
  destruct (N.lt_ge_cases c 128) as [Hc|Hc].
  - rewrite rune_width_ascii by assumption. cbn [skipn]. rewrite m_valid_runes_rest by (cbn in Hl; lia); try reflexivity.
  - rewrite high_not_alnum by assumption. reflexivity.
Qed.

Lemma n_valid_runes_as_m fuel k first s : n_valid_runes fuel k first s = m_valid_runes fuel (nk k) first s.
Proof.
  revert first s; induction fuel as [|f IH]; intros first s; [reflexivity|]. destruct s as [|c r]; [reflexivity|].
  cbn [n_valid_runes m_valid_runes]. rewrite IH, nchar_as_mchar. reflexivity.
Qed.

Definition max_len (k : pk) : nat := match k with KHost => 350 | _ => 80 end.

Lemma m_valid_part_spec k s :
  m_valid_part k s = (1 <=? length s)%nat && (length s <=? max_len k)%nat && bytes_ok (m_char_ok k) s.
Proof.
  unfold m_valid_part. rewrite m_valid_runes_first by lia. f_equal. unfold m_valid_len, max_len. destruct k; reflexivity.
Qed.

Lemma forallb_ext {A} (f g : A -> bool) l : (forall x, f x = g x) -> forallb f l = forallb g l.
Proof. intro H. induction l as [|x l IH]; cbn; [reflexivity|]. rewrite H, IH. reflexivity. Qed.

Lemma find_ext {A} (f g : A -> bool) l : (forall x, f x = g x) -> find f l = find g l.
Proof. intro H. induction l as [|x l IH]; cbn; [reflexivity|]. rewrite H, IH. reflexivity. Qed.

Lemma forallb_fold (P : N -> bool) s : (forall c, P (fold_byte c) = P c) -> forallb P (map fold_byte s) = forallb P s.
Proof. intro H. induction s as [|c s IH]; cbn; [reflexivity|]. rewrite H, IH. reflexivity. Qed.

Lemma bytes_ok_ext f g s : (forall c, f c = g c) -> bytes_ok f s = bytes_ok g s.
Proof. intro H. destruct s as [|c r]; [reflexivity|]. cbn. f_equal. apply forallb_ext. exact H. Qed.

Lemma n_valid_part_spec k s : n_valid_part k s = (length s <=? max_len k)%nat && bytes_ok (n_char_ok k) s.
Proof.
  unfold n_valid_part. rewrite n_valid_runes_as_m, m_valid_runes_first by lia. f_equal.
  apply bytes_ok_ext. intro c. symmetry. apply nchar_as_mchar.
Qed.

Lemma n_valid_m_valid k s : k <> KDigest -> m_valid_part k s = nonempty s && n_valid_part k s.
Proof.
  intro Hk. rewrite m_valid_part_spec, n_valid_part_spec.
  rewrite (bytes_ok_ext (n_char_ok k) (m_char_ok k)) by (intro; apply nchar_mchar; assumption).
  destruct s; reflexivity.
Qed.

Definition part_ok (k : pk) (s : str) : Prop :=
  (1 <= length s <= max_len k)%nat /\
  (exists c r, s = c :: r /\ is_alnum_us c = true) /\
  Forall (fun c => m_char_ok k c = true) s.

Lemma m_valid_part_ok k s : m_valid_part k s = true <-> part_ok k s.
Proof.
  rewrite m_valid_part_spec. unfold part_ok. split.
  - intro H. apply andb_true_iff in H as [H H3]. apply andb_true_iff in H as [H1 H2].
    destruct s as [|c r]; [cbn in H1; discriminate|]. cbn [bytes_ok] in H3. apply andb_true_iff in H3 as [Hc Hr].
    split; [lia|]. split; [exists c, r; split; [reflexivity|assumption]|].
    constructor; [apply alnum_mchar; assumption|]. apply Forall_forall. intros x Hx. eapply forallb_forall in Hr; eassumption.
  - intros (Hl & (c & r & -> & Hc) & Hall). inversion Hall as [|? ? _ Hr]; subst.
    apply andb_true_iff; split; [apply andb_true_iff; split; lia|].
    cbn [bytes_ok]. rewrite Hc. cbn. apply forallb_forall. rewrite Forall_forall in Hr. exact Hr.
Qed.

Lemma part_ok_no_slash k s : part_ok k s -> ~ In c_slash s.
Proof.
  intros (_ & _ & Hall) Hin. rewrite Forall_forall in Hall. apply Hall in Hin. apply mchar_facts in Hin as [H _]. congruence.
Qed.

Lemma part_ok_no_colon k s : k <> KHost -> k <> KDigest -> part_ok k s -> ~ In c_colon s.
Proof.
  intros H1 H2 (_ & _ & Hall) Hin. rewrite Forall_forall in Hall. apply Hall in Hin.
  apply (mchar_nocolon k _ H1 H2) in Hin. congruence.
Qed.

Lemma part_ok_ascii k s : part_ok k s -> Forall (fun c => c < 128) s.
Proof. intros (_ & _ & Hall). eapply Forall_impl; [|exact Hall]. intros c H. apply mchar_facts in H as [_ H]. exact H. Qed.

Lemma part_ok_nonempty k s : part_ok k s -> s <> [].
Proof. intros (_ & (c & r & -> & _) & _). discriminate. Qed.

Lemma part_ok_safe k s : part_ok k s -> safe_comp s.
Proof.
  intro H. pose proof (part_ok_no_slash k s H) as Hs. destruct H as (_ & (c & r & -> & Hc) & _).
  apply alnum_facts in Hc as (_ & _ & Hc & _). unfold safe_comp, s_dot, s_dotdot. repeat split; try discriminate; try assumption.
  - intro E. injection E as E _. unfold c_dot in Hc. congruence.
  - intro E. injection E as E _. unfold c_dot in Hc. congruence.
Qed.

Lemma nonempty_true s : s <> [] -> nonempty s = true.
Proof. destruct s; [congruence|reflexivity]. Qed.

Lemma not_in_app {A} (x : A) a b : ~ In x a -> ~ In x b -> ~ In x (a ++ b).
Proof. intros Ha Hb H. apply in_app_or in H as [H|H]; contradiction. Qed.

Lemma last_index_before c s r : ~ In c r -> (last_index c (s ++ r) < Z.of_nat (length s))%Z.
Proof.
  intro Hr. pose proof (cut_last_by_spec (N.eqb c) s) as Hs. destruct (cut_last_by (N.eqb c) s) as [[[b d] a]|].
  - destruct Hs as (-> & Hd & Ha). apply N.eqb_eq in Hd. subst d. rewrite <- app_assoc. cbn [app].
    rewrite last_index_app by (apply not_in_app; [apply none_sat_eqb, Ha|exact Hr]). rewrite app_length. cbn [length]. lia.
  - rewrite last_index_none by (apply not_in_app; [apply none_sat_eqb, Hs|exact Hr]). lia.
Qed.

(** the printed form before the tag, the same in both packages *)
Definition front_string (h ns m : str) : str :=
  (if nonempty h then h ++ [c_slash] else []) ++ (if nonempty ns then ns ++ [c_slash] else []) ++ m.

Lemma m_string_front h ns m t :
  m_string (MkM h ns m t) = front_string h ns m ++ (if nonempty t then c_colon :: t else []).
Proof. unfold m_string, front_string. cbn [mH mN mM mT]. rewrite <- !app_assoc. reflexivity. Qed.

Lemma front_string_n ns m : ns <> [] -> front_string [] ns m = ns ++ c_slash :: m.
Proof. intro H. unfold front_string. rewrite (nonempty_true ns H). cbn [nonempty app]. rewrite <- app_assoc. reflexivity. Qed.

Lemma front_string_hn h ns m : h <> [] -> ns <> [] -> front_string h ns m = (h ++ c_slash :: ns) ++ c_slash :: m.
Proof.
  intros Hh Hn. unfold front_string. rewrite (nonempty_true h Hh), (nonempty_true ns Hn).
  repeat (rewrite <- app_assoc; cbn [app]). reflexivity.
Qed.

Lemma front_string_nonempty h ns m : m <> [] -> front_string h ns m <> [].
Proof. intros Hm E. unfold front_string in E. apply app_eq_nil in E as [_ E]. apply app_eq_nil in E as [_ E]. contradiction. Qed.

Definition fq_parts (h n m t : str) : Prop := part_ok KHost h /\ part_ok KNamespace n /\ part_ok KModel m /\ part_ok KTag t.

Lemma m_is_fq_parts h n m t : m_is_fq (MkM h n m t) = true <-> fq_parts h n m t.
Proof.
  unfold m_is_fq, fq_parts. cbn [mH mN mM mT]. rewrite !andb_true_iff, !m_valid_part_ok. tauto.
Qed.

Lemma no_scheme_sep h : ~ In c_slash h -> cut_sub s_scheme_sep h = None.
Proof.
  intro H. unfold cut_sub. destruct (index_of h s_scheme_sep) eqn:E; [|reflexivity].
  apply index_of_some in E as (a & b & -> & _). exfalso. apply H.
  apply in_or_app. right. unfold s_scheme_sep. cbn. right. left. reflexivity.
Qed.

(** textually the part of [Model.m_parse_bare] after the tag is cut off ([m_parse_bare_eq] is by conversion): model,
    namespace and host are cut from the right *)
Definition m_parse_front (s1 tag : str) : mname :=
  let '(s2, mdl, p1) := cut_promised c_slash s1 in
  if negb p1 then MkM [] [] s1 tag
  else
    let '(s3, ns, p2) := cut_promised c_slash s2 in
    if negb p2 then MkM [] s2 mdl tag
    else
      let host := match cut_sub s_scheme_sep s3 with Some (_, after) => after | None => s3 end in
      MkM host ns mdl tag.

Lemma m_parse_bare_eq s :
  m_parse_bare s =
  let '(s1, tag) := if (last_index c_colon s >? last_index c_slash s)%Z
                    then let '(b, a, _) := cut_promised c_colon s in (b, a) else (s, []) in
  m_parse_front s1 tag.
Proof. reflexivity. Qed.

Lemma m_parse_front_string h ns m tag :
  (h = [] \/ part_ok KHost h) -> (ns = [] \/ part_ok KNamespace ns) -> part_ok KModel m -> (h <> [] -> ns <> []) ->
  m_parse_front (front_string h ns m) tag = MkM h ns m tag.
Proof.
  intros Hh Hn Hm Hhn. unfold m_parse_front.
  pose proof (part_ok_no_slash _ _ Hm) as Sm. pose proof (part_ok_nonempty _ _ Hm) as Nm.
  destruct Hn as [->|Hn].
  - destruct h as [|c r]; [|exfalso; apply Hhn; [discriminate|reflexivity]].
    cbn [front_string nonempty app]. rewrite cut_promised_none by exact Sm. reflexivity.
  - pose proof (part_ok_no_slash _ _ Hn) as Sn. pose proof (part_ok_nonempty _ _ Hn) as Nn.
    destruct Hh as [->|Hh].
    + rewrite front_string_n, cut_promised_app by assumption. cbn [negb]. rewrite cut_promised_none by exact Sn. reflexivity.
    + pose proof (part_ok_no_slash _ _ Hh) as Sh. pose proof (part_ok_nonempty _ _ Hh) as Nh.
      rewrite front_string_hn, cut_promised_app by (try assumption; destruct h; discriminate). cbn [negb].
      rewrite cut_promised_app by assumption. cbn [negb]. rewrite no_scheme_sep by exact Sh. reflexivity.
Qed.

(** a host may contain ':', but the last ':' of the printed name is the tag's *)
Lemma m_parse_bare_front h ns m t :
  (h = [] \/ part_ok KHost h) -> (ns = [] \/ part_ok KNamespace ns) -> part_ok KModel m -> part_ok KTag t -> (h <> [] -> ns <> []) ->
  m_parse_bare (front_string h ns m ++ c_colon :: t) = MkM h ns m t.
Proof.
  intros Hh Hn Hm Ht Hhn. rewrite <- (m_parse_front_string h ns m t Hh Hn Hm Hhn).
  pose proof (part_ok_no_slash _ _ Ht) as St. pose proof (part_ok_nonempty _ _ Ht) as Nt.
  assert (Ct : ~ In c_colon t) by (eapply part_ok_no_colon; [| |eassumption]; discriminate).
  pose proof (front_string_nonempty h ns m (part_ok_nonempty _ _ Hm)) as Nf.
  assert (Sct : ~ In c_slash (c_colon :: t)) by (intros [E|E]; [discriminate E|exact (St E)]).
  pose proof (last_index_before c_slash (front_string h ns m) (c_colon :: t) Sct) as Hlt.
  rewrite m_parse_bare_eq, (last_index_app c_colon) by exact Ct.
  destruct (Z.gtb_spec (Z.of_nat (length (front_string h ns m))) (last_index c_slash (front_string h ns m ++ c_colon :: t))) as [_|Hle]; [|lia].
  rewrite cut_promised_app by assumption. reflexivity.
Qed.

Lemma m_roundtrip n : m_is_fq n = true -> m_parse (m_string n) = n.
Proof.
  destruct n as [h ns m t]. intro H. apply m_is_fq_parts in H as (Hh & Hn & Hm & Ht).
  pose proof (part_ok_nonempty _ _ Hh) as Nh. pose proof (part_ok_nonempty _ _ Hn) as Nn. pose proof (part_ok_nonempty _ _ Ht) as Nt.
  rewrite m_string_front, (nonempty_true t Nt). unfold m_parse. rewrite m_parse_bare_front by auto.
  unfold m_merge. cbn [mH mN mM mT]. rewrite !or_str_nonempty by assumption. reflexivity.
Qed.

Definition nosep (s : str) : Prop := none_sat is_slash_or_colon s.

Lemma part_ok_nosep k s : k <> KHost -> k <> KDigest -> part_ok k s -> nosep s.
Proof.
  intros H1 H2 H. pose proof (part_ok_no_slash k s H) as Hs. pose proof (part_ok_no_colon k s H1 H2 H) as Hc.
  apply Forall_forall. intros c Hin. unfold is_slash_or_colon. apply orb_false_iff. split; apply N.eqb_neq; intros ->; contradiction.
Qed.

Lemma cut_last_any_app p b d a : p d = true -> none_sat p a -> cut_last_any p (b ++ d :: a) = (b, a, d).
Proof. intros Hd Ha. unfold cut_last_any. rewrite cut_last_by_app by assumption. reflexivity. Qed.

Lemma cut_last_any_none p s : none_sat p s -> cut_last_any p s = ([], s, 0).
Proof. intro H. unfold cut_last_any. rewrite cut_last_by_none_intro by assumption. reflexivity. Qed.

Lemma loop_colon f b a acc :
  nosep a -> n_parse_loop (S f) (b ++ c_colon :: a) acc = n_parse_loop f b (MkN (nH acc) (nN acc) (nM acc) a).
Proof. intro H. cbn [n_parse_loop]. rewrite cut_last_any_app by (try assumption; reflexivity). reflexivity. Qed.

Lemma loop_slash f b a acc :
  nosep a ->
  n_parse_loop (S f) (b ++ c_slash :: a) acc =
  let '(h, ns, _) := cut_last_any (N.eqb c_slash) b in Some (MkN h ns a (nT acc)).
Proof. intro H. cbn [n_parse_loop]. rewrite cut_last_any_app by (try assumption; reflexivity). reflexivity. Qed.

Lemma loop_plain f s acc : nosep s -> n_parse_loop (S f) s acc = Some (MkN (nH acc) (nN acc) s (nT acc)).
Proof. intro H. cbn [n_parse_loop]. rewrite cut_last_any_none by assumption. reflexivity. Qed.

Lemma n_parse_loop_total f s acc : (length s < f)%nat -> n_parse_loop f s acc <> None.
Proof.
  revert s acc; induction f as [|f IH]; intros s acc Hl; [lia|].
  cbn [n_parse_loop]. unfold cut_last_any.
  pose proof (cut_last_by_spec is_slash_or_colon s) as Hs.
  destruct (cut_last_by is_slash_or_colon s) as [[[b d] a]|].
  - destruct Hs as (-> & Hd & _). destruct (d =? c_colon).
    + apply IH. rewrite app_length in Hl. cbn in Hl. lia.
    + destruct (d =? c_slash); [destruct (cut_last_by (N.eqb c_slash) b) as [[[? ?] ?]|]|]; discriminate.
  - cbn. discriminate.
Qed.

Definition n_parts_ok (h ns m t : str) : Prop :=
  (h <> [] -> ns <> []) /\ (h = [] \/ part_ok KHost h) /\ (ns = [] \/ part_ok KNamespace ns) /\ (t = [] \/ part_ok KTag t) /\
  part_ok KModel m.

Lemma opt_part_ok k s : k <> KDigest -> (negb (nonempty s) || n_valid_part k s = true <-> s = [] \/ part_ok k s).
Proof.
  intro Hk. rewrite <- m_valid_part_ok, (n_valid_m_valid k s Hk). destruct s as [|c r]; cbn.
  - split; [left; reflexivity|reflexivity].
  - split; [intro H; right; exact H|intros [H|H]; [discriminate|exact H]].
Qed.

Lemma n_is_valid_parts h ns m t : n_is_valid (MkN h ns m t) = true <-> n_parts_ok h ns m t.
Proof.
  assert (Hx : negb (nonempty h && negb (nonempty ns)) = true <-> (h <> [] -> ns <> [])).
  { destruct h, ns; cbn; split; intros; try congruence; try discriminate. exfalso. apply H; [discriminate|reflexivity]. }
  unfold n_is_valid, n_parts_ok. cbn [nH nN nM nT]. rewrite <- (n_valid_m_valid KModel m) by discriminate.
  rewrite !andb_true_iff, !opt_part_ok by discriminate. rewrite m_valid_part_ok, Hx, <- !and_assoc. reflexivity.
Qed.

Lemma n_string_front h ns m t :
  n_string (MkN h ns m t) = front_string h ns m ++ (if nonempty t then c_colon :: t else []).
Proof. unfold n_string, front_string. cbn [nH nN nM nT]. rewrite <- !app_assoc. reflexivity. Qed.

Lemma loop_front f h ns m am at_ :
  (h = [] \/ part_ok KHost h) -> (ns = [] \/ part_ok KNamespace ns) -> part_ok KModel m -> (h <> [] -> ns <> []) ->
  n_parse_loop (S f) (front_string h ns m) (MkN [] [] am at_) = Some (MkN h ns m at_).
Proof.
  intros Hh Hn Hm Hhn.
  assert (Sm : nosep m) by (eapply part_ok_nosep; [| |eassumption]; discriminate).
  destruct Hn as [->|Hn].
  - destruct h as [|c r]; [|exfalso; apply Hhn; [discriminate|reflexivity]].
    cbn [front_string nonempty app]. apply loop_plain. assumption.
  - pose proof (part_ok_no_slash _ _ Hn) as Sn. pose proof (part_ok_nonempty _ _ Hn) as Nn.
    destruct Hh as [->|Hh].
    + rewrite front_string_n, loop_slash by assumption.
      rewrite cut_last_any_none by (apply none_sat_eqb; assumption). reflexivity.
    + rewrite front_string_hn, loop_slash by (try assumption; eapply part_ok_nonempty; eassumption).
      rewrite cut_last_any_app by (try apply N.eqb_refl; apply none_sat_eqb; assumption). reflexivity.
Qed.

Lemma opt_len k s : (s = [] \/ part_ok k s) -> (length s <= max_len k)%nat.
Proof. intros [->|(H & _)]; [cbn; lia|lia]. Qed.

Lemma front_string_len h ns m : (length (front_string h ns m) <= length h + length ns + length m + 2)%nat.
Proof.
  unfold front_string. rewrite !app_length. destruct (nonempty h), (nonempty ns); rewrite ?app_length; cbn [length]; lia.
Qed.

Lemma n_roundtrip n : n_is_valid n = true -> n_parse (n_string n) = n.
Proof.
  destruct n as [h ns m t]. intro H. apply n_is_valid_parts in H as (Hhn & Hh & Hn & Ht & Hm).
  pose proof (opt_len _ _ Hh) as Lh. pose proof (opt_len _ _ Hn) as Ln. pose proof (opt_len _ _ Ht) as Lt.
  assert (Lm : (length m <= 80)%nat) by (destruct Hm as (Hm & _); cbn in Hm; lia).
  cbn [max_len] in Lh, Ln, Lt. pose proof (front_string_len h ns m) as Lf.
  unfold n_parse. rewrite n_string_front.
  destruct Ht as [->|Ht].
  - cbn [nonempty]. rewrite app_nil_r.
    assert (Hlen : (max_name_length <? length (front_string h ns m))%nat = false) by (unfold max_name_length; lia).
    rewrite Hlen. unfold n_empty. rewrite loop_front by assumption. reflexivity.
  - rewrite (nonempty_true t) by (eapply part_ok_nonempty; eassumption).
    assert (Lt' : (length t <= 80)%nat) by lia.
    assert (Hlen : (max_name_length <? length (front_string h ns m ++ c_colon :: t))%nat = false).
    { rewrite app_length. cbn [length]. unfold max_name_length. lia. }
    rewrite Hlen.
    assert (St : nosep t) by (eapply part_ok_nosep; [| |eassumption]; discriminate).
    rewrite loop_colon by assumption.
    rewrite app_length. cbn [length]. rewrite Nat.add_succ_r. unfold n_empty. cbn [nH nN nM].
    rewrite loop_front by assumption. reflexivity.
Qed.

(** on the unchanged tree the round trip fails for a host without a namespace *)
Lemma n_roundtrip_unrepaired_witness :
  let n := n_parse [104; 47; 47; 109] in    (* "h//m" *)
  n_is_valid_unrepaired n = true /\ n_parse (n_string n) <> n.
Proof. vm_compute. split; [reflexivity|discriminate]. Qed.

Lemma n_is_valid_repair n : n_is_valid n = negb (nonempty (nH n) && negb (nonempty (nN n))) && n_is_valid_unrepaired n.
Proof. unfold n_is_valid, n_is_valid_unrepaired. rewrite !andb_assoc. reflexivity. Qed.

Lemma fq_same h n m t : m_is_fq (MkM h n m t) = n_is_fq (MkN h n m t).
Proof.
  unfold m_is_fq, n_is_fq, n_is_valid. cbn [mH mN mM mT nH nN nM nT].
  rewrite !n_valid_m_valid by discriminate.
  destruct (nonempty h), (nonempty n), (nonempty m), (nonempty t); cbn [negb andb orb];
    rewrite ?andb_false_r, ?andb_true_r; try reflexivity.
  rewrite <- !andb_assoc. do 2 f_equal. apply andb_comm.
Qed.

Lemma n_is_fq_valid n : n_is_fq n = true -> n_is_valid n = true.
Proof. unfold n_is_fq. rewrite !andb_true_iff. tauto. Qed.

Lemma mn_string_same h n m t : m_string (MkM h n m t) = n_string (MkN h n m t).
Proof. reflexivity. Qed.

Lemma m_eqb_spec a b : m_eqb a b = true <-> a = b.
Proof.
  destruct a as [h1 n1 m1 t1], b as [h2 n2 m2 t2]. unfold m_eqb. cbn [mH mN mM mT]. rewrite !andb_true_iff, !eqb_str_spec. split.
  - intros (((-> & ->) & ->) & ->). reflexivity.
  - intros [= -> -> -> ->]. repeat split.
Qed.

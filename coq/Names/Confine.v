(** C13 - confinement: every path derived from an accepted name / relative path / digest is the (cleaned) root
    extended by a fixed number of validated elements. *)
From Coq Require Import List NArith ZArith Bool Arith Lia ZifyBool ZifyNat ZifyN.
From V Require Import Common.Bytes Names.Path Names.Model Names.PathProofs Names.Proofs.
Import ListNotations.
Open Scope N_scope.

Lemma manifests_ok : part_ok KModel s_manifests.
Proof. apply m_valid_part_ok. reflexivity. Qed.

Lemma manifests_safe : safe_comp s_manifests.
Proof. exact (part_ok_safe _ _ manifests_ok). Qed.

Lemma blobs_safe : safe_comp s_blobs.
Proof. apply (part_ok_safe KModel), m_valid_part_ok. reflexivity. Qed.

Lemma fq_parts_safe h n m t : fq_parts h n m t -> Forall safe_comp [h; n; m; t].
Proof. intros (Hh & Hn & Hm & Ht). repeat constructor; eapply part_ok_safe; eassumption. Qed.

Lemma m_filepath_fq h n m t :
  fq_parts h n m t -> m_filepath (MkM h n m t) = Ok (intercalate [c_slash] [h; n; m; t]).
Proof.
  intro H. unfold m_filepath. rewrite (proj2 (m_is_fq_parts h n m t) H). cbn [mH mN mM mT].
  rewrite fp_join_safe; [reflexivity|apply fq_parts_safe; assumption|discriminate].
Qed.

Lemma m_filepath_cases n :
  (m_is_fq n = false /\ m_filepath n = Panic) \/
  (fq_parts (mH n) (mN n) (mM n) (mT n) /\ m_filepath n = Ok (intercalate [c_slash] [mH n; mN n; mM n; mT n])).
Proof.
  destruct (m_is_fq n) eqn:E; [right|left; split; [reflexivity|unfold m_filepath; rewrite E; reflexivity]].
  destruct n as [h ns m t]. apply m_is_fq_parts in E. split; [exact E|apply m_filepath_fq, E].
Qed.

(** the join of manifest.go, images.go and GetManifestPath *)
Lemma manifest_join root h n m t :
  fq_parts h n m t ->
  fp_join [root; s_manifests; intercalate [c_slash] [h; n; m; t]] = path_append (fp_clean root) [s_manifests; h; n; m; t].
Proof. intro H. apply fp_join_under_cons; [exact manifests_safe|apply fq_parts_safe, H]. Qed.

Lemma mp_manifest_path_cases root mp :
  (mp_manifest_path root mp = Err ENotExist /\ m_is_fq (mp_name mp) = false) \/
  (fq_parts (mpRegistry mp) (mpNamespace mp) (mpRepository mp) (mpTag mp) /\
   mp_manifest_path root mp =
   Ok (path_append (fp_clean root) [s_manifests; mpRegistry mp; mpNamespace mp; mpRepository mp; mpTag mp])).
Proof.
  unfold mp_manifest_path, m_is_valid, mp_name. destruct (m_is_fq _) eqn:E; [right|left; split; reflexivity].
  apply m_is_fq_parts in E. split; [exact E|]. rewrite m_filepath_fq, manifest_join by exact E. reflexivity.
Qed.

Lemma m_name_manifest_path root n :
  m_is_fq n = true ->
  exists fp, m_filepath n = Ok fp /\
             fp_join [root; s_manifests; fp] = path_append (fp_clean root) [s_manifests; mH n; mN n; mM n; mT n].
Proof.
  intro H. destruct (m_filepath_cases n) as [[E _]|[P E]]; [congruence|].
  eexists. split; [exact E|apply manifest_join, P].
Qed.

Lemma m_parse_from_filepath_cases s :
  m_parse_from_filepath s = m_empty \/
  exists h n m t, fq_parts h n m t /\ m_parse_from_filepath s = MkM h n m t /\ s = intercalate [c_slash] [h; n; m; t].
Proof.
  unfold m_parse_from_filepath. pose proof (intercalate_split c_slash s) as Hs.
  destruct (split_on c_slash s) as [|a [|b [|c [|d [|e l]]]]]; try (left; reflexivity).
  cbv zeta. destruct (m_is_fq (MkM a b c d)) eqn:E; [|left; reflexivity].
  right. exists a, b, c, d. apply m_is_fq_parts in E. split; [exact E|]. split; [reflexivity|].
  symmetry. exact Hs.
Qed.

Lemma m_parse_from_filepath_roundtrip h n m t :
  fq_parts h n m t -> m_parse_from_filepath (intercalate [c_slash] [h; n; m; t]) = MkM h n m t.
Proof.
  intro H. unfold m_parse_from_filepath.
  rewrite split_on_intercalate; [|discriminate|apply safe_no_slash, fq_parts_safe; assumption].
  rewrite (proj2 (m_is_fq_parts h n m t) H). reflexivity.
Qed.

Lemma list_ind2 {A} (P : list A -> Prop) :
  P [] -> (forall a, P [a]) -> (forall a b r, P r -> P (a :: b :: r)) -> forall l, P l.
Proof.
  intros H0 H1 H2. fix IH 1. intros [|a [|b r]]; [exact H0|apply H1|apply H2, IH].
Qed.

Lemma hex_val_some a x : hex_val a = Some x -> is_hex a = true /\ x < 16 /\ hex_digit x = fold_byte a.
Proof.
  unfold hex_val, hex_digit. intro H. unf.
  destruct ((48 <=? a) && (a <=? 57)) eqn:E1;
    [|destruct ((97 <=? a) && (a <=? 102)) eqn:E2; [|destruct ((65 <=? a) && (a <=? 70)) eqn:E3; [|discriminate]]];
    injection H as <-; (split; [lia|split; [lia|]]);
    destruct (_ <? 10) eqn:E; destruct ((65 <=? a) && (a <=? 90)) eqn:E'; lia.
Qed.

Lemma hex_val_total a : is_hex a = true -> exists x, hex_val a = Some x.
Proof.
  unfold hex_val. intro H. unf.
  destruct ((48 <=? a) && (a <=? 57)) eqn:E1; [eexists; reflexivity|].
  destruct ((97 <=? a) && (a <=? 102)) eqn:E2; [eexists; reflexivity|].
  destruct ((65 <=? a) && (a <=? 70)) eqn:E3; [eexists; reflexivity|]. lia.
Qed.

Lemma div16 x y : y < 16 -> (16 * x + y) / 16 = x /\ (16 * x + y) mod 16 = y.
Proof.
  intro H. split.
  - rewrite N.mul_comm, N.div_add_l by discriminate. rewrite N.div_small by assumption. lia.
  - rewrite N.add_comm, N.mul_comm, N.mod_add by discriminate. apply N.mod_small. assumption.
Qed.

Lemma hex_decode_cons2 a b r :
  hex_decode (a :: b :: r) =
  match hex_val a, hex_val b, hex_decode r with
  | Some x, Some y, Some t => Some ((16 * x + y) :: t)
  | _, _, _ => None
  end.
Proof. reflexivity. Qed.

Lemma hex_decode_some x d :
  hex_decode x = Some d -> forallb is_hex x = true /\ hex_encode d = map fold_byte x /\ length x = (2 * length d)%nat.
Proof.
  revert d. induction x as [| a | a b r IH] using list_ind2; intros d H.
  - injection H as <-. repeat split.
  - discriminate.
  - rewrite hex_decode_cons2 in H. destruct (hex_val a) as [xa|] eqn:Ea; [|discriminate]. destruct (hex_val b) as [xb|] eqn:Eb; [|discriminate].
    destruct (hex_decode r) as [t|] eqn:Er; [|discriminate].
    remember (16 * xa + xb) as z eqn:Ez. injection H as <-.
    destruct (IH t eq_refl) as (H1 & H2 & H3).
    apply hex_val_some in Ea as (Ha1 & Ha2 & Ha3). apply hex_val_some in Eb as (Hb1 & Hb2 & Hb3).
    destruct (div16 xa xb Hb2) as [D1 D2]. rewrite <- Ez in D1, D2.
    repeat split.
    + cbn [forallb]. rewrite Ha1, Hb1, H1. reflexivity.
    + change (hex_encode (z :: t)) with (hex_digit (z / 16) :: hex_digit (z mod 16) :: hex_encode t).
      rewrite D1, D2, Ha3, Hb3. cbn [map]. f_equal. f_equal. exact H2.
    + cbn [length]. clear - H3. lia.
Qed.

Lemma hex_decode_total x : forallb is_hex x = true -> Nat.even (length x) = true -> exists d, hex_decode x = Some d.
Proof.
  induction x as [| a | a b r IH] using list_ind2; intros H He.
  - eexists; reflexivity.
  - discriminate.
  - cbn [forallb] in H. apply andb_true_iff in H as [Ha H]. apply andb_true_iff in H as [Hb H].
    destruct (hex_val_total a Ha) as [xa Ea]. destruct (hex_val_total b Hb) as [xb Eb].
    destruct (IH H He) as [t Et]. rewrite hex_decode_cons2, Ea, Eb, Et. eexists; reflexivity.
Qed.

(** ^sha256[:-][0-9a-fA-F]{64}$ *)
Definition digest_shape (d : str) (hexs : str) : Prop :=
  exists sep, d = s_sha256 ++ sep :: hexs /\ (sep = c_colon \/ sep = c_dash) /\ length hexs = 64%nat /\ forallb is_hex hexs = true.

Lemma digest_re_shape d : digest_re_match d = true <-> exists hexs, digest_shape d hexs.
Proof.
  unfold digest_re_match, digest_shape. split.
  - intro H. apply andb_true_iff in H as [Hp H]. apply prefixb_spec in Hp as [r ->].
    change (skipn 6 (s_sha256 ++ r)) with r in H. destruct r as [|sep hexs]; [discriminate|].
    apply andb_true_iff in H as [H H3]. apply andb_true_iff in H as [H1 H2].
    exists hexs, sep. repeat split; [unf; lia|apply Nat.eqb_eq; assumption|assumption].
  - intros (hexs & sep & -> & Hsep & Hl & Hh).
    assert (Hp : prefixb s_sha256 (s_sha256 ++ sep :: hexs) = true) by (apply prefixb_spec; eexists; reflexivity).
    rewrite Hp. change (skipn 6 (s_sha256 ++ sep :: hexs)) with (sep :: hexs). cbn [andb].
    rewrite Hh, (proj2 (Nat.eqb_eq _ _) Hl). destruct Hsep as [-> | ->]; reflexivity.
Qed.

Lemma sha256_no_sep : none_sat is_colon_or_dash s_sha256.
Proof. unfold s_sha256. repeat constructor. Qed.

Lemma b_parse_digest_ok s sum :
  b_parse_digest s = Ok sum -> exists hexs, digest_shape s hexs /\ hex_encode sum = map fold_byte hexs /\ length sum = 32%nat.
Proof.
  unfold b_parse_digest. pose proof (cut_first_by_spec is_colon_or_dash s) as Hc.
  destruct (cut_first_by is_colon_or_dash s) as [[[prefix sep] hexs]|]; [|discriminate].
  destruct Hc as (-> & Hsep & _).
  destruct (eqb_str prefix s_sha256) eqn:Ep; [|discriminate]. apply eqb_str_spec in Ep. subst prefix. cbn [negb orb].
  destruct (length hexs =? 64)%nat eqn:El; [|discriminate]. apply Nat.eqb_eq in El. cbn [negb].
  destruct (hex_decode hexs) as [d|] eqn:Ed; [|discriminate]. intros [= <-].
  apply hex_decode_some in Ed as (H1 & H2 & H3).
  exists hexs. split; [|split; [exact H2|lia]].
  exists sep. repeat split; try assumption. unf. lia.
Qed.

Lemma b_parse_digest_total s hexs : digest_shape s hexs -> exists sum, b_parse_digest s = Ok sum.
Proof.
  intros (sep & -> & Hsep & Hl & Hh). unfold b_parse_digest.
  rewrite cut_first_by_app; [|exact sha256_no_sep|destruct Hsep as [-> | ->]; reflexivity].
  rewrite eqb_str_refl. cbn [negb orb]. rewrite (proj2 (Nat.eqb_eq _ _) Hl). cbn [negb].
  destruct (hex_decode_total hexs Hh) as [d Hd]; [rewrite Hl; reflexivity|]. rewrite Hd. eexists; reflexivity.
Qed.

Lemma digest_gates_agree s : digest_re_match s = true <-> exists sum, b_parse_digest s = Ok sum.
Proof.
  rewrite digest_re_shape. split.
  - intros [hexs H]. eapply b_parse_digest_total; eassumption.
  - intros [sum H]. apply b_parse_digest_ok in H as (hexs & H & _). exists hexs. exact H.
Qed.

Lemma is_hex_facts c : is_hex c = true -> c <> c_slash /\ c <> c_colon /\ c <> c_dot.
Proof. intro H. unf. lia. Qed.

Lemma blob_file_safe hexs : forallb is_hex hexs = true -> safe_comp (s_sha256 ++ c_dash :: hexs).
Proof.
  intro H. unfold safe_comp, s_sha256, s_dot, s_dotdot. cbn [app]. repeat split; try discriminate.
  intro Hin. cbn in Hin. repeat (destruct Hin as [Hin|Hin]; [discriminate Hin|]).
  eapply forallb_forall in H; [|exact Hin]. apply is_hex_facts in H as [H _]. congruence.
Qed.

Lemma replace_colon_digest sep hexs :
  (sep = c_colon \/ sep = c_dash) -> forallb is_hex hexs = true ->
  replace_byte c_colon c_dash (s_sha256 ++ sep :: hexs) = s_sha256 ++ c_dash :: hexs.
Proof.
  intros Hsep Hh. unfold replace_byte. rewrite map_app. cbn [map]. f_equal.
  f_equal; [destruct Hsep as [-> | ->]; reflexivity|].
  induction hexs as [|c r IH]; [reflexivity|]. cbn [forallb] in Hh. apply andb_true_iff in Hh as [Hc Hr].
  cbn [map]. rewrite IH by assumption. apply is_hex_facts in Hc as (_ & Hc & _).
  destruct (c =? c_colon) eqn:E; [apply N.eqb_eq in E; congruence|reflexivity].
Qed.

Lemma get_blobs_path_cases root d :
  (get_blobs_path root d = Err EInvalidDigest /\ d <> [] /\ digest_re_match d = false) \/
  (d = [] /\ get_blobs_path root d = Ok (path_append (fp_clean root) [s_blobs])) \/
  (exists hexs, digest_shape d hexs /\ safe_comp (s_sha256 ++ c_dash :: hexs) /\
                get_blobs_path root d = Ok (path_append (fp_clean root) [s_blobs; s_sha256 ++ c_dash :: hexs])).
Proof.
  unfold get_blobs_path. destruct d as [|c r].
  - right; left. split; [reflexivity|]. cbn [nonempty andb replace_byte map]. f_equal. apply (fp_join_under_cons root s_blobs []); [exact blobs_safe|constructor].
  - cbn [nonempty andb]. destruct (digest_re_match (c :: r)) eqn:E; cbn [negb].
    + right; right. apply digest_re_shape in E as [hexs Hs]. exists hexs.
      assert (Hsafe : safe_comp (s_sha256 ++ c_dash :: hexs)) by (destruct Hs as (_ & _ & _ & _ & Hh); apply blob_file_safe, Hh).
      split; [exact Hs|]. split; [exact Hsafe|].
      destruct Hs as (sep & -> & Hsep & Hl & Hh). rewrite replace_colon_digest by assumption.
      rewrite fp_join_under_pair; [reflexivity|exact blobs_safe|exact Hsafe].
    + left. repeat split; discriminate.
Qed.

Lemma b_get_file_abs cwd dir s sum :
  fp_is_abs dir = true -> b_parse_digest s = Ok sum ->
  exists hexs, digest_shape s hexs /\ safe_comp (s_sha256 ++ c_dash :: map fold_byte hexs) /\
               b_get_file cwd dir sum = path_append (fp_clean dir) [s_blobs; s_sha256 ++ c_dash :: map fold_byte hexs].
Proof.
  intros Ha Hp. apply b_parse_digest_ok in Hp as (hexs & Hs & He & _). exists hexs. split; [exact Hs|].
  destruct Hs as (_ & _ & _ & _ & Hh).
  assert (Hsafe : safe_comp (s_sha256 ++ c_dash :: map fold_byte hexs)).
  { apply blob_file_safe. rewrite (forallb_fold is_hex _ fold_hex). exact Hh. }
  split; [exact Hsafe|]. unfold b_get_file. cbn [app]. rewrite He.
  rewrite fp_join_under_pair by (exact blobs_safe || exact Hsafe).
  destruct (fp_under_abs_clean dir [s_blobs; s_sha256 ++ c_dash :: map fold_byte hexs] Ha) as [H1 H2];
    [constructor; [exact blobs_safe|constructor; [exact Hsafe|constructor]]|discriminate|].
  set (p := path_append (fp_clean dir) _) in *. unfold fp_abs. rewrite H1. exact H2.
Qed.

Lemma b_parse_digest_no_panic s : b_parse_digest s <> Panic.
Proof.
  unfold b_parse_digest. destruct (cut_first_by is_colon_or_dash s) as [[[p x] y]|]; [|discriminate].
  destruct (negb (eqb_str p s_sha256) || negb (length y =? 64)%nat); [discriminate|]. destruct (hex_decode y); discriminate.
Qed.

Lemma n_is_fq_parts h n m t : n_is_fq (MkN h n m t) = true <-> fq_parts h n m t.
Proof. rewrite <- fq_same. apply m_is_fq_parts. Qed.

Lemma b_name_to_path_ok name h n m t :
  n_parse name = MkN h n m t -> fq_parts h n m t -> b_name_to_path name = Ok (intercalate [c_slash] [h; n; m; t]).
Proof.
  intros Hp Hfq. unfold b_name_to_path. cbv zeta. rewrite Hp, (proj2 (n_is_fq_parts h n m t) Hfq). cbn [nH nN nM nT].
  rewrite fp_join_safe; [reflexivity|apply fq_parts_safe; assumption|discriminate].
Qed.

(** manifestPath relative to the cache directory: the common form of [b_manifest_path] (below) and of [Hist.c_target]
    (HistProofs.c_target_rel) *)
Definition rel_target (links : list str) (name : str) : res str :=
  match b_name_to_path name with
  | Ok np =>
      let maybe := fp_join [s_manifests; np] in
      Ok (match find (fun l => equal_fold_au maybe l) links with Some l => l | None => maybe end)
  | Err e => Err e
  | Panic => Panic
  end.

Lemma b_manifest_path_rel dir links name :
  b_manifest_path dir links name =
  match rel_target links name with Ok l => Ok (fp_join [dir; l]) | Err e => Err e | Panic => Panic end.
Proof.
  unfold b_manifest_path, rel_target. destruct (b_name_to_path name); [cbv zeta; destruct (find _ links)|..]; reflexivity.
Qed.

Lemma rel_target_ok links name h n m t :
  n_parse name = MkN h n m t -> fq_parts h n m t ->
  rel_target links name =
  Ok (match find (fun l => equal_fold_au (intercalate [c_slash] [s_manifests; h; n; m; t]) l) links with
      | Some l => l
      | None => intercalate [c_slash] [s_manifests; h; n; m; t]
      end).
Proof.
  intros Hp Hfq. unfold rel_target. rewrite (b_name_to_path_ok name h n m t Hp Hfq). cbv zeta.
  rewrite (fp_join_head s_manifests [h; n; m; t]); [reflexivity|exact manifests_safe|apply fq_parts_safe, Hfq|discriminate].
Qed.

Lemma rel_target_cases links name :
  (n_is_fq (n_parse name) = false /\ rel_target links name = Err EInvalidName) \/
  exists h n m t, n_parse name = MkN h n m t /\ fq_parts h n m t /\
    rel_target links name =
    Ok (match find (fun l => equal_fold_au (intercalate [c_slash] [s_manifests; h; n; m; t]) l) links with
        | Some l => l
        | None => intercalate [c_slash] [s_manifests; h; n; m; t]
        end).
Proof.
  destruct (n_is_fq (n_parse name)) eqn:F; [right|left; split; [reflexivity|unfold rel_target, b_name_to_path; cbv zeta; rewrite F; reflexivity]].
  destruct (n_parse name) as [h n m t] eqn:E. apply n_is_fq_parts in F.
  exists h, n, m, t. split; [reflexivity|]. split; [exact F|apply rel_target_ok; assumption].
Qed.

(** a link as yielded by c.links(): "manifests/a/b/c/d" with four directory entries *)
Definition link_wf (l : str) : Prop :=
  exists a b c d, Forall safe_comp [a; b; c; d] /\ l = intercalate [c_slash] [s_manifests; a; b; c; d].

Lemma b_manifest_path_cases dir links name :
  Forall link_wf links ->
  b_manifest_path dir links name = Err EInvalidName \/
  exists a b c d, Forall safe_comp [a; b; c; d] /\
                  b_manifest_path dir links name = Ok (path_append (fp_clean dir) [s_manifests; a; b; c; d]).
Proof.
  intro Hl. rewrite b_manifest_path_rel.
  destruct (rel_target_cases links name) as [[_ E]|(h & n & m & t & _ & Hfq & E)]; rewrite E; [left; reflexivity|right].
  destruct (find _ links) as [l|] eqn:Ef.
  - apply find_some in Ef as [Hin _]. rewrite Forall_forall in Hl. destruct (Hl _ Hin) as (a & b & c & d & Hsafe & ->).
    exists a, b, c, d. split; [assumption|].
    rewrite (fp_join_under dir (s_manifests :: [a; b; c; d])); [reflexivity|constructor; [exact manifests_safe|assumption]|discriminate].
  - exists h, n, m, t. pose proof (fq_parts_safe _ _ _ _ Hfq) as Hs. split; [assumption|].
    rewrite (fp_join_under dir (s_manifests :: [h; n; m; t])); [reflexivity|constructor; [exact manifests_safe|assumption]|discriminate].
Qed.

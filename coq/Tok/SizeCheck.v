(** The stale-candidate test of the SentencePiece merge loop ([len(left)+len(right) != pair.size]) is what keeps
    "every piece is a single rune or a token" true.  [spm_cells_nosize] is the same loop WITHOUT that test (a popped
    candidate is rejected only when one of its slots is empty): the text is still preserved, but a queued pair
    (X, Y) whose right slot has absorbed Z is merged into XYZ although only XY was looked up; a non-piece that
    contains U+2581 then goes through the byte fallback and decodes to a literal U+2581.  This is NOT the model
    of the code; it exists to show that the proof of C20_spm_merge_preserves_text depends on the test. *)
From Coq Require Import List NArith ZArith Bool Arith.
From V Require Import Common.Bytes Tok.Utf8 Tok.Heap Tok.Vocab Tok.Bpe Tok.Spm.
Import ListNotations.

Section NoSize.
  Variable v : vocab.

  Definition spm_step_nosize (len : Z) (cells : list cell) (p : cand) (h : list cand) : list cell * list cand :=
    let left := getc cells (ca p) in
    let right := getc cells (cb p) in
    if isnil (cr left) || isnil (cr right) then (cells, h)
    else
      let c4 := merge_cells cells (ca p) (cb p) in
      let h1 := spush_opt h (spairwise v len c4 (cp (getc c4 (ca p))) (ca p)) in
      let h2 := spush_opt h1 (spairwise v len c4 (ca p) (cn (getc c4 (ca p)))) in
      (c4, h2).

  Fixpoint spm_loop_nosize (fuel : nat) (len : Z) (cells : list cell) (h : list cand) : list cell * list cand :=
    match fuel with
    | O => (cells, h)
    | S f =>
      match hpop sless dcand h with
      | None => (cells, h)
      | Some (p, h') => let '(cells', h'') := spm_step_nosize len cells p h' in spm_loop_nosize f len cells' h''
      end
    end.

  Definition spm_cells_nosize (rs : list N) : list cell * list cand :=
    let len := Z.of_nat (length rs) in
    let cells := init_cells 0 rs in
    spm_loop_nosize (bpe_fuel (length rs)) len cells (sinit_heap v (length rs - 1) len cells 0 []).
End NoSize.

(** pieces U+2581, q, z, "U+2581 q" (score -5), "qz" (score -1), the byte tokens; no "U+2581 qz" *)
Definition sz_values : list str :=
  [sep; [113]; [122]; sep ++ [113]; [113; 122]]%N ++ map byte_token (map N.of_nat (seq 0 256)).
Definition sz_vocab : vocab :=
  vocab_of sz_values (repeat 1%N 261) ([0; 0; 0; -5; -1]%Z ++ repeat 0%Z 256) [] 0 0 false false.
(** the runes of " qz" after the space -> U+2581 replacement *)
Definition sz_runes : list N := [9601; 113; 122]%N.

Lemma sz_with_check : map cr (fst (spm_cells sz_vocab sz_runes)) = [[9601]; [113; 122]; []]%N.
Proof. vm_compute. reflexivity. Qed.

Lemma sz_without_check :
  map cr (fst (spm_cells_nosize sz_vocab sz_runes)) = [[9601; 113; 122]; []; []]%N /\
  venc sz_vocab (of_runes [9601; 113; 122]%N) = (-1)%Z /\
  spm_decode sz_vocab (spm_cell_ids sz_vocab (fst (spm_cells_nosize sz_vocab sz_runes))) = DOk (sep ++ [113; 122]%N).
Proof. vm_compute. repeat split; reflexivity. Qed.

(** What both merge loops share.
    Heap: it never invents elements and a push/pop changes its size by one; nothing about the order is used.
    Cells ([merge_cells]): for every NON-EMPTY cell i, the cells strictly between p(i) and i and between i and n(i)
    are empty ([CInv], one-sided); a queued pair (a, b) has a < b and only empty cells in between ([PV]).  Cells only
    ever become empty, so [PV] is stable, and merging two non-empty ends keeps the concatenation of all cells.
    Loop: pop; leave the state alone or merge the two ends and push at most two elements.  The fuel [3 * len + 1] is
    never exhausted, so the bounded loops stop as the code's [for !pairs.Empty()] / [for q.Len() > 0] do. *)
From Coq Require Import List NArith ZArith Bool Arith Lia.
From V Require Import Common.Bytes Tok.Heap Tok.Bpe.
Import ListNotations.

Section HeapFacts.
  Context {A : Type} (less : A -> A -> bool) (d : A).

  Lemma upd_length i x (l : list A) : length (upd i x l) = length l.
  Proof. revert i; induction l as [|y l IH]; intros [|i]; cbn; auto. Qed.

  Lemma upd_In i x (l : list A) y : In y (upd i x l) -> y = x \/ In y l.
  Proof.
    revert i; induction l as [|z l IH]; intros [|i]; cbn; try tauto.
    - intros [H|H]; auto.
    - intros [H|H]; auto. apply IH in H. tauto.
  Qed.

  Lemma swap_length i j (l : list A) : length (swap d i j l) = length l.
  Proof. unfold swap. rewrite !upd_length. reflexivity. Qed.

  Lemma swap_In i j (l : list A) y :
    i < length l -> j < length l -> In y (swap d i j l) -> In y l.
  Proof.
    intros Hi Hj H. unfold swap in H. apply upd_In in H as [->|H]; [apply nth_In, Hj|].
    apply upd_In in H as [->|H]; [apply nth_In, Hi|exact H].
  Qed.

  Lemma up_length fuel (l : list A) j : length (up less d fuel l j) = length l.
  Proof.
    revert l j; induction fuel as [|f IH]; intros l j; cbn [up]; [reflexivity|].
    destruct j; [reflexivity|]. destruct (less _ _); [|reflexivity]. rewrite IH. apply swap_length.
  Qed.

  Lemma up_In fuel (l : list A) j y : j < length l -> In y (up less d fuel l j) -> In y l.
  Proof.
    revert l j; induction fuel as [|f IH]; intros l j Hj H; cbn [up] in H; [exact H|].
    destruct j; [exact H|]. destruct (less _ _); [|exact H].
    assert (Hlt : Nat.div2 (S j - 1) < S j).
    { rewrite Nat.sub_succ, Nat.sub_0_r. pose proof (Nat.div2_decr j j). lia. }
    apply IH in H; [|rewrite swap_length; lia].
    apply swap_In in H; [exact H|lia|exact Hj].
  Qed.

  Lemma down_length fuel (l : list A) i n : length (down less d fuel l i n) = length l.
  Proof.
    revert l i; induction fuel as [|f IH]; intros l i; cbn [down]; [reflexivity|].
    destruct (n <=? 2 * i + 1); [reflexivity|]. destruct (less _ _); [|reflexivity].
    rewrite IH. apply swap_length.
  Qed.

  Lemma down_In fuel (l : list A) i n y : n <= length l -> In y (down less d fuel l i n) -> In y l.
  Proof.
    revert l i; induction fuel as [|f IH]; intros l i Hn H; cbn [down] in H; [exact H|].
    destruct (n <=? 2 * i + 1) eqn:E; [exact H|]. apply Nat.leb_gt in E.
    set (j := if (2 * i + 1 + 1 <? n) && less (nth (2 * i + 1 + 1) l d) (nth (2 * i + 1) l d)
              then 2 * i + 1 + 1 else 2 * i + 1) in *.
    assert (Hj : j < n).
    { subst j. destruct (2 * i + 1 + 1 <? n) eqn:E2; cbn [andb]; [|lia].
      apply Nat.ltb_lt in E2. destruct (less (nth (2 * i + 1 + 1) l d) (nth (2 * i + 1) l d)); lia. }
    destruct (less (nth j l d) (nth i l d)); [|exact H].
    apply IH in H; [|rewrite swap_length; exact Hn].
    apply swap_In in H; [exact H|lia|lia].
  Qed.

  Lemma hpush_length (h : list A) x : length (hpush less d h x) = S (length h).
  Proof. unfold hpush. rewrite up_length, app_length. cbn. lia. Qed.

  Lemma hpush_In (h : list A) x y : In y (hpush less d h x) -> y = x \/ In y h.
  Proof.
    unfold hpush. intros H. apply up_In in H; [|rewrite app_length; cbn; lia].
    apply in_app_or in H as [H|[H|[]]]; auto.
  Qed.

  Lemma hpop_spec (h : list A) x h' :
    hpop less d h = Some (x, h') -> In x h /\ incl h' h /\ S (length h') = length h.
  Proof.
    unfold hpop. destruct h as [|a h0] eqn:Eh; [discriminate|]. rewrite <- Eh.
    assert (Hlen : length h >= 1) by (subst h; cbn; lia).
    clear Eh. intros [= <- <-].
    set (n := length h - 1).
    set (l := swap d 0 n h).
    set (l' := down less d (length h) l 0 n).
    assert (Hl : length l = length h) by apply swap_length.
    assert (Hl' : length l' = length h) by (unfold l'; rewrite down_length; exact Hl).
    assert (Hin : forall y, In y l' -> In y h).
    { intros y Hy. unfold l' in Hy. apply down_In in Hy; [|unfold n; lia].
      unfold l in Hy. apply swap_In in Hy; [exact Hy|lia|unfold n; lia]. }
    split; [apply Hin, nth_In; unfold n; lia|]. split.
    - intros y Hy. apply Hin. rewrite <- (firstn_skipn n l'). apply in_or_app. left. exact Hy.
    - rewrite firstn_length, Hl'. unfold n. lia.
  Qed.

  Lemma hpop_none (h : list A) : hpop less d h = None -> h = [].
  Proof. unfold hpop. destruct h; [reflexivity|discriminate]. Qed.
End HeapFacts.

Open Scope Z_scope.

Lemma nth_upd_eq {A} i (x d : A) l : (i < length l)%nat -> nth i (upd i x l) d = x.
Proof. revert i; induction l as [|y l IH]; intros [|i] H; cbn in *; try lia; auto. apply IH. lia. Qed.

Lemma nth_upd_neq {A} i j (x d : A) l : i <> j -> nth j (upd i x l) d = nth j l d.
Proof.
  revert i j; induction l as [|y l IH]; intros [|i] [|j] H; cbn; try reflexivity; try congruence.
  apply IH. congruence.
Qed.

Lemma map_upd {A B} (f : A -> B) i x l : map f (upd i x l) = upd i (f x) (map f l).
Proof. revert i; induction l as [|y l IH]; intros [|i]; cbn; try reflexivity. f_equal. apply IH. Qed.

Lemma upd_nth_same {A} i (d : A) l : upd i (nth i l d) l = l.
Proof. revert i; induction l as [|y l IH]; intros [|i]; cbn; try reflexivity. f_equal. apply IH. Qed.

Lemma Forall_upd {A} (P : A -> Prop) i x l : Forall P l -> P x -> Forall P (upd i x l).
Proof.
  intros HF Hx. revert i; induction HF as [|y l Hy HF IH]; intros [|i]; cbn; constructor; auto.
Qed.

Lemma concat_upd_prefix_empty {A} (L : list (list A)) b :
  (b < length L)%nat -> (forall k, (k < b)%nat -> nth k L [] = []) ->
  nth b L [] ++ concat (upd b [] L) = concat L.
Proof.
  revert b; induction L as [|x L IH]; intros [|b] Hb He; cbn in *; try lia.
  - reflexivity.
  - assert (x = []) by (apply (He 0%nat); lia). subst x. cbn.
    apply IH; [lia|]. intros k Hk. apply (He (S k)). lia.
Qed.

Lemma concat_merge {A} (L : list (list A)) a b :
  (a < b)%nat -> (b < length L)%nat -> (forall k, (a < k)%nat -> (k < b)%nat -> nth k L [] = []) ->
  concat (upd b [] (upd a (nth a L [] ++ nth b L []) L)) = concat L.
Proof.
  revert a b; induction L as [|x L IH]; intros a b Hab Hb He; [cbn in Hb; lia|].
  destruct b as [|b]; [lia|]. destruct a as [|a]; cbn [upd nth concat].
  - rewrite <- app_assoc. f_equal. apply concat_upd_prefix_empty; [cbn in Hb; lia|].
    intros k Hk. apply (He (S k)); lia.
  - f_equal. apply IH; [lia|cbn in Hb; lia|]. intros k H1 H2. apply (He (S k)); lia.
Qed.

Definition live (L : list (list N)) : nat := length (filter (fun x => negb (isnil x)) L).
Definition live1 (x : list N) : nat := if isnil x then 0 else 1.

Lemma live_upd L i x : (i < length L)%nat -> (live (upd i x L) + live1 (nth i L []) = live L + live1 x)%nat.
Proof.
  revert i. induction L as [|y L IH]; intros i Hi; [cbn in Hi; lia|].
  destruct i as [|i]; unfold live, live1 in *; cbn [upd nth filter].
  - destruct (isnil x), (isnil y); cbn [negb length]; lia.
  - specialize (IH i ltac:(cbn in Hi; lia)). destruct (isnil y); cbn [negb length]; lia.
Qed.

Lemma isnil_true {A} (l : list A) : isnil l = true <-> l = [].
Proof. destruct l; cbn; split; congruence. Qed.
Lemma isnil_false {A} (l : list A) : isnil l = false <-> l <> [].
Proof. destruct l; cbn; split; congruence. Qed.

Definition zlen (cells : list cell) : Z := Z.of_nat (length cells).
Definition emp (cells : list cell) (k : Z) : Prop := cr (getc cells k) = [].

Lemma setc_length l i c : length (setc l i c) = length l.
Proof. apply (upd_length). Qed.

Lemma getc_setc_eq l i c : 0 <= i < zlen l -> getc (setc l i c) i = c.
Proof. unfold zlen, getc, setc. intros H. apply nth_upd_eq. lia. Qed.

Lemma getc_setc_neq l i j c : 0 <= i -> 0 <= j -> i <> j -> getc (setc l i c) j = getc l j.
Proof. unfold getc, setc. intros Hi Hj H. apply nth_upd_neq. lia. Qed.

Lemma getc_out l k : zlen l <= k -> getc l k = dcell.
Proof. unfold zlen, getc. intros H. apply nth_overflow. lia. Qed.

Lemma Forall_getc (P : cell -> Prop) cells k : P dcell -> Forall P cells -> P (getc cells k).
Proof.
  intros Hd HF. unfold getc. destruct (Nat.lt_ge_cases (Z.to_nat k) (length cells)) as [H|H].
  - rewrite Forall_forall in HF. apply HF, nth_In, H.
  - rewrite nth_overflow by exact H. exact Hd.
Qed.

Definition texts (cells : list cell) : list (list N) := map cr cells.
Definition text (cells : list cell) : list N := concat (texts cells).

Lemma texts_nth cells k : nth (Z.to_nat k) (texts cells) [] = cr (getc cells k).
Proof. unfold texts, getc. change (@nil N) with (cr dcell). apply map_nth. Qed.

Definition CInv (cells : list cell) : Prop :=
  forall i, 0 <= i < zlen cells -> ~ emp cells i ->
    -1 <= cp (getc cells i) < i /\ i < cn (getc cells i) /\
    (forall k, cp (getc cells i) < k < i -> emp cells k) /\
    (forall k, i < k < cn (getc cells i) -> emp cells k).

Definition PV (cells : list cell) (a b : Z) : Prop :=
  0 <= a < b /\ b < zlen cells /\ forall k, a < k < b -> emp cells k.

Lemma mc_Forall (P : list N -> Prop) cells a b :
  P [] -> Forall (fun c => P (cr c)) cells -> P (cr (getc cells a) ++ cr (getc cells b)) ->
  Forall (fun c => P (cr c)) (merge_cells cells a b).
Proof.
  intros Hnil HF Hab. unfold merge_cells.
  assert (H2 : Forall (fun c => P (cr c))
                 (setc (setc cells a {| cp := cp (getc cells a); cn := cn (getc cells b); cr := cr (getc cells a) ++ cr (getc cells b) |})
                       b {| cp := cp (getc cells b); cn := cn (getc cells b); cr := [] |})).
  { unfold setc. apply Forall_upd; [apply Forall_upd; [exact HF|exact Hab]|exact Hnil]. }
  destruct (_ <? _); [|exact H2].
  unfold setc at 1. apply Forall_upd; [exact H2|]. cbn [cr].
  apply (Forall_getc (fun c => P (cr c))); [exact Hnil|exact H2].
Qed.

Section Merge.
  Variables (cells : list cell) (a b : Z).
  Hypothesis HI : CInv cells.
  Hypothesis HP : PV cells a b.
  Hypothesis Ha : ~ emp cells a.
  Hypothesis Hb : ~ emp cells b.

  Let L := getc cells a.
  Let R := getc cells b.
  Let c := cn R.
  Let cells' := merge_cells cells a b.

  Lemma mc_order : 0 <= a < b /\ b < zlen cells /\ b < c.
  Proof. destruct HP as [Hab [Hbl _]]. destruct (HI b) as [_ [Hx _]]; [lia|exact Hb|]. auto. Qed.

  Lemma mc_length : length cells' = length cells.
  Proof.
    unfold cells', merge_cells. destruct (_ <? _); rewrite ?setc_length; reflexivity.
  Qed.

  Lemma mc_zlen : zlen cells' = zlen cells.
  Proof. unfold zlen. rewrite mc_length. reflexivity. Qed.

  Lemma mc_get_a : getc cells' a = {| cp := cp L; cn := c; cr := cr L ++ cr R |}.
  Proof.
    destruct mc_order as [Hab [Hbl Hcgt]]. unfold cells', merge_cells, zlen in *. fold L R c.
    destruct (c <? Z.of_nat (length cells)); rewrite !getc_setc_neq by lia; apply getc_setc_eq; unfold zlen; lia.
  Qed.

  Lemma mc_get_b : cr (getc cells' b) = [].
  Proof.
    destruct mc_order as [Hab [Hbl Hcgt]]. unfold cells', merge_cells, zlen in *. fold L R c.
    destruct (c <? Z.of_nat (length cells)); rewrite ?getc_setc_neq by lia;
      (rewrite getc_setc_eq; [reflexivity|unfold zlen; rewrite setc_length; lia]).
  Qed.

  Lemma mc_get_c : c < zlen cells ->
    getc cells' c = {| cp := a; cn := cn (getc cells c); cr := cr (getc cells c) |}.
  Proof.
    intros Hc. destruct mc_order as [Hab [Hbl Hcgt]]. unfold cells', merge_cells, zlen in *. fold L R c.
    rewrite (proj2 (Z.ltb_lt _ _) Hc), getc_setc_eq by (unfold zlen; rewrite !setc_length; lia).
    rewrite !getc_setc_neq by lia. reflexivity.
  Qed.

  Lemma mc_get_other k : 0 <= k -> k <> a -> k <> b -> k <> c -> getc cells' k = getc cells k.
  Proof.
    intros Hk H1 H2 H3. destruct mc_order as [Hab [Hbl Hcgt]]. unfold cells', merge_cells, zlen in *. fold L R c.
    destruct (c <? Z.of_nat (length cells)); rewrite !getc_setc_neq by lia; reflexivity.
  Qed.

  Lemma mc_a_nonemp : ~ emp cells' a.
  Proof. unfold emp. rewrite mc_get_a. cbn [cr]. intros H. apply app_eq_nil in H as [H _]. exact (Ha H). Qed.

  Lemma mc_emp_mono k : 0 <= k -> emp cells k -> emp cells' k.
  Proof.
    intros Hk He. unfold emp in *.
    destruct (Z.eq_dec k a) as [->|Hka]; [contradiction|].
    destruct (Z.eq_dec k b) as [->|Hkb]; [apply mc_get_b|].
    destruct (Z.eq_dec k c) as [->|Hkc].
    - destruct (Z_lt_dec c (zlen cells)) as [Hc|Hc].
      + rewrite mc_get_c by exact Hc. exact He.
      + rewrite getc_out; [reflexivity|]. rewrite mc_zlen. lia.
    - rewrite mc_get_other by assumption. exact He.
  Qed.

  Lemma mc_nonemp_inv k : 0 <= k -> k <> a -> ~ emp cells' k -> ~ emp cells k /\ k <> b.
  Proof.
    intros Hk Hka He. split.
    - intro H. apply He. apply mc_emp_mono; assumption.
    - intros ->. apply He. apply mc_get_b.
  Qed.

  Lemma mc_grow k :
    0 <= k -> ~ emp cells' k -> ~ emp cells k /\ Prefix (cr (getc cells k)) (cr (getc cells' k)).
  Proof.
    intros Hk Hne.
    destruct (Z.eq_dec k a) as [->|Hka].
    - split; [exact Ha|]. rewrite mc_get_a. cbn [cr]. apply Prefix_app_r.
    - destruct (mc_nonemp_inv k Hk Hka Hne) as [H1 H2]. split; [exact H1|].
      destruct (Z.eq_dec k c) as [->|Hkc].
      + destruct (Z_lt_dec c (zlen cells)) as [Hc|Hc].
        * rewrite mc_get_c by assumption. cbn [cr]. apply Prefix_refl.
        * exfalso. apply H1. unfold emp. rewrite getc_out by lia. reflexivity.
      + rewrite mc_get_other by assumption. apply Prefix_refl.
  Qed.

  Lemma mc_between k : a < k < c -> emp cells' k.
  Proof.
    intros Hk. destruct HP as [Hab [Hbl Hbt]].
    destruct (Z_lt_dec k b) as [H1|H1]; [apply mc_emp_mono; [lia|apply Hbt; lia]|].
    destruct (Z.eq_dec k b) as [->|H2]; [apply mc_get_b|].
    apply mc_emp_mono; [lia|]. destruct (HI b) as [_ [_ [_ Hx]]]; [lia|exact Hb|]. apply Hx. fold R c. lia.
  Qed.

  Lemma mc_CInv : CInv cells'.
  Proof.
    destruct mc_order as [Hab [Hbl Hcgt]].
    intros i Hi Hne. rewrite mc_zlen in Hi.
    destruct (Z.eq_dec i a) as [->|Hia].
    - rewrite mc_get_a. cbn [cp cn].
      destruct (HI a) as [H1 [H2 [H3 H4]]]; [lia|exact Ha|]. fold L in H1, H2, H3, H4.
      split; [exact H1|]. split; [lia|]. split.
      + intros k Hk. apply mc_emp_mono; [lia|]. apply H3. exact Hk.
      + intros k Hk. apply mc_between. exact Hk.
    - destruct (mc_nonemp_inv i) as [Hne0 Hib]; [lia|exact Hia|exact Hne|].
      destruct (HI i) as [H1 [H2 [H3 H4]]]; [lia|exact Hne0|].
      destruct (Z.eq_dec i c) as [->|Hic].
      + rewrite mc_get_c by lia. cbn [cp cn].
        split; [lia|]. split; [exact H2|]. split.
        * intros k Hk. apply mc_between. exact Hk.
        * intros k Hk. apply mc_emp_mono; [lia|]. apply H4. exact Hk.
      + rewrite mc_get_other by (try assumption; lia).
        split; [exact H1|]. split; [exact H2|]. split.
        * intros k Hk. apply mc_emp_mono; [lia|]. apply H3. exact Hk.
        * intros k Hk. apply mc_emp_mono; [lia|]. apply H4. exact Hk.
  Qed.

  Lemma mc_PV x y : PV cells x y -> PV cells' x y.
  Proof.
    intros [H1 [H2 H3]]. split; [exact H1|]. split; [rewrite mc_zlen; exact H2|].
    intros k Hk. apply mc_emp_mono; [lia|]. apply H3. exact Hk.
  Qed.

  Lemma mc_PV_left : 0 <= cp (getc cells' a) -> PV cells' (cp (getc cells' a)) a.
  Proof.
    intros H0. destruct HP as [Hab [Hbl _]].
    destruct (mc_CInv a) as [H1 [H2 [H3 H4]]]; [rewrite mc_zlen; lia|exact mc_a_nonemp|].
    split; [lia|]. split; [rewrite mc_zlen; lia|]. exact H3.
  Qed.

  Lemma mc_PV_right : cn (getc cells' a) < zlen cells -> PV cells' a (cn (getc cells' a)).
  Proof.
    intros H0. destruct HP as [Hab [Hbl _]].
    destruct (mc_CInv a) as [H1 [H2 [H3 H4]]]; [rewrite mc_zlen; lia|exact mc_a_nonemp|].
    split; [lia|]. split; [rewrite mc_zlen; lia|]. exact H4.
  Qed.

  Lemma mc_texts :
    texts cells' = upd (Z.to_nat b) [] (upd (Z.to_nat a) (cr L ++ cr R) (texts cells)).
  Proof.
    unfold cells', merge_cells, texts. fold L R c.
    destruct (c <? Z.of_nat (length cells)) eqn:E; unfold setc.
    - rewrite map_upd. cbn [cr]. unfold getc. change (@nil N) with (cr dcell).
      rewrite <- map_nth. rewrite upd_nth_same. rewrite !map_upd. reflexivity.
    - rewrite !map_upd. reflexivity.
  Qed.

  Lemma mc_text : text cells' = text cells.
  Proof.
    destruct HP as [Hab [Hbl Hbt]]. unfold text. rewrite mc_texts.
    unfold L, R. rewrite <- !texts_nth.
    apply concat_merge.
    - lia.
    - unfold texts. rewrite map_length. unfold zlen in Hbl. lia.
    - intros k H1 H2. specialize (Hbt (Z.of_nat k)). unfold emp in Hbt.
      rewrite <- texts_nth, Nat2Z.id in Hbt. apply Hbt. lia.
  Qed.

  Lemma mc_live : (live (texts cells') + 1 = live (texts cells))%nat.
  Proof.
    rewrite mc_texts. destruct HP as [Hab [Hbl _]]. unfold zlen in Hbl.
    assert (Hla : (Z.to_nat a < length (texts cells))%nat) by (unfold texts; rewrite map_length; lia).
    assert (Hlb : (Z.to_nat b < length (texts cells))%nat) by (unfold texts; rewrite map_length; lia).
    pose proof (live_upd (texts cells) (Z.to_nat a) (cr L ++ cr R) Hla) as H1.
    pose proof (live_upd (upd (Z.to_nat a) (cr L ++ cr R) (texts cells)) (Z.to_nat b) []) as H2.
    rewrite upd_length, nth_upd_neq in H2 by lia. specialize (H2 Hlb). rewrite !texts_nth in *.
    unfold emp in Ha, Hb. unfold L, R, live1 in *.
    destruct (cr (getc cells a)); [contradiction|]. destruct (cr (getc cells b)); [contradiction|].
    cbn [isnil app] in *. lia.
  Qed.
End Merge.

Lemma init_cells_length i rs : length (init_cells i rs) = length rs.
Proof. revert i; induction rs as [|r rs IH]; intros i; cbn; [reflexivity|]. f_equal. apply IH. Qed.

Lemma init_cells_nth i rs k :
  (k < length rs)%nat ->
  nth k (init_cells i rs) dcell = {| cp := i + Z.of_nat k - 1; cn := i + Z.of_nat k + 1; cr := [nth k rs 0%N] |}.
Proof.
  revert i k; induction rs as [|r rs IH]; intros i k Hk; [cbn in Hk; lia|].
  destruct k as [|k]; cbn [init_cells nth].
  - f_equal; lia.
  - rewrite IH by (cbn in Hk; lia). f_equal; lia.
Qed.

Lemma init_cells_text i rs : text (init_cells i rs) = rs.
Proof. revert i; induction rs as [|r rs IH]; intros i; cbn; [reflexivity|]. f_equal. apply IH. Qed.

Lemma init_cells_live i rs : live (texts (init_cells i rs)) = length rs.
Proof. revert i. induction rs as [|r rs IH]; intros i; [reflexivity|]. unfold live, texts in *. cbn. f_equal. apply IH. Qed.

Lemma init_cells_Forall (P : list N -> Prop) i rs :
  Forall (fun r => P [r]) rs -> Forall (fun c => P (cr c)) (init_cells i rs).
Proof. intros H. revert i. induction H as [|r rs Hr _ IH]; intros i; cbn [init_cells]; constructor; auto. Qed.

Lemma init_CInv rs : CInv (init_cells 0 rs).
Proof.
  intros i Hi _. unfold zlen in Hi. rewrite init_cells_length in Hi.
  unfold getc. rewrite init_cells_nth by lia. cbn [cp cn]. repeat split; try lia; intros k Hk; lia.
Qed.

Lemma init_PV rs i : 0 <= i -> i + 1 < Z.of_nat (length rs) -> PV (init_cells 0 rs) i (i + 1).
Proof.
  intros H1 H2. split; [lia|]. split; [unfold zlen; rewrite init_cells_length; lia|]. intros k Hk; lia.
Qed.

(** [E]: queued elements ([bpair] / [cand]) with ends [ea], [eb]; [pw]: [pairwise] for the input's length; [step]: one
    iteration after the pop; [acc]: what its tests establish; [ok]: the encoder's own invariant of a queued element;
    [P]: what holds of every cell's content. *)
Section Loop.
  Context {E : Type} (less : E -> E -> bool) (d : E) (ea eb : E -> Z).
  Variable rs : list N.
  Variable pw : list cell -> Z -> Z -> option E.
  Variable step : list cell -> E -> list E -> list cell * list E.
  Variable acc ok : list cell -> E -> Prop.
  Variable P : list N -> Prop.

  Definition qpush (h : list E) (o : option E) : list E :=
    match o with Some e => hpush less d h e | None => h end.

  Fixpoint mloop (fuel : nat) (cells : list cell) (h : list E) : list cell * list E :=
    match fuel with
    | O => (cells, h)
    | S f =>
      match hpop less d h with
      | None => (cells, h)
      | Some (e, h') => let '(cells', h'') := step cells e h' in mloop f cells' h''
      end
    end.

  Fixpoint minit (n : nat) (cells : list cell) (i : Z) (h : list E) : list E :=
    match n with
    | O => h
    | S n' => minit n' cells (i + 1) (qpush h (pw cells i (i + 1)))
    end.

  Definition queued (cells : list cell) (e : E) : Prop := PV cells (ea e) (eb e) /\ ok cells e.

  Record MInv (cells : list cell) (h : list E) : Prop := {
    mi_len : length cells = length rs;
    mi_cinv : CInv cells;
    mi_text : text cells = rs;
    mi_P : Forall (fun c => P (cr c)) cells;
    mi_heap : Forall (queued cells) h }.

  Hypothesis step_cases : forall cells e h,
    step cells e h = (cells, h) \/
    ~ emp cells (ea e) /\ ~ emp cells (eb e) /\ acc cells e /\
    step cells e h =
      let c4 := merge_cells cells (ea e) (eb e) in
      (c4, qpush (qpush h (pw c4 (cp (getc c4 (ea e))) (ea e))) (pw c4 (ea e) (cn (getc c4 (ea e))))).
  Hypothesis pw_some : forall cells x y e,
    pw cells x y = Some e -> ea e = x /\ eb e = y /\ 0 <= x /\ y < Z.of_nat (length rs) /\ ok cells e.
  Hypothesis ok_mono : forall cells a b e,
    CInv cells -> PV cells a b -> ~ emp cells a -> ~ emp cells b ->
    queued cells e -> ok (merge_cells cells a b) e.
  Hypothesis P_nil : P [].
  Hypothesis acc_P : forall cells e,
    queued cells e -> ~ emp cells (ea e) -> ~ emp cells (eb e) -> acc cells e ->
    P (cr (getc cells (ea e)) ++ cr (getc cells (eb e))).

  Lemma pw_queued cells x y :
    (0 <= x -> y < Z.of_nat (length rs) -> PV cells x y) ->
    forall h, Forall (queued cells) h ->
    Forall (queued cells) (qpush h (pw cells x y)) /\ (length (qpush h (pw cells x y)) <= S (length h))%nat.
  Proof.
    intros Hpv h Hh. destruct (pw cells x y) as [e|] eqn:Ee; cbn [qpush]; [|split; [exact Hh|lia]].
    apply pw_some in Ee as [<- [<- [H0 [H1 Hok]]]]. rewrite hpush_length. split; [|lia].
    apply Forall_forall. intros q Hq. apply hpush_In in Hq as [->|Hq].
    - split; [apply Hpv; assumption|exact Hok].
    - rewrite Forall_forall in Hh. apply Hh, Hq.
  Qed.

  (* the pop pays for the iteration; a merge empties one cell (-2) and pushes at most two elements (+2) *)
  Definition measure (cells : list cell) (h : list E) : nat := (length h + 2 * live (texts cells))%nat.

  Lemma step_spec cells e h :
    MInv cells h -> queued cells e ->
    MInv (fst (step cells e h)) (snd (step cells e h)) /\
    (measure (fst (step cells e h)) (snd (step cells e h)) <= measure cells h)%nat.
  Proof.
    intros [Hlen HC Ht HV HH] Hq.
    destruct (step_cases cells e h) as [->|(Ha & Hb & Hacc & ->)]; [split; [constructor; assumption|apply Nat.le_refl]|].
    destruct Hq as [Hp Hok]. cbv zeta. cbn [fst snd].
    set (cells' := merge_cells cells (ea e) (eb e)).
    assert (Hlen' : length cells' = length rs) by (unfold cells'; rewrite mc_length; assumption).
    assert (Hz : zlen cells = Z.of_nat (length rs)) by (unfold zlen; rewrite Hlen; reflexivity).
    assert (H0 : Forall (queued cells') h).
    { eapply Forall_impl; [|exact HH]. intros q [Hq1 Hq2].
      split; [apply mc_PV; assumption|apply ok_mono; try assumption; split; assumption]. }
    destruct (pw_queued cells' (cp (getc cells' (ea e))) (ea e)) with (h := h) as [H1 L1];
      [intros; apply mc_PV_left; assumption|exact H0|].
    destruct (pw_queued cells' (ea e) (cn (getc cells' (ea e))))
      with (h := qpush h (pw cells' (cp (getc cells' (ea e))) (ea e))) as [H2 L2];
      [intros _ Hy; apply mc_PV_right; try assumption; rewrite Hz; exact Hy|exact H1|].
    split.
    - constructor; [exact Hlen'|apply mc_CInv; assumption|unfold cells'; rewrite mc_text; assumption| |exact H2].
      apply mc_Forall; [exact P_nil|exact HV|]. apply acc_P; try assumption. split; assumption.
    - unfold measure. pose proof (mc_live cells (ea e) (eb e) Hp Ha Hb). fold cells' in H. lia.
  Qed.

  Theorem mloop_spec fuel cells h :
    MInv cells h ->
    MInv (fst (mloop fuel cells h)) (snd (mloop fuel cells h)) /\
    ((measure cells h <= fuel)%nat -> snd (mloop fuel cells h) = []).
  Proof.
    revert cells h. induction fuel as [|f IH]; intros cells h HI; cbn [mloop].
    { split; [exact HI|]. unfold measure. destruct h; [reflexivity|cbn [length]; lia]. }
    destruct (hpop less d h) as [[e h1]|] eqn:Ep; [|split; [exact HI|intros _; apply (hpop_none less d), Ep]].
    apply hpop_spec in Ep as [Hin [Hincl Hl]].
    assert (Hq : queued cells e) by (destruct HI as [_ _ _ _ HH]; rewrite Forall_forall in HH; apply HH, Hin).
    assert (HI1 : MInv cells h1).
    { destruct HI as [H1 H2 H3 H4 HH]. constructor; try assumption.
      rewrite Forall_forall in *. intros q Hq'. apply HH, Hincl, Hq'. }
    destruct (step_spec cells e h1 HI1 Hq) as [Hs Hm]. destruct (step cells e h1) as [cells' h'].
    destruct (IH cells' h' Hs) as [G1 G2]. split; [exact G1|].
    intros Hf. apply G2. unfold measure in *. cbn [fst snd] in Hm. lia.
  Qed.

  Lemma minit_spec n i h :
    let cells := init_cells 0 rs in
    0 <= i -> Forall (queued cells) h ->
    Forall (queued cells) (minit n cells i h) /\ (length (minit n cells i h) <= n + length h)%nat.
  Proof.
    intros cells. revert i h. induction n as [|n IH]; intros i h Hi Hh; cbn [minit]; [split; [exact Hh|lia]|].
    destruct (pw_queued cells i (i + 1)) with (h := h) as [H1 L1];
      [intros; apply init_PV; lia|exact Hh|].
    destruct (IH (i + 1) _ ltac:(lia) H1) as [H2 L2]. split; [exact H2|lia].
  Qed.

  Theorem mrun_spec :
    Forall (fun r => P [r]) rs ->
    let cells0 := init_cells 0 rs in
    let run := mloop (bpe_fuel (length rs)) cells0 (minit (length rs - 1) cells0 0 []) in
    MInv (fst run) (snd run) /\ snd run = [].
  Proof.
    intros HP0 cells0 run.
    destruct (minit_spec (length rs - 1) 0 [] ltac:(lia) (Forall_nil _)) as [H1 L1]. fold cells0 in H1, L1.
    assert (HI : MInv cells0 (minit (length rs - 1) cells0 0 [])).
    { constructor; [apply init_cells_length|apply init_CInv|apply init_cells_text|apply init_cells_Forall, HP0|exact H1]. }
    destruct (mloop_spec (bpe_fuel (length rs)) _ _ HI) as [G1 G2]. split; [exact G1|]. apply G2.
    unfold measure, cells0 in *. rewrite init_cells_live. unfold bpe_fuel. cbn [length] in L1. lia.
  Qed.
End Loop.

(** The special-token split: partition of the input, ids of the special fragments, independence of the fuel. *)
From Coq Require Import List NArith ZArith Bool Arith Lia.
From V Require Import Common.Bytes Tok.Vocab Tok.Special.
Import ListNotations.

Definition frags_text (fs : list frag) : str := concat (map frag_value fs).

Lemma frags_text_app a b : frags_text (a ++ b) = frags_text a ++ frags_text b.
Proof. unfold frags_text. rewrite map_app, concat_app. reflexivity. Qed.

Lemma frags_text_cons f fs : frags_text (f :: fs) = frag_value f ++ frags_text fs.
Proof. reflexivity. Qed.

Lemma frags_text_single f : frags_text [f] = frag_value f.
Proof. apply app_nil_r. Qed.

Lemma index_of_split v sp i :
  index_of v sp = Some i -> v = firstn i v ++ sp ++ skipn (i + length sp) v /\ (i <= length v)%nat.
Proof.
  intros H. apply index_of_some in H as [a [b [Hv [Hi _]]]]. subst i.
  assert (E1 : firstn (length a) v = a).
  { rewrite Hv. rewrite firstn_app, firstn_all, Nat.sub_diag. cbn. apply app_nil_r. }
  assert (E2 : skipn (length a + length sp) v = b).
  { rewrite Hv at 1. rewrite app_assoc. rewrite skipn_app, skipn_all2 by (rewrite app_length; lia).
    rewrite app_length, Nat.sub_diag. reflexivity. }
  rewrite E1, E2. split; [exact Hv|]. rewrite Hv, app_length. lia.
Qed.

(** induction over [split_one]; the three cases of [fb]: nothing left, fuel exhausted, the same loop again *)
Lemma split_one_induction sp id (T : str -> list frag -> Prop) :
  (forall v, index_of v sp = None -> T v [FText v]) ->
  (forall v i fb, index_of v sp = Some i ->
     let rest := skipn (i + length sp) v in
     rest = [] /\ fb = [] \/ rest <> [] /\ (fb = [FText rest] \/ T rest fb) ->
     T v (match i with O => [] | _ => [FText (firstn i v)] end ++ FSpec sp id :: fb)) ->
  forall fuel v, T v (split_one fuel sp id v).
Proof.
  intros Hn Hs. induction fuel as [|f IH]; intros v; cbn [split_one];
    (destruct (index_of v sp) as [i|] eqn:E; [|apply Hn, E]); apply (Hs v i _ E); cbv zeta;
    (destruct (skipn (i + length sp) v) eqn:Er; [left; auto|right; split; [discriminate|]]).
  - left. reflexivity.
  - right. rewrite <- Er. apply IH.
Qed.

Lemma split_one_none fuel sp id t : index_of t sp = None -> split_one fuel sp id t = [FText t].
Proof. intros H. destruct fuel; cbn [split_one]; rewrite H; reflexivity. Qed.

Lemma split_one_text fuel sp id v : frags_text (split_one fuel sp id v) = v.
Proof.
  revert fuel v. apply (split_one_induction sp id (fun v fs => frags_text fs = v)); [intros; apply frags_text_single|].
  intros v i fb E rest Hb. apply index_of_split in E as [Hv _].
  rewrite frags_text_app, frags_text_cons. cbn [frag_value].
  transitivity (firstn i v ++ sp ++ rest); [f_equal; [|f_equal]|symmetry; exact Hv].
  - destruct i; [reflexivity|apply frags_text_single].
  - destruct Hb as [[-> ->]|[_ [->|Hb]]]; [reflexivity|apply frags_text_single|exact Hb].
Qed.

Lemma split_frag_text sp id f : frags_text (split_frag sp id f) = frag_value f.
Proof. destruct f as [t|t i]; cbn [split_frag frag_value]; [apply split_one_text|apply frags_text_single]. Qed.

Lemma split_special_text sp id fs : frags_text (split_special sp id fs) = frags_text fs.
Proof.
  unfold split_special. induction fs as [|f fs IH]; [reflexivity|].
  cbn [flat_map]. rewrite frags_text_app, IH, split_frag_text. reflexivity.
Qed.

Lemma fragments_text v s : frags_text (fragments v s) = s.
Proof.
  unfold fragments. rewrite <- (frags_text_single (FText s)) at 2. generalize [FText s].
  induction (vspecials v) as [|sp sps IH]; intros fs; cbn [fold_left]; [reflexivity|].
  rewrite IH. apply split_special_text.
Qed.

(** [R]: a class of texts closed under cutting at the first occurrence of a special token; [S]: a property of
    (token, id) that the special tokens have. *)
Section FragAll.
  Variables (R : str -> Prop) (S : str -> Z -> Prop).

  Definition frag_all (f : frag) : Prop := match f with FText t => R t | FSpec sp id => S sp id end.

  Lemma split_one_all sp id :
    S sp id ->
    (forall t i, R t -> index_of t sp = Some i -> R (firstn i t) /\ R (skipn (i + length sp) t)) ->
    forall fuel t, R t -> Forall frag_all (split_one fuel sp id t).
  Proof.
    intros Hs Hcut. apply (split_one_induction sp id (fun t fs => R t -> Forall frag_all fs)).
    - intros t _ Ht. repeat constructor. exact Ht.
    - intros t i fb E rest Hb Ht. destruct (Hcut t i Ht E) as [H1 H2]. apply Forall_app. split.
      + destruct i; repeat constructor. exact H1.
      + constructor; [exact Hs|]. destruct Hb as [[_ ->]|[_ [->|Hb]]]; [constructor|repeat constructor; exact H2|exact (Hb H2)].
  Qed.

  Lemma fragments_all v s :
    (forall sp, In sp (vspecials v) -> S sp (venc v sp)) ->
    (forall sp t i, In sp (vspecials v) -> R t -> index_of t sp = Some i ->
                    R (firstn i t) /\ R (skipn (i + length sp) t)) ->
    R s -> Forall frag_all (fragments v s).
  Proof.
    intros Hs Hcut Hr. unfold fragments.
    assert (H0 : Forall frag_all [FText s]) by (repeat constructor; exact Hr). revert H0. generalize [FText s].
    induction (vspecials v) as [|sp sps IH]; intros fs HF; cbn [fold_left]; [exact HF|].
    apply IH; [intros x Hx; exact (Hs x (or_intror Hx))|intros x t i Hx; exact (Hcut x t i (or_intror Hx))|].
    unfold split_special. induction HF as [|f fs Hf _ IHf]; [constructor|]. cbn [flat_map].
    apply Forall_app. split; [|exact IHf].
    destruct f as [t|t i]; cbn [split_frag]; [|repeat constructor; exact Hf].
    apply split_one_all; [exact (Hs sp (or_introl eq_refl))|exact (fun t i => Hcut sp t i (or_introl eq_refl))|exact Hf].
  Qed.
End FragAll.

Lemma fragments_ok v s sp id : In (FSpec sp id) (fragments v s) -> In sp (vspecials v) /\ id = venc v sp.
Proof.
  intros Hin.
  pose proof (fragments_all (fun _ => True) (fun sp id => In sp (vspecials v) /\ id = venc v sp) v s) as H.
  rewrite Forall_forall in H. exact (H (fun sp Hsp => conj Hsp eq_refl) (fun _ _ _ _ _ _ => conj I I) I _ Hin).
Qed.

Lemma fragments_infix v s f : In f (fragments v s) -> Infix (frag_value f) s.
Proof.
  intros H. apply in_split in H as [a [b H]]. rewrite <- (fragments_text v s), H, frags_text_app, frags_text_cons.
  exists (frags_text a), (frags_text b). reflexivity.
Qed.

Lemma split_special_single_none sp id t : ~ Infix sp t -> split_special sp id [FText t] = [FText t].
Proof.
  intros H. unfold split_special. cbn [flat_map split_frag]. rewrite split_one_none by (apply index_of_none, H).
  reflexivity.
Qed.

Lemma fold_split_none v sps t :
  (forall x, In x sps -> ~ Infix x t) ->
  fold_left (fun fs sp => split_special sp (venc v sp) fs) sps [FText t] = [FText t].
Proof.
  induction sps as [|sp sps IH]; intros H; cbn [fold_left]; [reflexivity|].
  rewrite split_special_single_none by (apply H; left; reflexivity).
  apply IH. intros x Hx. apply H. right. exact Hx.
Qed.

Lemma split_special_app sp id a b : split_special sp id (a ++ b) = split_special sp id a ++ split_special sp id b.
Proof. unfold split_special. apply flat_map_app. Qed.

Lemma fold_split_around v sps fa sp id fb :
  exists fa' fb',
    fold_left (fun fs x => split_special x (venc v x) fs) sps (fa ++ FSpec sp id :: fb) = fa' ++ FSpec sp id :: fb' /\
    frags_text fa' = frags_text fa /\ frags_text fb' = frags_text fb.
Proof.
  revert fa fb. induction sps as [|x sps IH]; intros fa fb; cbn [fold_left].
  - exists fa, fb. auto.
  - change (FSpec sp id :: fb) with ([FSpec sp id] ++ fb). rewrite !split_special_app.
    change (split_special x (venc v x) [FSpec sp id]) with [FSpec sp id]. cbn [app].
    destruct (IH (split_special x (venc v x) fa) (split_special x (venc v x) fb)) as [fa' [fb' [H1 [H2 H3]]]].
    exists fa', fb'. rewrite H1, H2, H3, !split_special_text. auto.
Qed.

Lemma split_one_first fuel sp id t i :
  index_of t sp = Some i ->
  exists fa fb, split_one fuel sp id t = fa ++ FSpec sp id :: fb /\
                frags_text fa = firstn i t /\ frags_text fb = skipn (i + length sp) t.
Proof.
  intros E. destruct fuel; cbn [split_one]; rewrite E; eexists _, _; (split; [reflexivity|]);
    (split; [destruct i; [reflexivity|apply frags_text_single]|]);
    (destruct (skipn (i + length sp) t) eqn:Er; [reflexivity|]).
  - apply frags_text_single.
  - rewrite <- Er. apply split_one_text.
Qed.

Theorem special_literal_fragment v s pre sp post i :
  vspecials v = pre ++ sp :: post -> (forall x, In x pre -> ~ Infix x s) -> index_of s sp = Some i ->
  exists fa fb, fragments v s = fa ++ FSpec sp (venc v sp) :: fb /\
                frags_text fa = firstn i s /\ frags_text fb = skipn (i + length sp) s.
Proof.
  intros Hv Hpre Hi. unfold fragments. rewrite Hv, fold_left_app. rewrite fold_split_none by exact Hpre.
  cbn [fold_left]. unfold split_special at 2. cbn [flat_map split_frag]. rewrite app_nil_r.
  destruct (split_one_first (length s) sp (venc v sp) s i Hi) as [fa [fb [H1 [H2 H3]]]]. rewrite H1.
  destruct (fold_split_around v post fa sp (venc v sp) fb) as [fa' [fb' [G1 [G2 G3]]]].
  exists fa', fb'. rewrite G1, G2, G3. auto.
Qed.

Lemma index_of_nil sp : sp <> [] -> index_of [] sp = None.
Proof. intros H. destruct sp; [congruence|reflexivity]. Qed.

Lemma split_one_fuel sp id f1 f2 t :
  sp <> [] -> (length t <= f1)%nat -> (length t <= f2)%nat -> split_one f1 sp id t = split_one f2 sp id t.
Proof.
  intros Hne. revert f2 t. induction f1 as [|f1 IH]; intros f2 t H1 H2.
  - destruct t; [|cbn in H1; lia]. destruct f2; cbn [split_one]; rewrite index_of_nil by exact Hne; reflexivity.
  - destruct f2 as [|f2].
    + destruct t; [|cbn in H2; lia]. cbn [split_one]. rewrite index_of_nil by exact Hne. reflexivity.
    + cbn [split_one]. destruct (index_of t sp) as [i|] eqn:E; [|reflexivity]. f_equal. f_equal.
      destruct (skipn (i + length sp) t) eqn:Er; [reflexivity|]. rewrite <- Er.
      assert (Hl : (length (skipn (i + length sp) t) < length t)%nat).
      { rewrite skipn_length. apply index_of_split in E as [_ E]. destruct sp; [congruence|]. cbn [length].
        destruct t; [cbn in Er; destruct (i + _)%nat; discriminate|cbn [length]; lia]. }
      apply IH; lia.
Qed.

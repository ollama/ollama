(** Boolean forms of the guards of the round-trip theorems. *)
From Coq Require Import List NArith ZArith Bool Arith Lia.
From V Require Import Common.Bytes Tok.Vocab Tok.Spm Tok.BpeProofs Tok.SpmProofs.
Import ListNotations.

Definition ascii_b (s : str) : bool := forallb (fun b => (b <? 128)%N) s.
Definition specials_plain_b (v : vocab) (s : str) : bool :=
  forallb (fun sp => negb (containsb s sp) || ascii_b sp) (vspecials v).

Lemma ascii_b_spec s : ascii_b s = true <-> is_ascii s.
Proof.
  unfold ascii_b, is_ascii. rewrite forallb_forall, Forall_forall. split; intros H x Hx; specialize (H x Hx); lia.
Qed.

Lemma specials_plain_b_spec v s : specials_plain_b v s = true <-> specials_plain v s.
Proof.
  unfold specials_plain_b, specials_plain. rewrite forallb_forall. split.
  - intros H sp Hsp Hinf. specialize (H sp Hsp). apply containsb_spec in Hinf. rewrite Hinf in H. cbn in H.
    apply ascii_b_spec, H.
  - intros H sp Hsp. destruct (containsb s sp) eqn:E; [|reflexivity]. cbn. apply ascii_b_spec, H; [exact Hsp|].
    apply containsb_spec, E.
Qed.

Definition no_shape_b (s : str) : bool :=
  forallb (fun i => negb (is_byte_shape (firstn 6 (skipn i s)))) (seq 0 (S (length s))).

Lemma no_shape_b_spec s : no_shape_b s = true <-> no_shape s.
Proof.
  unfold no_shape_b, no_shape. rewrite forallb_forall. split.
  - intros H w [a [b Hs]]. destruct (is_byte_shape w) eqn:E; [|reflexivity]. exfalso.
    assert (Hl : length w = 6%nat).
    { unfold is_byte_shape in E. apply andb_true_iff in E as [E _]. apply andb_true_iff in E as [E _]. apply Nat.eqb_eq, E. }
    specialize (H (length a)). rewrite Hs in H.
    rewrite skipn_app, skipn_all, Nat.sub_diag in H. cbn [skipn app] in H.
    rewrite firstn_app, <- Hl, firstn_all, Nat.sub_diag in H. cbn [firstn] in H. rewrite app_nil_r, E in H.
    assert (Hin : In (length a) (seq 0 (S (length (a ++ w ++ b))))) by (apply in_seq; rewrite app_length; lia).
    specialize (H Hin). discriminate.
  - intros H i _. rewrite (H (firstn 6 (skipn i s))); [reflexivity|].
    exists (firstn i s), (skipn 6 (skipn i s)). rewrite firstn_skipn. symmetry. apply firstn_skipn.
Qed.

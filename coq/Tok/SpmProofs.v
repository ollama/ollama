(** SentencePiece: ReplaceAll at the rune level, the merge loop, byte fallback, Decode (Encode s) = s under the two
    guards, ids in the vocabulary. *)
From Coq Require Import List NArith ZArith Bool Arith Lia.
From V Require Import Common.Bytes Tok.Utf8 Tok.ByteMap Tok.ByteMapProofs Tok.Utf8Proofs Tok.Heap Tok.Vocab
     Tok.Special Tok.SpecialProofs Tok.Bpe Tok.MergeProofs Tok.BpeProofs Tok.Spm.
Import ListNotations.

Section Replace.
  Variables old new : str.

  Lemma replace_go_skip k a rest : length a = k -> replace_go old new k (a ++ rest) = replace_go old new 0 rest.
  Proof.
    revert k. induction a as [|c a IH]; intros k Hk; cbn in Hk; subst k; [reflexivity|].
    cbn [app replace_go]. apply IH. reflexivity.
  Qed.

  Lemma replace_match rest : old <> [] -> replace_all old new (old ++ rest) = new ++ replace_all old new rest.
  Proof.
    intros Hne. unfold replace_all.
    assert (Hp : prefixb old (old ++ rest) = true) by (apply prefixb_spec, Prefix_app_r).
    remember (old ++ rest) as s eqn:Es. destruct s as [|c t].
    { destruct old; [congruence|discriminate]. }
    cbn [replace_go]. rewrite Hp. f_equal.
    destruct old as [|c' o'] eqn:Eo; [congruence|]. cbn [app] in Es. injection Es as -> ->.
    rewrite <- Eo. apply replace_go_skip. rewrite Eo. cbn. lia.
  Qed.

  Lemma replace_nomatch c s : prefixb old (c :: s) = false -> replace_all old new (c :: s) = c :: replace_all old new s.
  Proof. intros H. unfold replace_all. cbn [replace_go]. rewrite H. reflexivity. Qed.

  Lemma replace_no_infix x : ~ Infix old x -> replace_all old new x = x.
  Proof.
    induction x as [|c x IH]; intros Hn; [reflexivity|]. rewrite replace_nomatch, IH; [reflexivity| |].
    - intros [a [b ->]]. apply Hn. exists (c :: a), b. reflexivity.
    - apply prefixb_false. intros [r Hr]. apply Hn. exists [], r. exact Hr.
  Qed.
End Replace.

Lemma replace_skip_bytes o old' new a rest :
  Forall (fun c => c <> o) a ->
  replace_all (o :: old') new (a ++ rest) = a ++ replace_all (o :: old') new rest.
Proof.
  induction 1 as [|c a Hc _ IH]; [reflexivity|]. cbn [app]. rewrite replace_nomatch, IH; [reflexivity|].
  cbn [prefixb]. rewrite (proj2 (N.eqb_neq o c)) by congruence. reflexivity.
Qed.

Open Scope N_scope.
Definition usep : N := 9601.
Definition sp2sep (r : N) : N := if r =? space then usep else r.
Definition sep2sp (r : N) : N := if r =? usep then space else r.

Lemma encode_usep : encode_rune usep = sep.
Proof. reflexivity. Qed.
Lemma encode_space : encode_rune space = [space].
Proof. reflexivity. Qed.
Lemma scalar_usep : is_scalar usep = true.
Proof. reflexivity. Qed.
Lemma scalar_space : is_scalar 32 = true.
Proof. reflexivity. Qed.

(** a space byte occurs only as the encoding of U+0020 *)
Lemma replace_space_rune r rest :
  replace_all [space] sep (encode_rune r ++ rest) = encode_rune (sp2sep r) ++ replace_all [space] sep rest.
Proof.
  unfold sp2sep. destruct (N.eqb_spec r space) as [->|Hr].
  - rewrite encode_space, encode_usep. apply replace_match. discriminate.
  - apply replace_skip_bytes. destruct (N.lt_ge_cases r 128) as [Hl|Hl].
    + rewrite encode_low by exact Hl. repeat constructor. exact Hr.
    + eapply Forall_impl; [|exact (encode_high r Hl)]. unfold space. lia.
Qed.

Lemma replace_space_runes rs : replace_all [space] sep (of_runes rs) = of_runes (map sp2sep rs).
Proof.
  induction rs as [|r rs IH]; [reflexivity|].
  cbn [map]. rewrite !of_runes_cons, replace_space_rune, IH. reflexivity.
Qed.

(** the three bytes of U+2581 occur only as its encoding: a match at the lead byte of another scalar's encoding
    would make the two runes equal, and continuation bytes are not 0xE2 *)
Lemma replace_sep_rune r rest :
  is_scalar r = true ->
  replace_all sep [space] (encode_rune r ++ rest) = encode_rune (sep2sp r) ++ replace_all sep [space] rest.
Proof.
  intros Hs. unfold sep2sp. destruct (N.eqb_spec r usep) as [->|Hr].
  - rewrite encode_space, encode_usep. apply replace_match. discriminate.
  - assert (Hp : prefixb sep (encode_rune r ++ rest) = false).
    { apply prefixb_false. intros [y Hy]. rewrite <- encode_usep in Hy.
      apply encode_head_inj in Hy as [Hy _]; [congruence|exact Hs|exact scalar_usep]. }
    destruct (encode_shape r) as [b0 [t [Er [Hct _]]]]. rewrite Er in *. cbn [app] in *.
    rewrite replace_nomatch by exact Hp. f_equal. apply replace_skip_bytes.
    eapply Forall_impl; [|exact Hct]. cbv beta. lia.
Qed.

Lemma replace_sep_runes rs :
  scalars rs -> replace_all sep [space] (of_runes rs) = of_runes (map sep2sp rs).
Proof.
  induction 1 as [|r rs Hr Hs IH]; [reflexivity|].
  cbn [map]. rewrite !of_runes_cons. rewrite replace_sep_rune by exact Hr. rewrite IH. reflexivity.
Qed.

Lemma scalars_sp2sep rs : scalars rs -> scalars (map sp2sep rs).
Proof.
  induction 1 as [|r rs Hr Hs IH]; constructor; [|exact IH].
  unfold sp2sep. destruct (r =? space); [reflexivity|exact Hr].
Qed.

Lemma sep2sp_sp2sep rs : ~ In usep rs -> map sep2sp (map sp2sep rs) = rs.
Proof.
  induction rs as [|r rs IH]; intros Hn; [reflexivity|]. cbn [map]. rewrite IH by (intro; apply Hn; right; assumption).
  f_equal. unfold sep2sp, sp2sep. destruct (r =? space) eqn:E.
  - apply N.eqb_eq in E. subst r. reflexivity.
  - replace (r =? usep) with false; [reflexivity|]. symmetry. apply N.eqb_neq. intros ->. apply Hn. left. reflexivity.
Qed.

Lemma In_usep_infix rs : In usep rs -> Infix sep (of_runes rs).
Proof.
  intros H. apply in_split in H as [a [b ->]]. rewrite of_runes_app, of_runes_cons, encode_usep.
  exists (of_runes a), (of_runes b). reflexivity.
Qed.

Open Scope Z_scope.

(** "covers every byte": every byte token is present - and the whitespace marker itself is a token (without it a
    space falls back to the three bytes of U+2581 and decodes as U+2581) *)
Definition spm_complete (v : vocab) : Prop :=
  (forall b, (b < 256)%N -> 0 <= venc v (byte_token b)) /\ 0 <= venc v sep.
Definition valid_text (t : str) : Prop := exists rt, scalars rt /\ t = of_runes rt.
(** special tokens are non-empty valid UTF-8 *)
Definition specials_valid (v : vocab) : Prop :=
  forall sp, In sp (vspecials v) -> exists rsp, scalars rsp /\ rsp <> [] /\ sp = of_runes rsp.

Section SpmLoop.
  Variable v : vocab.

  Definition rune_or_token (x : list N) : Prop := x = [] \/ (exists r, x = [r]) \/ 0 <= venc v (of_runes x).
  Definition pieces_rune_or_token (cells : list cell) : Prop := Forall (fun c => rune_or_token (cr c)) cells.

  (** a queued candidate remembers a token L0 ++ R0 and its byte length; while its two cells are non-empty they
      still start with L0 and R0 - so if the lengths still add up (the loop's stale test) they ARE L0 and R0 *)
  Definition cand_ok (cells : list cell) (q : cand) : Prop :=
    exists L0 R0, csize q = (length (of_runes L0) + length (of_runes R0))%nat /\
                  0 <= venc v (of_runes L0 ++ of_runes R0) /\
                  (~ emp cells (ca q) -> Prefix L0 (cr (getc cells (ca q)))) /\
                  (~ emp cells (cb q) -> Prefix R0 (cr (getc cells (cb q)))).

  Definition spm_acc (cells : list cell) (p : cand) : Prop :=
    (length (of_runes (cr (getc cells (ca p)))) + length (of_runes (cr (getc cells (cb p)))))%nat = csize p.

  Lemma spm_step_cases len cells p h :
    spm_step v len cells p h = (cells, h) \/
    ~ emp cells (ca p) /\ ~ emp cells (cb p) /\ spm_acc cells p /\
    spm_step v len cells p h =
      let c4 := merge_cells cells (ca p) (cb p) in
      (c4, qpush sless dcand (qpush sless dcand h (spairwise v len c4 (cp (getc c4 (ca p))) (ca p)))
                 (spairwise v len c4 (ca p) (cn (getc c4 (ca p))))).
  Proof.
    unfold spm_step, spm_acc, emp.
    destruct (isnil (cr (getc cells (ca p)))) eqn:E1; [left; reflexivity|].
    destruct (isnil (cr (getc cells (cb p)))) eqn:E2; [left; reflexivity|].
    destruct (Nat.eqb _ (csize p)) eqn:E3; [|left; reflexivity].
    right. apply isnil_false in E1, E2. apply Nat.eqb_eq in E3. auto.
  Qed.

  Lemma spairwise_some len cells x y q :
    spairwise v len cells x y = Some q -> ca q = x /\ cb q = y /\ 0 <= x /\ y < len /\ cand_ok cells q.
  Proof.
    unfold spairwise. destruct ((x <? 0) || (len <=? y)) eqn:E; [discriminate|]. cbv zeta.
    destruct (0 <=? venc v _) eqn:E2; [|discriminate]. intros [= <-]. cbn [ca cb].
    repeat split; try lia. exists (cr (getc cells x)), (cr (getc cells y)).
    split; [reflexivity|]. split; [lia|]. split; intros _; apply Prefix_refl.
  Qed.

  Lemma cand_ok_mono cells a b q :
    CInv cells -> PV cells a b -> ~ emp cells a -> ~ emp cells b ->
    PV cells (ca q) (cb q) /\ cand_ok cells q -> cand_ok (merge_cells cells a b) q.
  Proof.
    intros HI HP Ha Hb [[Hx _] [L0 [R0 [H1 [H2 [H3 H4]]]]]].
    exists L0, R0. split; [exact H1|]. split; [exact H2|]. split; intros Hne.
    - destruct (mc_grow cells a b HI HP Ha Hb (ca q) ltac:(lia) Hne) as [G1 G2].
      eapply Prefix_trans; [apply H3, G1|exact G2].
    - destruct (mc_grow cells a b HI HP Ha Hb (cb q) ltac:(lia) Hne) as [G1 G2].
      eapply Prefix_trans; [apply H4, G1|exact G2].
  Qed.

  (** this is where the stale test is used *)
  Lemma spm_acc_token cells p :
    PV cells (ca p) (cb p) /\ cand_ok cells p -> ~ emp cells (ca p) -> ~ emp cells (cb p) -> spm_acc cells p ->
    rune_or_token (cr (getc cells (ca p)) ++ cr (getc cells (cb p))).
  Proof.
    intros [_ [L0 [R0 [Hsz [Hv0 [HpL HpR]]]]]] Ha Hb E3. unfold spm_acc in E3.
    destruct (HpL Ha) as [x Hx]. destruct (HpR Hb) as [y Hy].
    rewrite Hx, Hy, !of_runes_app, !app_length in E3.
    assert (x = []) by (apply of_runes_len0; lia). assert (y = []) by (apply of_runes_len0; lia). subst x y.
    rewrite app_nil_r in Hx, Hy. right. right. rewrite Hx, Hy, of_runes_app. exact Hv0.
  Qed.

  Lemma spm_loop_mloop fuel len cells h :
    spm_loop v fuel len cells h = mloop sless dcand (spm_step v len) fuel cells h.
  Proof.
    revert cells h. induction fuel as [|f IH]; intros cells h; cbn [spm_loop mloop]; [reflexivity|].
    destruct (hpop sless dcand h) as [[p h']|]; [|reflexivity]. destruct (spm_step v len cells p h'). apply IH.
  Qed.

  Lemma sinit_heap_minit n len cells i h :
    sinit_heap v n len cells i h = minit sless dcand (spairwise v len) n cells i h.
  Proof. revert i h. induction n as [|n IH]; intros i h; cbn [sinit_heap minit]; [reflexivity|apply IH]. Qed.

  Theorem spm_cells_spec rs :
    text (fst (spm_cells v rs)) = rs /\ pieces_rune_or_token (fst (spm_cells v rs)) /\ snd (spm_cells v rs) = [].
  Proof.
    unfold spm_cells. rewrite spm_loop_mloop, sinit_heap_minit.
    set (len := Z.of_nat (length rs)).
    destruct (@mrun_spec cand) with (less := sless) (d := dcand) (ea := ca) (eb := cb) (rs := rs)
      (pw := spairwise v len) (step := spm_step v len) (acc := spm_acc) (ok := cand_ok) (P := rune_or_token)
      as [[_ _ Ht HV _] Hh]; [..|exact (conj Ht (conj HV Hh))].
    - apply spm_step_cases.
    - apply spairwise_some.
    - apply cand_ok_mono.
    - left. reflexivity.
    - apply spm_acc_token.
    - apply Forall_forall. intros r _. right. left. exists r. reflexivity.
  Qed.
End SpmLoop.

Definition no_shape (s : str) : Prop := forall w, Infix w s -> is_byte_shape w = false.

(** "<0x%02X>" is read back as the byte it was printed from: 256 cases *)
Definition byte_tok_ok (b : N) : bool :=
  match spm_dec_token (byte_token b) with Some [x] => (x =? b)%N | _ => false end.

Lemma byte_tok_ok_all : forallb byte_tok_ok all_bytes = true.
Proof. vm_compute. reflexivity. Qed.

Lemma byte_token_decode b : (b < 256)%N -> spm_dec_token (byte_token b) = Some [b].
Proof.
  intros Hb. assert (H := forall_bytes byte_tok_ok byte_tok_ok_all b Hb). unfold byte_tok_ok in H.
  destruct (spm_dec_token (byte_token b)) as [[|x [|? ?]]|]; try discriminate.
  apply N.eqb_eq in H. subst x. reflexivity.
Qed.

Section SpmDecode.
  Variable v : vocab.
  Hypothesis Hcons : vocab_consistent v.
  Hypothesis Hcomplete : spm_complete v.

  Lemma spm_decode_app a b x y :
    spm_decode v a = DOk x -> spm_decode v b = DOk y -> spm_decode v (a ++ b) = DOk (x ++ y).
  Proof.
    revert x. induction a as [|id a IH]; intros x Ha Hb; cbn [app spm_decode] in *.
    - injection Ha as <-. exact Hb.
    - destruct (vdec v id) as [tok|]; [|discriminate]. destruct (spm_dec_token tok) as [bs|]; [|discriminate].
      destruct (spm_decode v a) as [r| |]; try discriminate.
      injection Ha as <-. rewrite (IH r eq_refl Hb). rewrite app_assoc. reflexivity.
  Qed.

  Lemma fallback_decode tok : is_bytes tok -> spm_decode v (byte_fallback v tok) = DOk tok.
  Proof.
    destruct Hcomplete as [Hbt _]. induction 1 as [|b tok Hb Ht IH]; [reflexivity|].
    unfold byte_fallback. cbn [flat_map]. fold (byte_fallback v tok).
    replace (0 <=? venc v (byte_token b)) with true by (specialize (Hbt b Hb); lia).
    cbn [app spm_decode]. rewrite Hcons by (apply Hbt, Hb). rewrite byte_token_decode by exact Hb.
    rewrite IH. reflexivity.
  Qed.

  Lemma token_decode rs :
    scalars rs -> 0 <= venc v (of_runes rs) -> is_byte_shape (of_runes (map sep2sp rs)) = false ->
    spm_decode v [venc v (of_runes rs)] = DOk (of_runes (map sep2sp rs)).
  Proof.
    intros Hs Hv Hsh. cbn [spm_decode]. rewrite Hcons by exact Hv.
    unfold spm_dec_token. rewrite replace_sep_runes by exact Hs. rewrite Hsh. rewrite app_nil_r. reflexivity.
  Qed.

  Lemma spm_cell_ids_decode cells :
    pieces_rune_or_token v cells -> scalars (text cells) ->
    (forall c, In c cells -> is_byte_shape (of_runes (map sep2sp (cr c))) = false) ->
    spm_decode v (spm_cell_ids v cells) = DOk (of_runes (map sep2sp (text cells))).
  Proof.
    intros HV. induction HV as [|c cells Hc HV IH]; intros Hs Hsh; [reflexivity|].
    unfold text, texts in Hs |- *. cbn [map concat] in Hs |- *. apply Forall_app in Hs as [Hs1 Hs2].
    unfold spm_cell_ids. cbn [flat_map]. fold (spm_cell_ids v cells).
    rewrite map_app, of_runes_app.
    assert (IH' : spm_decode v (spm_cell_ids v cells) = DOk (of_runes (map sep2sp (concat (map cr cells))))).
    { apply IH; [exact Hs2|]. intros c' Hc'. apply Hsh. right. exact Hc'. }
    destruct (isnil (cr c)) eqn:En.
    - apply isnil_true in En. rewrite En. cbn [app map of_runes flat_map]. exact IH'.
    - apply isnil_false in En.
      destruct (0 <=? venc v (of_runes (cr c))) eqn:Ev.
      + apply spm_decode_app; [|exact IH'].
        apply token_decode; [exact Hs1|lia|apply Hsh; left; reflexivity].
      + apply spm_decode_app; [|exact IH'].
        destruct Hc as [Hc|[[r Hr]|Hc]]; [contradiction| |lia].
        rewrite Hr in *. cbn [map]. unfold sep2sp.
        destruct (r =? usep)%N eqn:Er.
        { apply N.eqb_eq in Er. subst r. cbn [of_runes flat_map] in Ev. rewrite app_nil_r, encode_usep in Ev.
          destruct Hcomplete as [_ Hsep]. lia. }
        apply fallback_decode. apply of_runes_bytes.
  Qed.
End SpmDecode.

Section SpmRoundtrip.
  Variable v : vocab.
  Hypothesis Hcons : vocab_consistent v.
  Hypothesis Hcomplete : spm_complete v.
  Hypothesis Hspec : specials_in_vocab v.
  Hypothesis Hsv : specials_valid v.

  Lemma In_cells_infix cells c : In c cells -> exists x y, text cells = x ++ cr c ++ y.
  Proof.
    intros H. apply in_split in H as [a [b ->]]. unfold text, texts. rewrite map_app, concat_app. cbn [map concat].
    eexists _, _. reflexivity.
  Qed.

  Lemma spm_text_roundtrip rt :
    scalars rt -> ~ In usep rt -> no_shape (of_runes rt) ->
    spm_decode v (spm_text v (of_runes rt)) = DOk (of_runes rt).
  Proof.
    intros Hs Hn Hsh. unfold spm_text.
    rewrite replace_space_runes.
    pose proof (scalars_sp2sep rt Hs) as Hs'.
    destruct (0 <=? venc v (of_runes (map sp2sep rt))) eqn:E.
    - rewrite token_decode; [|exact Hcons|exact Hs'|lia|].
      + rewrite sep2sp_sp2sep by exact Hn. reflexivity.
      + rewrite sep2sp_sp2sep by exact Hn. apply Hsh, Infix_refl.
    - rewrite to_runes_of_runes by exact Hs'.
      destruct (spm_cells_spec v (map sp2sep rt)) as [Ht [HV _]].
      set (cells := fst (spm_cells v (map sp2sep rt))) in *.
      rewrite spm_cell_ids_decode; try assumption.
      + rewrite Ht, sep2sp_sp2sep by exact Hn. reflexivity.
      + rewrite Ht. exact Hs'.
      + intros c Hc. apply Hsh. destruct (In_cells_infix cells c Hc) as [x [y Hxy]].
        rewrite Ht in Hxy. apply (f_equal (map sep2sp)) in Hxy.
        rewrite sep2sp_sp2sep in Hxy by exact Hn. rewrite Hxy, !map_app, !of_runes_app.
        eexists _, _. reflexivity.
  Qed.

  (** by UTF-8 self-synchronisation: special tokens are valid and non-empty *)
  Lemma fragments_valid s t : valid_text s -> In (FText t) (fragments v s) -> valid_text t.
  Proof.
    intros Hs Hin. pose proof (fragments_all valid_text (fun _ _ => True) v s) as H.
    rewrite Forall_forall in H. apply (H (fun _ _ => I)) in Hin; [exact Hin| |exact Hs].
    intros sp x i Hsp [rx [Hrx ->]] E. destruct (Hsv sp Hsp) as [rsp [Hrsp [Hne ->]]].
    apply index_of_split in E as [Hv _].
    destruct (utf8_sync rx rsp _ _ Hrx Hrsp Hne Hv) as [ra [rb [Ha [Hb [Ea [Eb _]]]]]].
    split; [exists ra|exists rb]; auto.
  Qed.

  Lemma spm_frags_roundtrip s fs :
    valid_text s -> ~ Infix sep s -> no_shape s ->
    incl fs (fragments v s) -> spm_decode v (flat_map (spm_frag v) fs) = DOk (frags_text fs).
  Proof.
    intros Hs Hn Hsh. induction fs as [|f fs IH]; intros Hi; [reflexivity|].
    cbn [flat_map]. rewrite frags_text_cons.
    apply spm_decode_app; [|apply IH; intros x Hx; apply Hi; right; exact Hx].
    assert (Hin : In f (fragments v s)) by (apply Hi; left; reflexivity).
    pose proof (fragments_infix v s f Hin) as Hinf.
    destruct f as [t|sp id]; cbn [spm_frag frag_value] in *.
    - destruct (fragments_valid s t Hs Hin) as [rt [Hrt ->]]. apply spm_text_roundtrip; [exact Hrt| |].
      + intros Hu. apply In_usep_infix in Hu. apply Hn. eapply Infix_trans; eassumption.
      + intros w Hw. apply Hsh. eapply Infix_trans; eassumption.
    - destruct (fragments_ok v s sp id Hin) as [Hsp ->]. cbn [spm_decode]. rewrite Hcons by (apply Hspec, Hsp).
      unfold spm_dec_token. rewrite replace_no_infix by (intros H; apply Hn; eapply Infix_trans; eassumption).
      rewrite (Hsh sp Hinf). rewrite app_nil_r. reflexivity.
  Qed.

  Theorem spm_roundtrip rs :
    scalars rs -> ~ Infix sep (of_runes rs) -> no_shape (of_runes rs) ->
    spm_decode v (spm_encode v (of_runes rs) false) = DOk (of_runes rs).
  Proof.
    intros Hs Hn Hsh. unfold spm_encode, add_special. cbn [andb]. unfold spm_encode_ids.
    rewrite (spm_frags_roundtrip (of_runes rs)); try assumption; [|exists rs; auto|apply incl_refl].
    rewrite fragments_text. reflexivity.
  Qed.
End SpmRoundtrip.

Section SpmIds.
  Variable v : vocab.
  Hypothesis Hrange : vocab_range v.
  Hypothesis Hspec : specials_in_vocab v.

  Lemma byte_fallback_ok tok : Forall (id_ok v) (byte_fallback v tok).
  Proof.
    unfold byte_fallback. apply Forall_flat_map, Forall_forall. intros b _.
    destruct (0 <=? venc v (byte_token b)) eqn:E; [|constructor].
    constructor; [|constructor]. split; [lia|apply Hrange].
  Qed.

  Lemma spm_cell_ids_ok cells : Forall (id_ok v) (spm_cell_ids v cells).
  Proof.
    unfold spm_cell_ids. apply Forall_flat_map, Forall_forall. intros c _.
    destruct (isnil (cr c)); [constructor|].
    destruct (0 <=? venc v (of_runes (cr c))) eqn:E; [|apply byte_fallback_ok].
    constructor; [|constructor]. split; [lia|apply Hrange].
  Qed.

  Lemma spm_text_ok t : Forall (id_ok v) (spm_text v t).
  Proof.
    unfold spm_text. destruct (0 <=? venc v _) eqn:E; [|apply spm_cell_ids_ok].
    constructor; [|constructor]. split; [lia|apply Hrange].
  Qed.

  Theorem spm_ids_in_vocab s addsp :
    (vaddbos v = true -> id_ok v (vbos v)) -> (vaddeos v = true -> id_ok v (veos v)) ->
    Forall (id_ok v) (spm_encode v s addsp).
  Proof.
    intros Hb He. apply add_special_ok; [exact Hb|exact He|].
    unfold spm_encode_ids. apply Forall_flat_map, Forall_forall. intros [t|sp id] Hf; cbn [spm_frag]; [apply spm_text_ok|].
    destruct (fragments_ok v s sp id Hf) as [Hsp ->]. constructor; [|constructor]. split; [apply Hspec, Hsp|apply Hrange].
  Qed.
End SpmIds.

(** Property C20 - tokenizing then detokenizing returns the original text.
    A vocabulary is the abstract interface [vocab]; [vocab_of] is the Go struct.  "Valid UTF-8 text" = [of_runes rs]
    for a list [rs] of Unicode scalar values.  The pre-tokeniser (regexp2) is the variable [split] with hypothesis
    [split_partition], or one of the two modelled patterns of Tok/Pretok.v. *)
From Coq Require Import List NArith ZArith Bool.
From V Require Import Common.Bytes Tok.Utf8 Tok.ByteMap Tok.ByteMapProofs Tok.Utf8Proofs Tok.Vocab
     Tok.Special Tok.SpecialProofs Tok.Bpe Tok.Spm Tok.MergeProofs Tok.BpeProofs Tok.SpmProofs Tok.LiteralProofs Tok.Pretok Tok.PretokProofs Tok.SizeCheck Tok.Witness.
Import ListNotations.

(** Decode's rune -> byte map inverts Encode's byte -> rune map on every byte value except NUL (the bound 256 is
    the domain; proof by exhaustive computation).  This is the REPAIRED map (fixes/C20-bytemap-tilde.patch). *)
Theorem C20_bytemap_inverse : forall b, (b < 256)%N -> b <> 0%N -> bunmap (bmap b) = Some b.
Proof. exact bytemap_inverse. Qed.
Print Assumptions C20_bytemap_inverse.

Theorem C20_bytemap_injective : forall b c, (b < 256)%N -> (c < 256)%N -> bmap b = bmap c -> b = c.
Proof. exact bytemap_injective. Qed.
Print Assumptions C20_bytemap_injective.

(** the map as it was before the repair identified '~' with the space *)
Theorem C20_bytemap_unrepaired_refuted :
  ~ (forall b, (b < 256)%N -> b <> 0%N -> bunmap (bmap_unrepaired b) = Some b).
Proof. intros H. specialize (H 126%N eq_refl ltac:(discriminate)). discriminate. Qed.
Print Assumptions C20_bytemap_unrepaired_refuted.

Theorem C20_bytemap_string_inverse : forall s, is_bytes s -> no_nul s = true -> unmap_string (map_bytes s) = s.
Proof. exact unmap_map_bytes. Qed.
Print Assumptions C20_bytemap_string_inverse.

Example C20_bytemap_string_inverse_nonvacuous :
  unmap_string (map_bytes [126; 32; 127; 173; 195; 169]%N) = [126; 32; 127; 173; 195; 169]%N.
Proof. vm_compute. reflexivity. Qed.

Theorem C20_utf8_runes_roundtrip : forall rs, scalars rs -> to_runes (of_runes rs) = rs /\ utf8_valid (of_runes rs) = true.
Proof. intros rs H. split; [apply to_runes_of_runes, H | apply utf8_valid_of_runes, H]. Qed.
Print Assumptions C20_utf8_runes_roundtrip.

(** the fragments are a partition of the input, for every vocabulary and text *)
Theorem C20_special_split_partition : forall v s, concat (map frag_value (fragments v s)) = s.
Proof. exact fragments_text. Qed.
Print Assumptions C20_special_split_partition.

(** every special fragment is a special token of the vocabulary with its own id *)
Theorem C20_special_split_ids : forall v s sp id,
  In (FSpec sp id) (fragments v s) -> In sp (vspecials v) /\ id = venc v sp.
Proof. exact fragments_ok. Qed.
Print Assumptions C20_special_split_ids.

(** the bounded recursion of the model is the unbounded loop of the code (non-empty special tokens) *)
Theorem C20_special_split_fuel : forall sp id f1 f2 t,
  sp <> [] -> (length t <= f1)%nat -> (length t <= f2)%nat -> split_one f1 sp id t = split_one f2 sp id t.
Proof. exact split_one_fuel. Qed.
Print Assumptions C20_special_split_fuel.

(** BPE: whatever the merge ranks and the vocabulary, the concatenation of the pieces left by the loop is the
    input rune list; and every piece is in the vocabulary when every single rune is *)
Theorem C20_merge_preserves_text : forall v rs,
  text (fst (bpe_cells v rs)) = rs /\
  (Forall (fun r => (0 <= venc v (encode_rune r))%Z) rs ->
   Forall (fun c => cr c = [] \/ (0 <= venc v (of_runes (cr c)))%Z) (fst (bpe_cells v rs))).
Proof.
  intros v rs. destruct (bpe_cells_spec v rs) as [Ht [HV _]]. split; [exact Ht|exact HV].
Qed.
Print Assumptions C20_merge_preserves_text.

(** SentencePiece: whatever the scores, same text; every piece is a single rune or a token *)
Theorem C20_spm_merge_preserves_text : forall v rs,
  text (fst (spm_cells v rs)) = rs /\
  Forall (fun c => cr c = [] \/ (exists r, cr c = [r]) \/ (0 <= venc v (of_runes (cr c)))%Z) (fst (spm_cells v rs)).
Proof.
  intros v rs. destruct (spm_cells_spec v rs) as [Ht [HV _]]. split; [exact Ht|exact HV].
Qed.
Print Assumptions C20_spm_merge_preserves_text.

(** the piece clause depends on the loop's stale-candidate test [len(left)+len(right) != pair.size]: for the same
    loop WITHOUT it ([spm_cells_nosize], Tok/SizeCheck.v - not the model of the code) the clause is false.  Witness:
    pieces U+2581 q (score -5) and qz (score -1), no U+2581 qz, text " qz": the stale pair (U+2581, q) is merged after q
    absorbed z, the non-piece U+2581 qz goes through the byte fallback and decodes to a literal U+2581 *)
Definition C20_spm_pieces_without_size_check : Prop := forall v rs,
  Forall (fun c => cr c = [] \/ (exists r, cr c = [r]) \/ (0 <= venc v (of_runes (cr c)))%Z) (fst (spm_cells_nosize v rs)).

Theorem C20_spm_pieces_without_size_check_refuted : ~ C20_spm_pieces_without_size_check.
Proof.
  intros H. specialize (H sz_vocab sz_runes). destruct sz_without_check as [Hc [Hv _]].
  apply (Forall_map cr (fun x => x = [] \/ (exists r, x = [r]) \/ (0 <= venc sz_vocab (of_runes x))%Z)) in H.
  rewrite Hc in H. inversion H as [|? ? [H0|[[r H0]|H0]] _]; [discriminate..|].
  rewrite Hv in H0. apply H0. reflexivity.
Qed.
Print Assumptions C20_spm_pieces_without_size_check_refuted.

Example C20_spm_size_check_witness :
  map cr (fst (spm_cells sz_vocab sz_runes)) = [[9601]; [113; 122]; []]%N /\
  spm_decode sz_vocab (spm_cell_ids sz_vocab (fst (spm_cells_nosize sz_vocab sz_runes))) = DOk (sep ++ [113; 122]%N).
Proof. split; [exact sz_with_check|exact (proj2 (proj2 sz_without_check))]. Qed.

(** the fuel of the model's loops is never exhausted: they stop because the heap is empty, as the code's do *)
Theorem C20_merge_loops_terminate : forall v rs, snd (bpe_cells v rs) = [] /\ snd (spm_cells v rs) = [].
Proof. intros v rs. split; [apply bpe_cells_spec|apply spm_cells_spec]. Qed.
Print Assumptions C20_merge_loops_terminate.

(** full statement: every byte-covering vocabulary, every valid NUL-free text *)
Definition C20_bpe_roundtrip_full : Prop := forall v split s,
  vocab_consistent v -> bpe_complete v -> specials_in_vocab v -> split_partition split ->
  valid_text s -> no_nul s = true ->
  bpe_decode v (bpe_encode v split s false) = Some s.

(** false of the faithful model: ids 105/106 are special whatever their type (known finding
    C20-special-105-106-nonascii) *)
Theorem C20_bpe_roundtrip_refuted : ~ C20_bpe_roundtrip_full.
Proof.
  intros H.
  specialize (H wv_bpe wsplit [195; 141]%N wv_bpe_consistent wv_bpe_complete wv_bpe_specials wsplit_partition).
  rewrite wv_bpe_counterexample in H.
  assert (Hv : valid_text [195; 141]%N) by (exists [205%N]; split; [repeat constructor|reflexivity]).
  specialize (H Hv eq_refl). discriminate.
Qed.
Print Assumptions C20_bpe_roundtrip_refuted.

(** partial: guarded by "every special token whose literal occurs in the text is plain ASCII" (decidable);
    validity of the UTF-8 is not even needed here - it is what makes the real pre-tokeniser a partition *)
Theorem C20_bpe_roundtrip : forall v split s,
  vocab_consistent v -> bpe_complete v -> specials_in_vocab v -> split_partition split ->
  is_bytes s -> no_nul s = true -> specials_plain_b v s = true ->
  bpe_decode v (bpe_encode v split s false) = Some s.
Proof.
  intros v split s H1 H2 H3 H4 H5 H6 H7. apply bpe_roundtrip; try assumption. apply specials_plain_b_spec, H7.
Qed.
Print Assumptions C20_bpe_roundtrip.

Example C20_bpe_roundtrip_nonvacuous :
  vocab_consistent wv_bpe /\ bpe_complete wv_bpe /\ specials_in_vocab wv_bpe /\ split_partition wsplit /\
  specials_plain_b wv_bpe [97; 98; 126; 32; 127; 97]%N = true /\
  bpe_encode wv_bpe wsplit [97; 98; 126; 32; 127; 97]%N false = [256; 26; 188; 27; 253]%Z.
Proof.
  split; [exact wv_bpe_consistent|]. split; [exact wv_bpe_complete|]. split; [exact wv_bpe_specials|].
  split; [exact wsplit_partition|]. destruct wv_bpe_example as [H1 H2]. split; assumption.
Qed.

(** the llama 3 pattern of model/models/llama and mllama splits every valid text into a partition of non-empty
    pieces - whatever the Unicode class tables are (no hypothesis on \p{L}, \p{N}, \s) *)
Theorem C20_pretokenize_partition : forall cls rs, scalars rs ->
  concat (pretok (llama3 cls) (of_runes rs)) = of_runes rs /\ Forall (fun p => p <> []) (pretok (llama3 cls) (of_runes rs)).
Proof.
  intros cls rs Hs. apply pretok_partition; [rewrite llama3_minlen; constructor|apply llama3_matches|exact Hs].
Qed.
Print Assumptions C20_pretokenize_partition.

(** the tekken pattern of model/models/mistral3: same, for class tables in which every \p{L} rune is in one of
    \p{Lu} \p{Lt} \p{Lm} \p{Lo} \p{Ll} \p{M} (tested on every class the real engine reports) *)
Theorem C20_pretokenize_partition_tekken : forall cls rs,
  (forall c, cls UL c = true -> upperish cls c || lowerish cls c = true) -> scalars rs ->
  concat (pretok (tekken cls) (of_runes rs)) = of_runes rs /\ Forall (fun p => p <> []) (pretok (tekken cls) (of_runes rs)).
Proof.
  intros cls rs HL Hs. apply pretok_partition; [rewrite tekken_minlen; constructor|apply tekken_matches, HL|exact Hs].
Qed.
Print Assumptions C20_pretokenize_partition_tekken.

(** the loop drops runes at which no alternative matches: with a pattern that is not gapless the pieces are not
    a partition (this is what the code does with regexp2 matches; the repo's patterns are gapless by the theorems
    above) *)
Example C20_split_drops_gaps :
  let cls := cls_of_table [(97, 1); (98, 1); (32, 4)]%N in
  pretok (rplus (cls UL)) [97; 32; 98]%N = [[97]; [98]]%N.
Proof. vm_compute. reflexivity. Qed.

(** the round trip NEEDS a partition: for a byte-covering vocabulary Decode (Encode s) is the concatenation of the
    pieces the pre-tokeniser returned (and of the special literals), so it equals s exactly when the pieces of the
    fragments concatenate to s.  A model constructor that chooses a pattern which does not match all text loses the
    unmatched text (BytePairEncoding.split yields only the matches); the check builds the tokenizer through every model
    constructor and metadata variant and tests this on whitespace-rich texts. *)
Theorem C20_bpe_decode_is_pieces : forall v split s,
  vocab_consistent v -> bpe_complete v -> specials_in_vocab v ->
  specials_plain_b v s = true -> pieces_ok v split s ->
  bpe_decode v (bpe_encode v split s false) = Some (concat (map (frag_out split) (fragments v s))) /\
  (bpe_decode v (bpe_encode v split s false) = Some s <-> concat (map (frag_out split) (fragments v s)) = s).
Proof.
  intros v split s H1 H2 H3 H4 H5.
  assert (E : bpe_decode v (bpe_encode v split s false) = Some (concat (map (frag_out split) (fragments v s)))).
  { apply bpe_decode_is_pieces; try assumption. apply specials_plain_b_spec, H4. }
  split; [exact E|]. rewrite E. split; [intros [= ->]; reflexivity|intros ->; reflexivity].
Qed.
Print Assumptions C20_bpe_decode_is_pieces.

(** llama.cpp's GPT-2 pattern WITHOUT its trailing [|\s+] ('s|'t|'re|'ve|'m|'ll|'d| ?\p{L}+| ?\p{N}+| ?[^\s\p{L}\p{N}]+|\s+(?!\S))
    is not gapless: a lone newline directly before a non-space rune is matched by no alternative and dropped *)
Example C20_gpt2_without_tail_drops_newline :
  let cls := cls_of_table [(97, 129); (98, 129); (10, 4)]%N in
  let gpt2_no_tail :=
    alts [contractions; Seq (ropt (eqc 32)) (rplus (cls UL)); Seq (ropt (eqc 32)) (rplus (cls UN));
          Seq (ropt (eqc 32)) (rplus (not_S_L_N cls))] (Seq (rplus (cls US)) (NegLook (pnot (cls US)))) in
  pretok gpt2_no_tail [97; 10; 98]%N = [[97]; [98]]%N.
Proof. vm_compute. reflexivity. Qed.

(** BPE round trip with the modelled pre-tokeniser: NO hypothesis about the pre-tokeniser is left; in exchange the
    text must be valid UTF-8 and the special tokens valid UTF-8 (fragments of a valid text are then valid) *)
Theorem C20_bpe_roundtrip_llama3 : forall v cls rs,
  vocab_consistent v -> bpe_complete v -> specials_in_vocab v -> specials_valid v ->
  scalars rs -> no_nul (of_runes rs) = true -> specials_plain_b v (of_runes rs) = true ->
  bpe_decode v (bpe_encode v (pretok (llama3 cls)) (of_runes rs) false) = Some (of_runes rs).
Proof.
  intros v cls rs H1 H2 H3 H4 H5 H6 H7.
  apply bpe_roundtrip_pattern; try assumption; [rewrite llama3_minlen; constructor|apply llama3_matches|apply specials_plain_b_spec, H7].
Qed.
Print Assumptions C20_bpe_roundtrip_llama3.

Theorem C20_bpe_roundtrip_tekken : forall v cls rs,
  (forall c, cls UL c = true -> upperish cls c || lowerish cls c = true) ->
  vocab_consistent v -> bpe_complete v -> specials_in_vocab v -> specials_valid v ->
  scalars rs -> no_nul (of_runes rs) = true -> specials_plain_b v (of_runes rs) = true ->
  bpe_decode v (bpe_encode v (pretok (tekken cls)) (of_runes rs) false) = Some (of_runes rs).
Proof.
  intros v cls rs HL H1 H2 H3 H4 H5 H6 H7.
  apply bpe_roundtrip_pattern; try assumption; [rewrite tekken_minlen; constructor|apply tekken_matches, HL|apply specials_plain_b_spec, H7].
Qed.
Print Assumptions C20_bpe_roundtrip_tekken.

Example C20_bpe_roundtrip_llama3_nonvacuous :
  let cls := cls_of_table [(97, 129); (98, 129); (32, 4); (49, 2)]%N in
  specials_valid wv_bpe /\
  pretok (llama3 cls) [97; 98; 32; 97; 39; 115; 49; 49; 49; 49; 32; 32; 126]%N =
    [[97; 98]; [32; 97]; [39; 115]; [49; 49; 49]; [49]; [32]; [32; 126]]%N /\
  bpe_encode wv_bpe (pretok (llama3 cls)) [97; 98; 32; 97]%N false = [256; 188; 253]%Z.
Proof. split; [exact wv_bpe_specials_valid|]. vm_compute. split; reflexivity. Qed.

Definition C20_spm_roundtrip_full : Prop := forall v rs,
  vocab_consistent v -> spm_complete v -> specials_in_vocab v -> specials_valid v -> scalars rs ->
  spm_decode v (spm_encode v (of_runes rs) false) = DOk (of_runes rs).

(** false: U+2581 (known finding C20-spm-u2581) ... *)
Theorem C20_spm_roundtrip_refuted : ~ C20_spm_roundtrip_full.
Proof.
  intros H.
  specialize (H wv_spm [9601%N] wv_spm_consistent wv_spm_complete wv_spm_specials wv_spm_specials_valid ltac:(repeat constructor)).
  rewrite wv_spm_counterexample_u2581 in H. discriminate.
Qed.
Print Assumptions C20_spm_roundtrip_refuted.

(** ... and, independently, the literal form of a byte token (known finding C20-spm-byte-token-literal):
    even restricted to texts without U+2581 the statement is false *)
Theorem C20_spm_roundtrip_refuted_byte_literal :
  ~ (forall v rs, vocab_consistent v -> spm_complete v -> specials_in_vocab v -> specials_valid v -> scalars rs ->
       containsb (of_runes rs) sep = false ->
       spm_decode v (spm_encode v (of_runes rs) false) = DOk (of_runes rs)).
Proof.
  intros H.
  specialize (H wv_spm [60; 48; 120; 52; 49; 62]%N wv_spm_consistent wv_spm_complete wv_spm_specials wv_spm_specials_valid
                ltac:(repeat constructor) eq_refl).
  rewrite wv_spm_counterexample_byte_literal in H. discriminate.
Qed.
Print Assumptions C20_spm_roundtrip_refuted_byte_literal.

(** partial: the text contains neither U+2581 nor a six-byte window of the form "<0x??>" (both decidable) *)
Theorem C20_spm_roundtrip : forall v rs,
  vocab_consistent v -> spm_complete v -> specials_in_vocab v -> specials_valid v -> scalars rs ->
  containsb (of_runes rs) sep = false -> no_shape_b (of_runes rs) = true ->
  spm_decode v (spm_encode v (of_runes rs) false) = DOk (of_runes rs).
Proof.
  intros v rs H1 H2 H3 H4 H5 H6 H7. apply spm_roundtrip; try assumption.
  - apply containsb_false, H6.
  - apply no_shape_b_spec, H7.
Qed.
Print Assumptions C20_spm_roundtrip.

Example C20_spm_roundtrip_nonvacuous :
  vocab_consistent wv_spm /\ spm_complete wv_spm /\ specials_in_vocab wv_spm /\ specials_valid wv_spm /\
  spm_encode wv_spm (of_runes [97; 98; 32; 98; 233]%N) false = [257; 0; 259; 196; 170]%Z /\
  containsb (of_runes [97; 98; 32; 98; 233]%N) sep = false /\ no_shape_b (of_runes [97; 98; 32; 98; 233]%N) = true.
Proof.
  split; [exact wv_spm_consistent|]. split; [exact wv_spm_complete|]. split; [exact wv_spm_specials|].
  split; [exact wv_spm_specials_valid|]. exact wv_spm_example.
Qed.

(** ids inside the vocabulary: every vocabulary, every text (any bytes), with or without BOS/EOS *)
Theorem C20_ids_in_vocab : forall v split s addsp,
  vocab_range v -> specials_in_vocab v ->
  (vaddbos v = true -> id_ok v (vbos v)) -> (vaddeos v = true -> id_ok v (veos v)) ->
  Forall (id_ok v) (bpe_encode v split s addsp) /\ Forall (id_ok v) (spm_encode v s addsp).
Proof.
  intros v split s addsp H1 H2 H3 H4. split; [apply bpe_ids_in_vocab|apply spm_ids_in_vocab]; assumption.
Qed.
Print Assumptions C20_ids_in_vocab.

(** special-token literals: the leftmost occurrence of the first special token (in SpecialVocabulary order) that
    occurs in the text is encoded as exactly that token's id, between the encodings of the fragments of the text
    before and after it *)
Theorem C20_special_literal : forall v split s pre sp post i,
  vspecials v = pre ++ sp :: post -> (forall x, In x pre -> ~ Infix x s) -> index_of s sp = Some i ->
  exists fa fb, frags_text fa = firstn i s /\ frags_text fb = skipn (i + length sp) s /\
    bpe_encode v split s false = flat_map (bpe_frag v split) fa ++ venc v sp :: flat_map (bpe_frag v split) fb /\
    spm_encode v s false = flat_map (spm_frag v) fa ++ venc v sp :: flat_map (spm_frag v) fb.
Proof.
  intros v split s pre sp post i H1 H2 H3.
  destruct (special_literal_fragment v s pre sp post i H1 H2 H3) as [fa [fb [E [Ha Hb]]]].
  exists fa, fb. split; [exact Ha|]. split; [exact Hb|].
  unfold bpe_encode, spm_encode, add_special, bpe_encode_ids, spm_encode_ids. cbn [andb].
  rewrite E, !flat_map_app. split; reflexivity.
Qed.
Print Assumptions C20_special_literal.

Example C20_special_literal_nonvacuous :
  vspecials wv_spm = [] ++ byte_token 104 :: [byte_token 105] /\ index_of [97; 60; 48; 120; 54; 56; 62; 98]%N (byte_token 104) = Some 1%nat.
Proof. split; [exact wv_spm_specials_eq|reflexivity]. Qed.

(** the order "split on special literals first, then escape spaces": a control token whose literal contains a space
    is found in text with spaces around it (SentencePiece) *)
Example C20_special_literal_with_space :
  spm_encode wv_spm2 [97; 32; 60; 101; 32; 116; 62; 32; 98]%N false = [258; 0; 260; 0; 259]%Z /\
  spm_decode wv_spm2 [258; 0; 260; 0; 259]%Z = DOk [97; 32; 60; 101; 32; 116; 62; 32; 98]%N.
Proof. exact wv_spm2_spaced_special. Qed.

(** the Go struct satisfies the hypotheses put on abstract vocabularies *)
Theorem C20_vocab_of_ok : forall values types scores merges bos eos ab ae,
  let v := vocab_of values types scores merges bos eos ab ae in
  vocab_consistent v /\ vocab_range v /\ specials_in_vocab v.
Proof.
  intros. split; [apply vocab_of_consistent|]. split; [apply vocab_of_range|apply vocab_of_specials].
Qed.
Print Assumptions C20_vocab_of_ok.

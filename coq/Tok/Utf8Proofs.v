(** UTF-8 over Unicode scalar values: decoding inverts encoding; encodings are self-synchronising.  "Valid UTF-8
    text" in the C20 theorems means [of_runes rs] for a list [rs] of scalar values. *)
From Coq Require Import List NArith ZArith Bool Arith Lia ZifyBool ZifyNat ZifyN.
From V Require Import Common.Bytes Tok.Utf8.
Import ListNotations.
Open Scope N_scope.

Definition is_scalar (r : N) : bool := (r <? 55296) || ((57343 <? r) && (r <=? 1114111)).
Definition scalars (rs : list N) : Prop := Forall (fun r => is_scalar r = true) rs.

(** The decoder per length class; the ranges are one conjunction so that a caller discharges them with one [lia]. *)
Lemma in_rng_true lo hi b : lo <= b <= hi -> in_rng lo hi b = true.
Proof. unfold in_rng. lia. Qed.

Lemma is_cont_true b : 128 <= b <= 191 -> is_cont b = true.
Proof. apply in_rng_true. Qed.

Lemma decode_rune_1 b t : b < 128 -> decode_rune (b :: t) = (b, 1%nat).
Proof. intros H. cbn [decode_rune]. rewrite (proj2 (N.ltb_lt b 128) H). reflexivity. Qed.

Lemma decode_rune_2 b0 b1 t :
  194 <= b0 <= 223 /\ 128 <= b1 <= 191 ->
  decode_rune (b0 :: b1 :: t) = ((b0 - 192) * 64 + (b1 - 128), 2%nat).
Proof.
  intros [H0 H1].
  assert (T : (b0 <? 128) = false /\ in_rng 194 223 b0 = true) by (unfold in_rng; lia).
  destruct T as [T1 T2]. cbn [decode_rune]. rewrite T1, T2, is_cont_true by exact H1. reflexivity.
Qed.

(** E0 is followed by A0..BF (no overlong forms), ED by 80..9F (no surrogates) *)
Lemma decode_rune_3 b0 b1 b2 t :
  224 <= b0 <= 239 /\ 128 <= b1 <= 191 /\ (b0 = 224 -> 160 <= b1) /\ (b0 = 237 -> b1 <= 159) /\ 128 <= b2 <= 191 ->
  decode_rune (b0 :: b1 :: b2 :: t) = ((b0 - 224) * 4096 + (b1 - 128) * 64 + (b2 - 128), 3%nat).
Proof.
  intros [H0 [[L1 U1] [Hlo [Hhi H2]]]].
  assert (T : (b0 <? 128) = false /\ in_rng 194 223 b0 = false /\ in_rng 224 239 b0 = true) by (unfold in_rng; lia).
  destruct T as [T1 [T2 T3]]. cbn [decode_rune]. rewrite T1, T2, T3, in_rng_true.
  - rewrite is_cont_true by exact H2. reflexivity.
  - split; [destruct (N.eqb_spec b0 224)|destruct (N.eqb_spec b0 237)]; auto.
Qed.

(** F0 is followed by 90..BF (no overlong forms), F4 by 80..8F (at most U+10FFFF) *)
Lemma decode_rune_4 b0 b1 b2 b3 t :
  240 <= b0 <= 244 /\ 128 <= b1 <= 191 /\ (b0 = 240 -> 144 <= b1) /\ (b0 = 244 -> b1 <= 143) /\
  128 <= b2 <= 191 /\ 128 <= b3 <= 191 ->
  decode_rune (b0 :: b1 :: b2 :: b3 :: t) =
    ((b0 - 240) * 262144 + (b1 - 128) * 4096 + (b2 - 128) * 64 + (b3 - 128), 4%nat).
Proof.
  intros [H0 [[L1 U1] [Hlo [Hhi [H2 H3]]]]].
  assert (T : (b0 <? 128) = false /\ in_rng 194 223 b0 = false /\ in_rng 224 239 b0 = false /\
              in_rng 240 244 b0 = true) by (unfold in_rng; lia).
  destruct T as [T1 [T2 [T3 T4]]]. cbn [decode_rune].
  rewrite T1, T2, T3, T4, in_rng_true.
  - rewrite (is_cont_true b2), (is_cont_true b3) by assumption. reflexivity.
  - split; [destruct (N.eqb_spec b0 240)|destruct (N.eqb_spec b0 244)]; auto.
Qed.

(** The encoder: its five cases, with the rune written in base 64 so that no later proof divides. *)
Inductive utf8_enc (r : N) : str -> Prop :=
| Enc1 : r < 128 -> utf8_enc r [r]
| Enc2 q m : r = 64 * q + m -> m < 64 -> 128 <= r < 2048 -> utf8_enc r [192 + q; 128 + m]
| Enc3 q m1 m0 : r = 4096 * q + 64 * m1 + m0 -> m1 < 64 -> m0 < 64 -> 2048 <= r < 65536 -> is_scalar r = true ->
    utf8_enc r [224 + q; 128 + m1; 128 + m0]
| Enc4 q m2 m1 m0 : r = 262144 * q + 4096 * m2 + 64 * m1 + m0 -> m2 < 64 -> m1 < 64 -> m0 < 64 ->
    65536 <= r -> is_scalar r = true -> utf8_enc r [240 + q; 128 + m2; 128 + m1; 128 + m0]
| EncBad : is_scalar r = false -> utf8_enc r [239; 191; 189].

Lemma sextet r : r = 64 * (r / 64) + r mod 64 /\ r mod 64 < 64.
Proof. split; [apply N.div_mod | apply N.mod_lt]; discriminate. Qed.

Lemma encode_rune_cases r : utf8_enc r (encode_rune r).
Proof.
  unfold encode_rune. destruct (sextet r) as [E0 M0].
  destruct (N.ltb_spec r 128) as [H1|H1]; [exact (Enc1 r H1)|].
  destruct (N.ltb_spec r 2048) as [H2|H2]; [exact (Enc2 r _ _ E0 M0 (conj H1 H2))|].
  replace ((1114111 <? r) || in_rng 55296 57343 r) with (negb (is_scalar r)) by (unfold is_scalar, in_rng; lia).
  destruct (is_scalar r) eqn:Hs; [|exact (EncBad r Hs)]. cbn [negb].
  destruct (sextet (r / 64)) as [E1 M1].
  replace (r / 4096) with (r / 64 / 64) by (apply N.div_div; discriminate).
  destruct (N.ltb_spec r 65536) as [H3|H3]; [apply (Enc3 r _ _ _); auto; lia|].
  destruct (sextet (r / 64 / 64)) as [E2 M2].
  replace (r / 262144) with (r / 64 / 64 / 64) by (rewrite !N.div_div by discriminate; reflexivity).
  apply (Enc4 r _ _ _ _); auto. lia.
Qed.

Lemma encode_low r : r < 128 -> encode_rune r = [r].
Proof. intros H. unfold encode_rune. rewrite (proj2 (N.ltb_lt r 128) H). reflexivity. Qed.

Lemma cont_bytes ms : Forall (fun m => m < 64) ms -> Forall (fun b => 128 <= b <= 191) (map (N.add 128) ms).
Proof. intros H. apply Forall_map. eapply Forall_impl; [|exact H]. cbv beta. lia. Qed.

Lemma encode_shape r :
  exists b0 t, encode_rune r = b0 :: t /\ Forall (fun b => 128 <= b <= 191) t /\
               (r < 128 /\ b0 = r /\ t = [] \/ 128 <= r /\ 192 <= b0 < 256).
Proof.
  destruct (encode_rune_cases r) as [H|q m E Hm H|q m1 m0 E H1 H0 H|q m2 m1 m0 E H2 H1 H0 H Hs|Hs];
    eexists _, _; (split; [reflexivity|]).
  - split; [constructor|]. left. auto.
  - split; [apply (cont_bytes [m]); repeat constructor; assumption|]. right. lia.
  - split; [apply (cont_bytes [m1; m0]); repeat constructor; assumption|]. right. lia.
  - split; [apply (cont_bytes [m2; m1; m0]); repeat constructor; assumption|]. right. unfold is_scalar in Hs. lia.
  - split; [repeat constructor; lia|]. right. unfold is_scalar in Hs. lia.
Qed.

Lemma encode_rune_nonempty r : encode_rune r <> [].
Proof. destruct (encode_shape r) as [b0 [t [-> _]]]. discriminate. Qed.

Lemma encode_bytes r : Forall (fun b => b < 256) (encode_rune r).
Proof.
  destruct (encode_shape r) as [b0 [t [-> [Ht Hb]]]]. constructor; [lia|].
  eapply Forall_impl; [|exact Ht]. cbv beta. lia.
Qed.

Lemma encode_high r : 128 <= r -> Forall (fun b => 128 <= b) (encode_rune r).
Proof.
  intros H. destruct (encode_shape r) as [b0 [t [-> [Ht Hb]]]]. constructor; [lia|].
  eapply Forall_impl; [|exact Ht]. cbv beta. lia.
Qed.

Lemma decode_encode r rest :
  is_scalar r = true -> decode_rune (encode_rune r ++ rest) = (r, length (encode_rune r)).
Proof.
  intros Hs.
  destruct (encode_rune_cases r) as [H|q m E|q m1 m0 E|q m2 m1 m0 E|Hb]; [| | | |congruence];
    unfold is_scalar in Hs; cbn [app length].
  - apply decode_rune_1, H.
  - rewrite decode_rune_2 by lia. f_equal. lia.
  - (* q = 0 leaves m1 >= 32 (r >= 0x800), q = 13 leaves m1 < 32 (no surrogates) *)
    rewrite decode_rune_3 by lia. f_equal. lia.
  - (* q = 0 leaves m2 >= 16 (r >= 0x10000), q = 4 leaves m2 < 16 (r <= 0x10FFFF) *)
    rewrite decode_rune_4 by lia. f_equal. lia.
Qed.

Lemma skipn_encode r rest : skipn (length (encode_rune r)) (encode_rune r ++ rest) = rest.
Proof. rewrite skipn_app, skipn_all, Nat.sub_diag. reflexivity. Qed.

Lemma of_runes_cons r rs : of_runes (r :: rs) = encode_rune r ++ of_runes rs.
Proof. reflexivity. Qed.

Lemma of_runes_app a b : of_runes (a ++ b) = of_runes a ++ of_runes b.
Proof. unfold of_runes. apply flat_map_app. Qed.

Lemma of_runes_concat ps : of_runes (concat ps) = concat (map of_runes ps).
Proof. induction ps as [|p ps IH]; [reflexivity|]. cbn [concat map]. rewrite of_runes_app, IH. reflexivity. Qed.

Lemma of_runes_bytes rs : Forall (fun b => b < 256) (of_runes rs).
Proof.
  induction rs as [|r rs IH]; [constructor|]. rewrite of_runes_cons. apply Forall_app. split; [apply encode_bytes|exact IH].
Qed.

Lemma of_runes_nil_inv rs : of_runes rs = [] -> rs = [].
Proof.
  destruct rs as [|r rs]; [reflexivity|]. rewrite of_runes_cons. intros H. apply app_eq_nil in H as [H _].
  exfalso. exact (encode_rune_nonempty r H).
Qed.

Lemma of_runes_len0 x : length (of_runes x) = 0%nat -> x = [].
Proof. intros H. apply of_runes_nil_inv. destruct (of_runes x); [reflexivity|discriminate]. Qed.

Lemma to_runes_f_step f s :
  s <> [] -> to_runes_f (S f) s = fst (decode_rune s) :: to_runes_f f (skipn (snd (decode_rune s)) s).
Proof. destruct s; [congruence|]. intros _. cbn [to_runes_f]. destruct (decode_rune (n :: s)); reflexivity. Qed.

Lemma to_runes_f_cons f r rest :
  is_scalar r = true -> to_runes_f (S f) (encode_rune r ++ rest) = r :: to_runes_f f rest.
Proof.
  intros Hr. rewrite to_runes_f_step.
  - rewrite decode_encode by exact Hr. cbn [fst snd]. rewrite skipn_encode. reflexivity.
  - intros [E _]%app_eq_nil. exact (encode_rune_nonempty r E).
Qed.

Lemma step_ok_encode r rest : is_scalar r = true -> step_ok (encode_rune r ++ rest) = true.
Proof.
  intros Hr. unfold step_ok. rewrite decode_encode by exact Hr. apply negb_true_iff, andb_false_iff.
  destruct (encode_rune_cases r); [left; unfold RuneError; lia | right; reflexivity ..].
Qed.

Lemma utf8_valid_f_cons f r rest :
  is_scalar r = true -> utf8_valid_f (S f) (encode_rune r ++ rest) = utf8_valid_f f rest.
Proof.
  intros Hr. cbn [utf8_valid_f]. destruct (encode_rune r ++ rest) eqn:E.
  { apply app_eq_nil in E as [E _]. destruct (encode_rune_nonempty r E). }
  rewrite <- E, step_ok_encode, decode_encode by exact Hr. cbn [snd]. rewrite skipn_encode. reflexivity.
Qed.

Lemma of_runes_length_cons r rs : (length (of_runes rs) < length (of_runes (r :: rs)))%nat.
Proof.
  rewrite of_runes_cons, app_length. pose proof (encode_rune_nonempty r). destruct (encode_rune r); [congruence|cbn; lia].
Qed.

Lemma to_runes_f_of_runes rs fuel :
  scalars rs -> (length (of_runes rs) <= fuel)%nat -> to_runes_f fuel (of_runes rs) = rs.
Proof.
  intros HF. revert fuel. induction HF as [|r rs Hr _ IH]; intros fuel Hlen; [destruct fuel; reflexivity|].
  pose proof (of_runes_length_cons r rs). destruct fuel as [|fuel]; [lia|].
  rewrite of_runes_cons, to_runes_f_cons, IH by (assumption || lia). reflexivity.
Qed.

Lemma to_runes_of_runes rs : scalars rs -> to_runes (of_runes rs) = rs.
Proof. intros H. apply to_runes_f_of_runes; [exact H|lia]. Qed.

Lemma of_runes_to_runes rs : scalars rs -> of_runes (to_runes (of_runes rs)) = of_runes rs.
Proof. intros H. rewrite to_runes_of_runes by exact H. reflexivity. Qed.

Lemma utf8_valid_f_of_runes rs fuel :
  scalars rs -> (length (of_runes rs) <= fuel)%nat -> utf8_valid_f fuel (of_runes rs) = true.
Proof.
  intros HF. revert fuel. induction HF as [|r rs Hr _ IH]; intros fuel Hlen; [destruct fuel; reflexivity|].
  pose proof (of_runes_length_cons r rs). destruct fuel as [|fuel]; [lia|].
  rewrite of_runes_cons, utf8_valid_f_cons by exact Hr. apply IH. lia.
Qed.

Lemma utf8_valid_of_runes rs : scalars rs -> utf8_valid (of_runes rs) = true.
Proof. intros H. apply utf8_valid_f_of_runes; [exact H|lia]. Qed.

Lemma encode_head_inj r1 r2 x y :
  is_scalar r1 = true -> is_scalar r2 = true ->
  encode_rune r1 ++ x = encode_rune r2 ++ y -> r1 = r2 /\ x = y.
Proof.
  intros H1 H2 E. assert (D := f_equal decode_rune E).
  rewrite !decode_encode in D by assumption. injection D as -> _.
  split; [reflexivity|]. apply app_inv_head in E. exact E.
Qed.

Lemma of_runes_prefix_rest rm rs b :
  scalars rm -> scalars rs -> of_runes rs = of_runes rm ++ b ->
  exists rb, scalars rb /\ b = of_runes rb /\ rs = rm ++ rb.
Proof.
  intros Hm. revert rs. induction Hm as [|r rm Hr _ IH]; intros rs Hs E; [exists rs; auto|].
  rewrite of_runes_cons, <- app_assoc in E. destruct Hs as [|r' rs Hr' Hs].
  { symmetry in E. apply app_eq_nil in E as [E _]. destruct (encode_rune_nonempty r E). }
  rewrite of_runes_cons in E. apply encode_head_inj in E as [-> E]; [|assumption..].
  destruct (IH rs Hs E) as [rb [H1 [H2 ->]]]. exists rb. auto.
Qed.

Lemma utf8_sync rs rm a b :
  scalars rs -> scalars rm -> rm <> [] -> of_runes rs = a ++ of_runes rm ++ b ->
  exists ra rb, scalars ra /\ scalars rb /\ a = of_runes ra /\ b = of_runes rb /\ rs = ra ++ rm ++ rb.
Proof.
  intros Hs Hm Hne. revert a. induction Hs as [|r rs Hr Hs IH]; intros a E.
  { symmetry in E. apply app_eq_nil in E as [_ E]. apply app_eq_nil in E as [E _].
    apply of_runes_nil_inv in E. contradiction. }
  destruct a as [|c a].
  { destruct (of_runes_prefix_rest rm (r :: rs) b Hm (Forall_cons _ Hr Hs) E) as [rb [H1 [H2 H3]]].
    exists [], rb. repeat split; auto. constructor. }
  rewrite of_runes_cons in E. apply app_eq_app in E as [l [[E1 E2]|[E1 E2]]].
  - (* encode_rune r = (c :: a) ++ l: the occurrence would start inside r's encoding unless l = [] *)
    destruct l as [|c' l].
    + rewrite app_nil_r in E1. symmetry in E2.
      destruct (of_runes_prefix_rest rm rs b Hm Hs E2) as [rb [H1 [H2 ->]]].
      exists [r], rb. repeat split; auto; [repeat constructor; exact Hr|].
      cbn. rewrite app_nil_r. symmetry. exact E1.
    + (* c' would be both a continuation byte of r and the lead byte of rm's first rune *)
      exfalso. destruct rm as [|m rm]; [contradiction|]. rewrite of_runes_cons, <- app_assoc in E2.
      destruct (encode_shape m) as [m0 [mt [Em [_ Hm0]]]]. destruct (encode_shape r) as [r0 [rt [Er [Hrt _]]]].
      rewrite Em in E2. injection E2 as -> _. rewrite Er in E1. injection E1 as _ ->.
      apply Forall_app in Hrt as [_ Hrt]. inversion Hrt. lia.
  - destruct (IH l E2) as [ra [rb [H1 [H2 [H3 [H4 ->]]]]]].
    exists (r :: ra), rb. repeat split; auto; [constructor; assumption|].
    rewrite of_runes_cons, <- H3. exact E1.
Qed.

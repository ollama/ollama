(** Concrete vocabularies: non-vacuity of the hypotheses of the round-trip theorems, and the witnesses that refute
    the unguarded statements (the three known findings). *)
From Coq Require Import List NArith ZArith Bool Arith Lia.
From V Require Import Common.Bytes Tok.Utf8 Tok.ByteMap Tok.ByteMapProofs Tok.Vocab
     Tok.Bpe Tok.Spm Tok.BpeProofs Tok.SpmProofs Tok.LiteralProofs.
Import ListNotations.

Definition wsplit (t : str) : list str := [t].
Lemma wsplit_partition : split_partition wsplit.
Proof. intros t. cbn. apply app_nil_r. Qed.

(** BPE: the 256 single-rune tokens, ordered so that ids 105 and 106 are U+00CD, U+00CE (non-ASCII), as
    they are U+00AC, U+00AE in GPT-2 ordered vocabularies such as llama 3.2.  Token types: 1 = normal,
    3 = TOKEN_TYPE_CONTROL (what [specials_from] looks for). *)
Definition rot_bytes : list N := map N.of_nat (seq 100 156 ++ seq 0 100).
Definition wv_bpe : vocab :=
  vocab_of (map (fun b => encode_rune (bmap b)) rot_bytes ++ [[97; 98]%N]) (repeat 1%N 257) [] [[97; 32; 98]%N] 0 0 false false.

Lemma wv_bpe_consistent : vocab_consistent wv_bpe.
Proof. apply vocab_of_consistent. Qed.
Lemma wv_bpe_range : vocab_range wv_bpe.
Proof. apply vocab_of_range. Qed.
Lemma wv_bpe_specials : specials_in_vocab wv_bpe.
Proof. apply vocab_of_specials. Qed.
Lemma wv_bpe_complete : bpe_complete wv_bpe.
Proof.
  intros b Hb. apply last_index_In, in_or_app. left. apply (in_map (fun b => encode_rune (bmap b))).
  apply in_map_iff. exists (N.to_nat b). split; [lia|]. apply in_app_iff. rewrite !in_seq. lia.
Qed.

Lemma wv_bpe_specials_eq : vspecials wv_bpe = [of_runes [205]; of_runes [206]]%N.
Proof. vm_compute. reflexivity. Qed.

Lemma wv_bpe_specials_valid : specials_valid wv_bpe.
Proof.
  intros sp Hsp. rewrite wv_bpe_specials_eq in Hsp.
  destruct Hsp as [<-|[<-|[]]]; [exists [205%N]|exists [206%N]]; (split; [repeat constructor|split; [discriminate|reflexivity]]).
Qed.

Lemma wv_bpe_counterexample :
  bpe_decode wv_bpe (bpe_encode wv_bpe wsplit [195; 141]%N false) = Some [205%N].
Proof. vm_compute. reflexivity. Qed.

Lemma wv_bpe_example :
  bpe_encode wv_bpe wsplit [97; 98; 126; 32; 127; 97]%N false = [256; 26; 188; 27; 253]%Z /\
  specials_plain_b wv_bpe [97; 98; 126; 32; 127; 97]%N = true.
Proof. vm_compute. split; reflexivity. Qed.

(** SentencePiece: the whitespace marker and the 256 byte tokens (ids 105/106 are "<0x68>", "<0x69>") *)
Definition wv_spm : vocab :=
  vocab_of (sep :: map byte_token all_bytes ++ [[97; 98]%N; [97]%N; [98]%N]) (repeat 1%N 260) (repeat 0%Z 260) [] 0 0 false false.

Lemma wv_spm_consistent : vocab_consistent wv_spm.
Proof. apply vocab_of_consistent. Qed.
Lemma wv_spm_range : vocab_range wv_spm.
Proof. apply vocab_of_range. Qed.
Lemma wv_spm_specials : specials_in_vocab wv_spm.
Proof. apply vocab_of_specials. Qed.
Lemma wv_spm_complete : spm_complete wv_spm.
Proof.
  split; [|apply last_index_In; left; reflexivity].
  intros b Hb. apply last_index_In. right. apply in_or_app. left. apply in_map, in_all_bytes, Hb.
Qed.

Lemma wv_spm_specials_eq : vspecials wv_spm = [byte_token 104; byte_token 105].
Proof. vm_compute. reflexivity. Qed.

Lemma wv_spm_specials_valid : specials_valid wv_spm.
Proof.
  intros sp Hsp. rewrite wv_spm_specials_eq in Hsp.
  assert (Ha : is_ascii sp /\ sp <> []).
  { destruct Hsp as [<-|[<-|[]]]; (split; [repeat constructor|discriminate]). }
  destruct Ha as [Ha Hne]. destruct (ascii_scalars sp Ha) as [H1 H2]. exists sp. auto.
Qed.

Lemma wv_spm_counterexample_u2581 :
  spm_decode wv_spm (spm_encode wv_spm (of_runes [9601%N]) false) = DOk [32%N].
Proof. vm_compute. reflexivity. Qed.

Lemma wv_spm_counterexample_byte_literal :
  spm_decode wv_spm (spm_encode wv_spm (of_runes [60; 48; 120; 52; 49; 62]%N) false) = DOk [65%N].
Proof. vm_compute. reflexivity. Qed.

Lemma wv_spm_example :
  spm_encode wv_spm (of_runes [97; 98; 32; 98; 233]%N) false = [257; 0; 259; 196; 170]%Z /\
  containsb (of_runes [97; 98; 32; 98; 233]%N) sep = false /\ no_shape_b (of_runes [97; 98; 32; 98; 233]%N) = true.
Proof. vm_compute. repeat split; reflexivity. Qed.

(** with a control token whose literal contains a space ("<e t>", id 260) *)
Definition wv_spm2 : vocab :=
  vocab_of (sep :: map byte_token all_bytes ++ [[97; 98]%N; [97]%N; [98]%N; [60; 101; 32; 116; 62]%N])
           (repeat 1%N 260 ++ [3%N]) (repeat 0%Z 261) [] 0 0 false false.
Lemma wv_spm2_spaced_special :
  spm_encode wv_spm2 [97; 32; 60; 101; 32; 116; 62; 32; 98]%N false = [258; 0; 260; 0; 259]%Z /\
  spm_decode wv_spm2 [258; 0; 260; 0; 259]%Z = DOk [97; 32; 60; 101; 32; 116; 62; 32; 98]%N.
Proof. vm_compute. split; reflexivity. Qed.

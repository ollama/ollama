(** The modelled patterns split every valid text into non-empty pieces that concatenate to it, for any class tables:
    a match consumes at least [minlen] runes, and some alternative matches whatever the class of the first rune. *)
From Coq Require Import List NArith ZArith Bool Arith Lia.
From V Require Import Common.Bytes Tok.Utf8 Tok.Utf8Proofs Tok.Vocab Tok.Bpe Tok.BpeProofs Tok.SpmProofs Tok.Pretok.
Import ListNotations.

(** [Suf] is [Suffix] of Common/Bytes.v on rune lists *)
Definition Suf (a s : list N) : Prop := exists pre, s = pre ++ a.

Lemma Suf_length a s : Suf a s -> (length a <= length s)%nat.
Proof. intros [x ->]. rewrite app_length. lia. Qed.

Lemma Suffix_refl s : Suffix s s.
Proof. exists []. reflexivity. Qed.
Lemma Suffix_trans a b c : Suffix a b -> Suffix b c -> Suffix a c.
Proof. intros [x ->] [y ->]. exists (y ++ x). apply app_assoc. Qed.
Lemma Suffix_cons c t : Suffix t (c :: t).
Proof. exists [c]. reflexivity. Qed.
Lemma Suffix_skipn n s : Suffix (skipn n s) s.
Proof. exists (firstn n s). symmetry. apply firstn_skipn. Qed.

Fixpoint minlen (r : re) : nat :=
  match r with
  | Chr _ => 1
  | Seq a b => minlen a + minlen b
  | Alt a b => Nat.min (minlen a) (minlen b)
  | Rep _ mn _ => mn
  | NegLook _ => 0
  end.

Lemma try_down_spec n mn s k x :
  try_down n mn s k = Some x -> exists j, (mn <= j <= n)%nat /\ k (skipn j s) = Some x.
Proof.
  induction n as [|n IH]; cbn [try_down].
  - destruct (k (skipn 0 s)) eqn:E; [|discriminate]. destruct (Nat.leb mn 0) eqn:L; [|discriminate].
    intros [= <-]. apply Nat.leb_le in L. exists 0%nat. split; [lia|exact E].
  - destruct (k (skipn (S n) s)) eqn:E.
    + destruct (Nat.leb mn (S n)) eqn:L; [|discriminate]. intros [= <-]. apply Nat.leb_le in L.
      exists (S n). split; [lia|exact E].
    + destruct (Nat.leb mn n) eqn:L; [|discriminate]. intros H. destruct (IH H) as [j [Hj Hk]].
      exists j. split; [lia|exact Hk].
Qed.

Lemma count_lead_le p cap s : (count_lead p cap s <= length s)%nat.
Proof.
  revert cap. induction s as [|c t IH]; intros cap; cbn [count_lead length]; [lia|].
  destruct cap as [[|m]|]; [lia| |]; (destruct (p c); [|lia]).
  - specialize (IH (Some m)). lia.
  - specialize (IH None). lia.
Qed.

Lemma mt_spec r : forall s k x,
  mt r s k = Some x -> exists s', Suffix s' s /\ (length s' + minlen r <= length s)%nat /\ k s' = Some x.
Proof.
  induction r as [p|a IHa b IHb|a IHa b IHb|p mn mx|p]; intros s k x H; cbn [mt minlen] in *.
  - destruct s as [|c t]; [discriminate|]. destruct (p c); [|discriminate].
    exists t. split; [apply Suffix_cons|]. split; [cbn; lia|exact H].
  - apply IHa in H as [s1 [S1 [L1 H]]]. apply IHb in H as [s2 [S2 [L2 H]]].
    exists s2. split; [eapply Suffix_trans; eassumption|]. split; [lia|exact H].
  - destruct (mt a s k) eqn:E.
    + injection H as <-. apply IHa in E as [s1 [S1 [L1 E]]]. exists s1. split; [exact S1|]. split; [lia|exact E].
    + apply IHb in H as [s1 [S1 [L1 H]]]. exists s1. split; [exact S1|]. split; [lia|exact H].
  - destruct (Nat.leb mn (count_lead p mx s)) eqn:L; [|discriminate].
    apply try_down_spec in H as [j [Hj Hk]]. exists (skipn j s). split; [apply Suffix_skipn|]. split; [|exact Hk].
    pose proof (count_lead_le p mx s). rewrite skipn_length. lia.
  - exists s. split; [apply Suffix_refl|]. split; [lia|].
    destruct s as [|c t]; [exact H|]. destruct (p c); [discriminate|exact H].
Qed.

Lemma match_at_spec r s rest :
  match_at r s = Some rest -> Suffix rest s /\ (length rest + minlen r <= length s)%nat.
Proof.
  unfold match_at. intros H. apply mt_spec in H as [s' [S1 [L1 H]]]. injection H as <-. auto.
Qed.

Definition total (k : list N -> option (list N)) : Prop := forall s, k s <> None.

Lemma try_down_some n mn s k j :
  (mn <= j <= n)%nat -> k (skipn j s) <> None -> try_down n mn s k <> None.
Proof.
  induction n as [|n IH]; intros Hj Hk; cbn [try_down].
  - assert (j = 0)%nat by lia. subst j. destruct (k (skipn 0 s)); [|congruence].
    replace (Nat.leb mn 0) with true by (symmetry; apply Nat.leb_le; lia). discriminate.
  - destruct (k (skipn (S n) s)) eqn:E.
    + replace (Nat.leb mn (S n)) with true by (symmetry; apply Nat.leb_le; lia). discriminate.
    + assert (j <> S n) by (intros ->; congruence).
      replace (Nat.leb mn n) with true by (symmetry; apply Nat.leb_le; lia). apply IH; [lia|exact Hk].
Qed.

Lemma rep_some p mn mx s k j :
  (mn <= j <= count_lead p mx s)%nat -> k (skipn j s) <> None -> mt (Rep p mn mx) s k <> None.
Proof.
  intros Hj Hk. cbn [mt]. replace (Nat.leb mn (count_lead p mx s)) with true by (symmetry; apply Nat.leb_le; lia).
  eapply try_down_some; eassumption.
Qed.

Lemma rep0_total p mx k : total k -> total (fun s => mt (Rep p 0 mx) s k).
Proof. intros Hk s. apply (rep_some p 0 mx s k 0); [lia|apply Hk]. Qed.

Lemma count_lead_pos p mx c t : p c = true -> mx <> Some 0%nat -> (1 <= count_lead p mx (c :: t))%nat.
Proof. intros Hp Hm. cbn [count_lead]. destruct mx as [[|m]|]; [congruence| |]; rewrite Hp; lia. Qed.

Lemma rep1_some p mx c t k : p c = true -> mx <> Some 0%nat -> total k -> mt (Rep p 1 mx) (c :: t) k <> None.
Proof.
  intros Hp Hm Hk. pose proof (count_lead_pos p mx c t Hp Hm).
  apply (rep_some p 1 mx (c :: t) k (count_lead p mx (c :: t))); [lia|apply Hk].
Qed.

Lemma alt_l a b s k : mt a s k <> None -> mt (Alt a b) s k <> None.
Proof. cbn [mt]. destruct (mt a s k); congruence. Qed.
Lemma alt_r a b s k : mt b s k <> None -> mt (Alt a b) s k <> None.
Proof. cbn [mt]. destruct (mt a s k); congruence. Qed.

Lemma alts_in l last x s k : In x (l ++ [last]) -> mt x s k <> None -> mt (alts l last) s k <> None.
Proof.
  induction l as [|a l IH]; cbn [alts app]; intros Hin Hx.
  - destruct Hin as [<-|[]]. exact Hx.
  - destruct Hin as [<-|Hin]; [apply alt_l, Hx|apply alt_r, IH; assumption].
Qed.

Lemma total_some : total (fun x => Some x).
Proof. intros s. discriminate. Qed.

Lemma mt_seq a b s k : mt (Seq a b) s k = mt a s (fun s' => mt b s' k).
Proof. reflexivity. Qed.

Lemma opt_skip p r s k : mt r s k <> None -> mt (Seq (ropt p) r) s k <> None.
Proof. intros H. cbn [mt ropt]. apply (try_down_some _ 0 s _ 0); [lia|exact H]. Qed.

Section Gapless.
  Variable cls : ucls -> pred.

  (** the fourth alternative of both patterns: [ ?[^\s\p{L}\p{N}]+tail*] *)
  Lemma other_alt c t q k :
    not_S_L_N cls c = true -> total k ->
    mt (Seq (ropt (eqc 32)) (Seq (rplus (not_S_L_N cls)) (rstar q))) (c :: t) k <> None.
  Proof.
    intros Hc Hk. apply opt_skip. rewrite mt_seq.
    apply rep1_some; [exact Hc|discriminate|]. apply rep0_total, Hk.
  Qed.

  Lemma space_alt c t k : cls US c = true -> total k -> mt (rplus (cls US)) (c :: t) k <> None.
  Proof. intros Hc Hk. apply rep1_some; [exact Hc|discriminate|exact Hk]. Qed.

  Lemma llama3_matches c t : match_at (llama3 cls) (c :: t) <> None.
  Proof.
    unfold match_at, llama3.
    destruct (cls US c) eqn:ES.
    { eapply alts_in; [apply in_or_app; right; left; reflexivity|]. apply space_alt; [exact ES|apply total_some]. }
    destruct (cls UL c) eqn:EL.
    { eapply alts_in; [right; left; reflexivity|]. apply opt_skip. apply rep1_some; [exact EL|discriminate|apply total_some]. }
    destruct (cls UN c) eqn:EN.
    { eapply alts_in; [right; right; left; reflexivity|]. apply rep1_some; [exact EN|discriminate|apply total_some]. }
    eapply alts_in; [right; right; right; left; reflexivity|].
    apply other_alt; [|apply total_some]. unfold not_S_L_N, pnot, por. rewrite ES, EL, EN. reflexivity.
  Qed.

  Lemma llama3_minlen : minlen (llama3 cls) = 1%nat.
  Proof. reflexivity. Qed.

  (** tekken needs: a \p{L} rune is in one of the letter subclasses *)
  Hypothesis HL : forall c, cls UL c = true -> upperish cls c || lowerish cls c = true.

  Lemma tekken_matches c t : match_at (tekken cls) (c :: t) <> None.
  Proof.
    unfold match_at, tekken.
    destruct (cls US c) eqn:ES.
    { eapply alts_in; [apply in_or_app; right; left; reflexivity|]. apply space_alt; [exact ES|apply total_some]. }
    destruct (cls UL c) eqn:EL.
    { specialize (HL c EL). destruct (lowerish cls c) eqn:Elo.
      - (* take no rune of upperish* (c may be in both classes: Lm, Lo, M), then c opens lowerish+ *)
        eapply alts_in; [left; reflexivity|]. apply opt_skip. rewrite mt_seq.
        apply (rep_some _ 0 None (c :: t) _ 0); [lia|]. cbn [skipn].
        apply rep1_some; [exact Elo|discriminate|apply total_some].
      - rewrite orb_false_r in HL.
        eapply alts_in; [right; left; reflexivity|]. apply opt_skip. rewrite mt_seq.
        apply rep1_some; [exact HL|discriminate|]. apply rep0_total, total_some. }
    destruct (cls UN c) eqn:EN.
    { eapply alts_in; [right; right; left; reflexivity|]. cbn [mt]. rewrite EN. discriminate. }
    eapply alts_in; [right; right; right; left; reflexivity|].
    apply other_alt; [|apply total_some]. unfold not_S_L_N, pnot, por. rewrite ES, EL, EN. reflexivity.
  Qed.

  Lemma tekken_minlen : minlen (tekken cls) = 1%nat.
  Proof. reflexivity. Qed.
End Gapless.

Section Split.
  Variable r : re.
  Hypothesis Hmin : (1 <= minlen r)%nat.
  Hypothesis Hgap : forall c t, match_at r (c :: t) <> None.

  Lemma split_runes_partition fuel s :
    (length s < fuel)%nat ->
    concat (split_runes fuel r s) = s /\ Forall (fun p => p <> []) (split_runes fuel r s).
  Proof.
    revert s. induction fuel as [|f IH]; intros s Hf; [lia|]. cbn [split_runes].
    destruct s as [|c t].
    - destruct (match_at r []) eqn:E.
      + apply match_at_spec in E as [_ E]. cbn in E. lia.
      + split; [reflexivity|constructor].
    - destruct (match_at r (c :: t)) as [rest|] eqn:E; [|exfalso; exact (Hgap c t E)].
      apply match_at_spec in E as [[pre Hpre] Hl].
      assert (Hp : firstn (length (c :: t) - length rest) (c :: t) = pre).
      { rewrite Hpre. rewrite app_length, Nat.add_sub. rewrite firstn_app, firstn_all, Nat.sub_diag. cbn. apply app_nil_r. }
      rewrite Hp. destruct pre as [|p0 pre'].
      + exfalso. cbn in Hpre. rewrite <- Hpre in Hl. lia.
      + destruct (IH rest) as [IH1 IH2].
        { apply (f_equal (@length N)) in Hpre. rewrite app_length in Hpre. cbn [length] in *. lia. }
        split; [cbn [concat]; rewrite IH1; symmetry; exact Hpre|constructor; [discriminate|exact IH2]].
  Qed.

  Theorem pretok_partition rt :
    scalars rt ->
    concat (pretok r (of_runes rt)) = of_runes rt /\ Forall (fun p => p <> []) (pretok r (of_runes rt)).
  Proof.
    intros Hs. unfold pretok. rewrite to_runes_of_runes by exact Hs.
    destruct (split_runes_partition (S (length rt)) rt ltac:(lia)) as [H1 H2]. split.
    - rewrite <- of_runes_concat, H1. reflexivity.
    - apply Forall_forall. intros p Hp. apply in_map_iff in Hp as [q [<- Hq]].
      rewrite Forall_forall in H2. specialize (H2 q Hq). intros E. apply of_runes_nil_inv in E. contradiction.
  Qed.
End Split.

Section BpeWithPattern.
  Variable v : vocab.
  Variable r : re.
  Hypothesis Hmin : (1 <= minlen r)%nat.
  Hypothesis Hgap : forall c t, match_at r (c :: t) <> None.
  Hypothesis Hcons : vocab_consistent v.
  Hypothesis Hcomplete : bpe_complete v.
  Hypothesis Hspec : specials_in_vocab v.
  Hypothesis Hsv : specials_valid v.

  Theorem bpe_roundtrip_pattern rs :
    scalars rs -> no_nul (of_runes rs) = true -> specials_plain v (of_runes rs) ->
    bpe_decode v (bpe_encode v (pretok r) (of_runes rs) false) = Some (of_runes rs).
  Proof.
    intros Hs Hn Hg. apply bpe_roundtrip_on; try assumption.
    - apply of_runes_bytes.
    - intros t Hin. destruct (fragments_valid v Hsv (of_runes rs) t (ex_intro _ rs (conj Hs eq_refl)) Hin) as [rt [Hrt ->]].
      apply pretok_partition; assumption.
  Qed.
End BpeWithPattern.

(** BPE: the merge loop, Decode (Encode s) = s, ids in the vocabulary; [vocab_of] meets the hypotheses it can. *)
From Coq Require Import List NArith ZArith Bool Arith Lia.
From V Require Import Common.Bytes Tok.Utf8 Tok.Utf8Proofs Tok.ByteMap Tok.ByteMapProofs Tok.Heap Tok.Vocab
     Tok.Special Tok.SpecialProofs Tok.Bpe Tok.MergeProofs.
Import ListNotations.
Open Scope Z_scope.

(** [Values[Encode(s)] = s] *)
Definition vocab_consistent (v : vocab) : Prop := forall s, 0 <= venc v s -> vdec v (venc v s) = Some s.
(** Encode answers an index of Values or -1 *)
Definition vocab_range (v : vocab) : Prop := forall s, venc v s < vsize v.
(** every special token is in the vocabulary (it is an element of Values) *)
Definition specials_in_vocab (v : vocab) : Prop := forall sp, In sp (vspecials v) -> 0 <= venc v sp.
(** "covers every byte": the image of every byte under the byte map is a token *)
Definition bpe_complete (v : vocab) : Prop := forall b, (b < 256)%N -> 0 <= venc v (encode_rune (bmap b)).
(** the hypothesis on the pre-tokeniser (regexp2): it returns a partition of its input *)
Definition split_partition (split : str -> list str) : Prop := forall t, concat (split t) = t.

Definition is_bytes (s : str) : Prop := Forall (fun b => (b < 256)%N) s.
Definition is_ascii (s : str) : Prop := Forall (fun b => (b < 128)%N) s.

Lemma unmap_runes_app a b : unmap_runes (a ++ b) = unmap_runes a ++ unmap_runes b.
Proof. unfold unmap_runes. apply flat_map_app. Qed.

Section BpeLoop.
  Variable v : vocab.

  Definition in_vocab (x : list N) : Prop := x = [] \/ 0 <= venc v (of_runes x).
  Definition pieces_in_vocab (cells : list cell) : Prop := Forall (fun c => in_vocab (cr c)) cells.

  Definition bpe_acc (cells : list cell) (p : bpair) : Prop :=
    of_runes (cr (getc cells (pa p))) ++ of_runes (cr (getc cells (pb p))) = pval p /\ 0 <= venc v (pval p).

  Lemma bpe_step_cases len cells p h :
    bpe_step v len cells p h = (cells, h) \/
    ~ emp cells (pa p) /\ ~ emp cells (pb p) /\ bpe_acc cells p /\
    bpe_step v len cells p h =
      let c4 := merge_cells cells (pa p) (pb p) in
      (c4, qpush bless dpair (qpush bless dpair h (bpairwise v len c4 (cp (getc c4 (pa p))) (pa p)))
                 (bpairwise v len c4 (pa p) (cn (getc c4 (pa p))))).
  Proof.
    unfold bpe_step, bpe_acc, emp.
    destruct (isnil (cr (getc cells (pa p)))) eqn:E1; [left; reflexivity|].
    destruct (isnil (cr (getc cells (pb p)))) eqn:E2; [left; reflexivity|].
    destruct (eqb_str _ (pval p)) eqn:E3; [|left; reflexivity].
    destruct (venc v (pval p) <? 0) eqn:E4; [left; reflexivity|].
    right. apply isnil_false in E1, E2. apply eqb_str_spec in E3. repeat split; try assumption. lia.
  Qed.

  Lemma bpairwise_some len cells x y q :
    bpairwise v len cells x y = Some q -> pa q = x /\ pb q = y /\ 0 <= x /\ y < len.
  Proof.
    unfold bpairwise. destruct ((x <? 0) || (len <=? y)) eqn:E; [discriminate|]. cbv zeta.
    destruct (vmerge v _ _ <? 0); [discriminate|]. intros [= <-]. cbn. lia.
  Qed.

  Lemma bpe_loop_mloop fuel len cells h :
    bpe_loop v fuel len cells h = mloop bless dpair (bpe_step v len) fuel cells h.
  Proof.
    revert cells h. induction fuel as [|f IH]; intros cells h; cbn [bpe_loop mloop]; [reflexivity|].
    destruct (hpop bless dpair h) as [[p h']|]; [|reflexivity]. destruct (bpe_step v len cells p h'). apply IH.
  Qed.

  Lemma init_heap_minit n len cells i h :
    init_heap v n len cells i h = minit bless dpair (bpairwise v len) n cells i h.
  Proof. revert i h. induction n as [|n IH]; intros i h; cbn [init_heap minit]; [reflexivity|apply IH]. Qed.

  Theorem bpe_cells_spec rs :
    text (fst (bpe_cells v rs)) = rs /\
    (Forall (fun r => 0 <= venc v (encode_rune r)) rs -> pieces_in_vocab (fst (bpe_cells v rs))) /\
    snd (bpe_cells v rs) = [].
  Proof.
    unfold bpe_cells. rewrite bpe_loop_mloop, init_heap_minit.
    set (len := Z.of_nat (length rs)). set (Pre := Forall (fun r => 0 <= venc v (encode_rune r)) rs).
    destruct (@mrun_spec bpair) with (less := bless) (d := dpair) (ea := pa) (eb := pb) (rs := rs)
      (pw := bpairwise v len) (step := bpe_step v len)
      (acc := bpe_acc) (ok := fun (_ : list cell) (_ : bpair) => True) (P := fun x => Pre -> in_vocab x)
      as [[_ _ Ht HV _] Hh].
    - apply bpe_step_cases.
    - intros cells x y q Hq. apply bpairwise_some in Hq. tauto.
    - trivial.
    - left. reflexivity.
    - intros cells p _ _ _ [E H] _. right. rewrite of_runes_app, E. exact H.
    - apply Forall_forall. intros r Hr HPre. right. cbn. rewrite app_nil_r.
      unfold Pre in HPre. rewrite Forall_forall in HPre. exact (HPre r Hr).
    - split; [exact Ht|]. split; [|exact Hh]. intros HPre. eapply Forall_impl; [|exact HV]. auto.
  Qed.
End BpeLoop.

Section BpeDecode.
  Variable v : vocab.
  Hypothesis Hcons : vocab_consistent v.

  Lemma bpe_decode_app a b x y :
    bpe_decode v a = Some x -> bpe_decode v b = Some y -> bpe_decode v (a ++ b) = Some (x ++ y).
  Proof.
    revert x. induction a as [|id a IH]; intros x Ha Hb; cbn [app bpe_decode] in *.
    - injection Ha as <-. exact Hb.
    - destruct (vdec v id) as [tok|]; [|discriminate]. destruct (bpe_decode v a) as [r|]; [|discriminate].
      injection Ha as <-. rewrite (IH r eq_refl Hb). rewrite app_assoc. reflexivity.
  Qed.

  Lemma cell_ids_decode cells :
    pieces_in_vocab v cells -> scalars (text cells) ->
    bpe_decode v (cell_ids v cells) = Some (unmap_runes (text cells)).
  Proof.
    intros HV. induction HV as [|c cells Hc HV IH]; intros Hs; [reflexivity|].
    unfold text, texts in Hs |- *. cbn [map concat] in Hs |- *. apply Forall_app in Hs as [Hs1 Hs2].
    unfold cell_ids. cbn [flat_map]. fold (cell_ids v cells).
    rewrite unmap_runes_app.
    destruct (isnil (cr c)) eqn:En.
    - apply isnil_true in En. rewrite En. cbn [app unmap_runes flat_map]. apply IH. exact Hs2.
    - apply isnil_false in En. destruct Hc as [Hc|Hc]; [contradiction|].
      replace (venc v (of_runes (cr c)) <? 0) with false by lia.
      apply bpe_decode_app; [|apply IH; exact Hs2].
      cbn [bpe_decode]. rewrite Hcons by exact Hc. unfold unmap_string. rewrite to_runes_of_runes by exact Hs1.
      rewrite app_nil_r. reflexivity.
  Qed.
End BpeDecode.

Lemma ascii_scalars s : is_ascii s -> scalars s /\ of_runes s = s.
Proof.
  induction 1 as [|b s Hb Hs [IH1 IH2]]; [split; [constructor|reflexivity]|]. split.
  - constructor; [|exact IH1]. unfold is_scalar. lia.
  - rewrite of_runes_cons, IH2, encode_low by exact Hb. reflexivity.
Qed.

Lemma unmap_runes_ascii s : is_ascii s -> unmap_runes s = s.
Proof.
  induction 1 as [|b s Hb _ IH]; [reflexivity|]. cbn [unmap_runes flat_map]. rewrite bunmap_byte by lia.
  cbn [app]. f_equal. exact IH.
Qed.

Lemma unmap_string_ascii s : is_ascii s -> unmap_string s = s.
Proof.
  intros Ha. destruct (ascii_scalars s Ha) as [Hs E]. unfold unmap_string. rewrite <- E at 1.
  rewrite to_runes_of_runes by exact Hs. apply unmap_runes_ascii, Ha.
Qed.

Lemma Infix_is_bytes t s : Infix t s -> is_bytes s -> is_bytes t.
Proof. intros [a [b ->]] H. apply Forall_app in H as [_ H]. apply Forall_app in H as [H _]. exact H. Qed.

Lemma Infix_no_nul t s : Infix t s -> no_nul s = true -> no_nul t = true.
Proof.
  intros [a [b ->]] H. unfold no_nul in *. rewrite !forallb_app in H. apply andb_true_iff in H as [_ H].
  apply andb_true_iff in H as [H _]. exact H.
Qed.

Section BpeRoundtrip.
  Variable v : vocab.
  Variable split : str -> list str.
  Hypothesis Hcons : vocab_consistent v.
  Hypothesis Hcomplete : bpe_complete v.
  Hypothesis Hspec : specials_in_vocab v.

  Lemma bpe_piece_roundtrip piece :
    is_bytes piece -> no_nul piece = true -> bpe_decode v (bpe_piece v piece) = Some piece.
  Proof.
    intros Hb Hn. unfold bpe_piece.
    destruct (0 <=? venc v (map_bytes piece)) eqn:E.
    - cbn [bpe_decode]. rewrite Hcons by lia. rewrite unmap_map_bytes by assumption. rewrite app_nil_r. reflexivity.
    - rewrite to_runes_map_bytes by exact Hb.
      destruct (bpe_cells_spec v (map bmap piece)) as [Ht [HV _]].
      set (cells := fst (bpe_cells v (map bmap piece))) in *.
      assert (HV' : pieces_in_vocab v cells).
      { apply HV. apply Forall_forall. intros r Hr. apply in_map_iff in Hr as [b [<- Hin]].
        unfold is_bytes in Hb. rewrite Forall_forall in Hb. apply Hcomplete, Hb, Hin. }
      rewrite cell_ids_decode; [|exact Hcons|exact HV'|rewrite Ht; apply scalars_map_bmap, Hb].
      rewrite Ht. rewrite unmap_runes_bmap by assumption. reflexivity.
  Qed.

  Lemma bpe_pieces_roundtrip ps :
    is_bytes (concat ps) -> no_nul (concat ps) = true ->
    bpe_decode v (flat_map (bpe_piece v) ps) = Some (concat ps).
  Proof.
    induction ps as [|p ps IH]; intros Hb Hn; [reflexivity|].
    cbn [concat flat_map] in *. apply Forall_app in Hb as [Hb1 Hb2].
    unfold no_nul in Hn. rewrite forallb_app in Hn. apply andb_true_iff in Hn as [Hn1 Hn2].
    apply bpe_decode_app; [apply bpe_piece_roundtrip; assumption|apply IH; assumption].
  Qed.

  (** the guard that excludes the known finding C20-special-105-106-nonascii: every special token whose
      literal occurs in the text is plain ASCII *)
  Definition specials_plain (s : str) : Prop :=
    forall sp, In sp (vspecials v) -> Infix sp s -> is_ascii sp.

  Definition split_ok_on (s : str) : Prop := forall t, In (FText t) (fragments v s) -> concat (split t) = t.

  (** what Decode (Encode s) is made of: the PIECES the pre-tokeniser returned, and the special literals *)
  Definition frag_out (f : frag) : str := match f with FText t => concat (split t) | FSpec sp _ => sp end.
  Definition pieces_ok (s : str) : Prop :=
    forall t, In (FText t) (fragments v s) -> is_bytes (concat (split t)) /\ no_nul (concat (split t)) = true.

  Lemma bpe_frags_decode_pieces s fs :
    specials_plain s -> pieces_ok s -> incl fs (fragments v s) ->
    bpe_decode v (flat_map (bpe_frag v split) fs) = Some (concat (map frag_out fs)).
  Proof.
    intros Hg Hp. induction fs as [|f fs IH]; intros Hi; [reflexivity|].
    cbn [flat_map map concat]. apply bpe_decode_app; [|apply IH; intros x Hx; apply Hi; right; exact Hx].
    assert (Hin : In f (fragments v s)) by (apply Hi; left; reflexivity).
    destruct f as [t|sp id]; cbn [bpe_frag frag_out].
    - destruct (Hp t Hin) as [H1 H2]. apply bpe_pieces_roundtrip; assumption.
    - destruct (fragments_ok v s sp id Hin) as [Hsp ->]. cbn [bpe_decode]. rewrite Hcons by (apply Hspec, Hsp).
      rewrite unmap_string_ascii by (apply Hg; [exact Hsp|exact (fragments_infix v s _ Hin)]).
      rewrite app_nil_r. reflexivity.
  Qed.

  Theorem bpe_decode_is_pieces s :
    specials_plain s -> pieces_ok s ->
    bpe_decode v (bpe_encode v split s false) = Some (concat (map frag_out (fragments v s))).
  Proof.
    intros Hg Hp. unfold bpe_encode, add_special. cbn [andb]. unfold bpe_encode_ids.
    apply (bpe_frags_decode_pieces s); [exact Hg|exact Hp|apply incl_refl].
  Qed.

  Theorem bpe_roundtrip_on s :
    is_bytes s -> no_nul s = true -> specials_plain s -> split_ok_on s ->
    bpe_decode v (bpe_encode v split s false) = Some s.
  Proof.
    intros Hb Hn Hg Hso. rewrite bpe_decode_is_pieces; [|exact Hg|].
    - rewrite <- (fragments_text v s) at 2. unfold frags_text. do 2 f_equal. apply map_ext_in.
      intros [t|sp id] Hin; [apply Hso, Hin|reflexivity].
    - intros t Hin. rewrite (Hso t Hin). pose proof (fragments_infix v s _ Hin) as Hinf.
      split; [eapply Infix_is_bytes|eapply Infix_no_nul]; eassumption.
  Qed.

  Theorem bpe_roundtrip s :
    split_partition split -> is_bytes s -> no_nul s = true -> specials_plain s ->
    bpe_decode v (bpe_encode v split s false) = Some s.
  Proof. intros Hsplit Hb Hn Hg. apply bpe_roundtrip_on; try assumption. intros t _. apply Hsplit. Qed.
End BpeRoundtrip.

Section BpeIds.
  Variable v : vocab.
  Variable split : str -> list str.
  Hypothesis Hrange : vocab_range v.
  Hypothesis Hspec : specials_in_vocab v.

  Definition id_ok (id : Z) : Prop := 0 <= id < vsize v.

  Lemma cell_ids_ok cells : Forall id_ok (cell_ids v cells).
  Proof.
    unfold cell_ids. induction cells as [|c cells IH]; [constructor|]. cbn [flat_map].
    apply Forall_app. split; [|exact IH].
    destruct (isnil (cr c)); [constructor|]. destruct (venc v (of_runes (cr c)) <? 0) eqn:E; [constructor|].
    constructor; [|constructor]. split; [lia|apply Hrange].
  Qed.

  Lemma bpe_piece_ok p : Forall id_ok (bpe_piece v p).
  Proof.
    unfold bpe_piece. destruct (0 <=? venc v (map_bytes p)) eqn:E; [|apply cell_ids_ok].
    constructor; [|constructor]. split; [lia|apply Hrange].
  Qed.

  Lemma bpe_encode_ids_ok s : Forall id_ok (bpe_encode_ids v split s).
  Proof.
    unfold bpe_encode_ids. apply Forall_flat_map, Forall_forall. intros [t|sp id] Hf; cbn [bpe_frag].
    - apply Forall_flat_map, Forall_forall. intros p _. apply bpe_piece_ok.
    - destruct (fragments_ok v s sp id Hf) as [Hsp ->]. constructor; [|constructor]. split; [apply Hspec, Hsp|apply Hrange].
  Qed.

  Lemma add_special_ok addsp ids :
    (vaddbos v = true -> id_ok (vbos v)) -> (vaddeos v = true -> id_ok (veos v)) ->
    Forall id_ok ids -> Forall id_ok (add_special v addsp ids).
  Proof.
    intros Hb He Hi. unfold add_special. destruct (addsp && negb (isnil ids)); [|exact Hi].
    apply Forall_app. split; [destruct (vaddbos v); [constructor; auto|constructor]|].
    apply Forall_app. split; [exact Hi|]. destruct (vaddeos v); [constructor; auto|constructor].
  Qed.

  Theorem bpe_ids_in_vocab s addsp :
    (vaddbos v = true -> id_ok (vbos v)) -> (vaddeos v = true -> id_ok (veos v)) ->
    Forall id_ok (bpe_encode v split s addsp).
  Proof. intros Hb He. apply add_special_ok; [exact Hb|exact He|apply bpe_encode_ids_ok]. Qed.
End BpeIds.

Lemma last_index_from_spec i l s acc :
  0 <= i ->
  let r := last_index_from i l s acc in
  r = acc \/ (i <= r < i + Z.of_nat (length l) /\ nth_error l (Z.to_nat (r - i)) = Some s).
Proof.
  revert i acc. induction l as [|x l IH]; intros i acc Hi; cbn [last_index_from]; [left; reflexivity|].
  destruct (IH (i + 1) (if eqb_str x s then i else acc)) as [H|[H1 H2]]; [lia| |].
  - rewrite H. destruct (eqb_str x s) eqn:E; [|left; reflexivity].
    right. apply eqb_str_spec in E. subst x. split; [cbn [length]; lia|].
    rewrite Z.sub_diag. reflexivity.
  - right. split; [cbn [length]; lia|].
    replace (Z.to_nat (last_index_from (i + 1) l s (if eqb_str x s then i else acc) - i))
      with (S (Z.to_nat (last_index_from (i + 1) l s (if eqb_str x s then i else acc) - (i + 1)))) by lia.
    exact H2.
Qed.

Lemma last_index_range l s : -1 <= last_index l s < Z.of_nat (length l).
Proof. unfold last_index. destruct (last_index_from_spec 0 l s (-1)) as [H|[H _]]; lia. Qed.

Lemma last_index_nth l s : 0 <= last_index l s -> nth_error l (Z.to_nat (last_index l s)) = Some s.
Proof.
  unfold last_index. intros H. destruct (last_index_from_spec 0 l s (-1)) as [E|[_ E]]; [lia|lia|].
  rewrite Z.sub_0_r in E. exact E.
Qed.

Lemma last_index_from_nonneg i l s acc : 0 <= acc -> 0 <= i -> 0 <= last_index_from i l s acc.
Proof.
  revert i acc. induction l as [|x l IH]; intros i acc Ha Hi; cbn [last_index_from]; [exact Ha|].
  apply IH; [destruct (eqb_str x s); lia|lia].
Qed.

Lemma last_index_from_In i l s acc : 0 <= i -> In s l -> 0 <= last_index_from i l s acc.
Proof.
  revert i acc. induction l as [|x l IH]; intros i acc Hi Hin; [destruct Hin|].
  cbn [last_index_from]. destruct Hin as [->|Hin].
  - replace (eqb_str s s) with true by (symmetry; apply eqb_str_spec; reflexivity).
    apply last_index_from_nonneg; lia.
  - apply IH; [lia|exact Hin].
Qed.

Lemma last_index_In l s : In s l -> 0 <= last_index l s.
Proof. apply last_index_from_In. lia. Qed.

Lemma specials_from_incl i values types : incl (specials_from i values types) values.
Proof.
  revert i types. induction values as [|x values IH]; intros i types y Hy; [destruct Hy|].
  cbn [specials_from] in Hy. destruct (_ || _) in Hy.
  - destruct Hy as [->|Hy]; [left; reflexivity|right; eapply IH; exact Hy].
  - right. eapply IH; exact Hy.
Qed.

Section VocabOf.
  Variables (values : list str) (types : list N) (scores : list Z) (merges : list str) (bos eos : Z) (ab ae : bool).
  Let v := vocab_of values types scores merges bos eos ab ae.

  Lemma vocab_of_consistent : vocab_consistent v.
  Proof.
    intros s H. cbn in *. unfold nth_str. replace (last_index values s <? 0) with false by lia.
    apply last_index_nth, H.
  Qed.

  Lemma vocab_of_range : vocab_range v.
  Proof. intros s. cbn. apply last_index_range. Qed.

  Lemma vocab_of_specials : specials_in_vocab v.
  Proof. intros sp H. cbn in *. apply last_index_In. eapply specials_from_incl. exact H. Qed.
End VocabOf.

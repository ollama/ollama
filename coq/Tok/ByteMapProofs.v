(** Decode's rune map inverts Encode's byte map off NUL: one evaluation over all 256 bytes (the whole domain). *)
From Coq Require Import List NArith ZArith Bool Arith Lia ZifyBool ZifyNat ZifyN.
From V Require Import Tok.Utf8 Tok.Utf8Proofs Tok.ByteMap.
Import ListNotations.
Open Scope N_scope.

Lemma in_all_bytes b : b < 256 -> In b all_bytes.
Proof.
  intros H. unfold all_bytes. apply in_map_iff. exists (N.to_nat b). split; [lia|].
  apply in_seq. lia.
Qed.

Lemma all_bytes_lt b : In b all_bytes -> b < 256.
Proof.
  unfold all_bytes. intros H. apply in_map_iff in H as [n [<- Hn]]. apply in_seq in Hn. lia.
Qed.

Lemma forall_bytes (P : N -> bool) : forallb P all_bytes = true -> forall b, b < 256 -> P b = true.
Proof. intros H b Hb. rewrite forallb_forall in H. apply H, in_all_bytes, Hb. Qed.

Definition inv_ok (b : N) : bool :=
  (b =? 0) || match bunmap (bmap b) with Some b' => b' =? b | None => false end.

Lemma inv_ok_all : forallb inv_ok all_bytes = true.
Proof. vm_compute. reflexivity. Qed.

Lemma bytemap_inverse b : b < 256 -> b <> 0 -> bunmap (bmap b) = Some b.
Proof.
  intros Hb Hz. assert (H := forall_bytes inv_ok inv_ok_all b Hb). unfold inv_ok in H.
  destruct (bunmap (bmap b)) as [b'|]; [|lia]. f_equal. lia.
Qed.

Lemma bytemap_nul : bunmap (bmap 0) = None.
Proof. reflexivity. Qed.

(** a map with a left inverse off NUL, and NUL the only byte whose image is skipped, is injective *)
Lemma bytemap_injective b c : b < 256 -> c < 256 -> bmap b = bmap c -> b = c.
Proof.
  intros Hb Hc E. apply (f_equal bunmap) in E.
  destruct (N.eq_dec b 0) as [->|Hb0], (N.eq_dec c 0) as [->|Hc0]; [reflexivity|..];
    rewrite ?bytemap_nul, ?(bytemap_inverse b), ?(bytemap_inverse c) in E by assumption; congruence.
Qed.

Lemma bunmap_byte b : b < 256 -> bunmap b = Some b.
Proof.
  intros H. unfold bunmap. destruct (b =? 256) eqn:E1; [lia|]. destruct (b =? 323) eqn:E2; [lia|].
  destruct ((256 <? b) && _) eqn:E3; [lia|]. destruct ((288 <? b) && _) eqn:E4; [lia|].
  f_equal. apply N.mod_small, H.
Qed.

Lemma bytemap_unrepaired_collision : bmap_unrepaired 126 = bmap_unrepaired 32 /\ bunmap (bmap_unrepaired 126) = Some 32.
Proof. split; reflexivity. Qed.

Lemma bmap_range b : b < 256 -> 32 < bmap b < 2048.
Proof.
  intros Hb. unfold bmap. destruct (b =? 173); [lia|]. destruct (b <=? 32) eqn:E; [lia|].
  destruct (_ && _); lia.
Qed.

Lemma scalars_map_bmap s : Forall (fun b => b < 256) s -> scalars (map bmap s).
Proof.
  intros HF. apply Forall_map. eapply Forall_impl; [|exact HF]. intros b Hb.
  pose proof (bmap_range b Hb). unfold is_scalar. lia.
Qed.

Lemma to_runes_map_bytes s : Forall (fun b => b < 256) s -> to_runes (map_bytes s) = map bmap s.
Proof. intros HF. apply to_runes_of_runes, scalars_map_bmap, HF. Qed.

Lemma unmap_runes_bmap s : Forall (fun b => b < 256) s -> no_nul s = true -> unmap_runes (map bmap s) = s.
Proof.
  induction 1 as [|b s Hb _ IH]; [reflexivity|]. cbn [no_nul forallb]. intros [Hz Hn]%andb_true_iff.
  cbn [map unmap_runes flat_map]. rewrite bytemap_inverse by lia. cbn [app]. f_equal. apply IH, Hn.
Qed.

Lemma unmap_map_bytes s :
  Forall (fun b => b < 256) s -> no_nul s = true -> unmap_string (map_bytes s) = s.
Proof.
  intros HF Hn. unfold unmap_string. rewrite to_runes_map_bytes by exact HF. apply unmap_runes_bmap; assumption.
Qed.

(** KvCache/ProofsDefrag.v - correctness of the (repaired) defragmentation loop of KvCache/Model.v:
    the multiset of live (metadata, data) pairs is preserved - every live cell keeps the K/V row that was stored
    for it, although rows are copied late and block-wise - and afterwards all live cells precede all free ones. *)
From Coq Require Import List ZArith NArith Bool Arith Lia Permutation.
From V Require Import KvCache.Model KvCache.ProofsList KvCache.ProofsInv.
Import ListNotations.

Definition dflt : pair := (empty_cell, None).

(** ** the view of a loop state: every cell with the row that belongs to it.
    While a move is pending the cells at [pd, pd+pl) have their metadata already, but their rows still lie at
    [ps, ps+pl), in the opposite order (the cells were filled upwards from sources found downwards): [row_of] says
    where the row of the cell at [i] is. *)
Definition row_of (ps pd pl i : nat) : nat :=
  if (pd <=? i)%nat && (i <? pd + pl)%nat then (ps + (pd + pl - 1 - i))%nat else i.

Lemma row_of_in : forall ps pd pl i, (pd <= i < pd + pl)%nat -> row_of ps pd pl i = (ps + (pd + pl - 1 - i))%nat.
Proof. intros. unfold row_of. destruct (Nat.leb_spec pd i); [|lia]. destruct (Nat.ltb_spec i (pd + pl)); [reflexivity|lia]. Qed.

Lemma row_of_out : forall ps pd pl i, (i < pd \/ pd + pl <= i)%nat -> row_of ps pd pl i = i.
Proof. intros. unfold row_of. destruct (Nat.leb_spec pd i); [|reflexivity]. destruct (Nat.ltb_spec i (pd + pl)); [lia|reflexivity]. Qed.

Definition mpair (st : dstate) (i : nat) : pair :=
  (cell_at (d_cells st) i, nth (row_of (d_ps st) (d_pd st) (d_pl st) i) (d_phys st) None).
Definition mview (st : dstate) : list pair := map (mpair st) (seq 0 (length (d_cells st))).

Lemma mview_length : forall st, length (mview st) = length (d_cells st).
Proof. intros. unfold mview. rewrite map_length, seq_length. reflexivity. Qed.

Lemma nth_mview : forall st i, (i < length (d_cells st))%nat -> nth i (mview st) dflt = mpair st i.
Proof.
  intros st i H. unfold mview.
  rewrite (nth_indep _ dflt (mpair st 0%nat)) by (rewrite map_length, seq_length; assumption).
  rewrite map_nth, seq_nth by assumption. reflexivity.
Qed.

Lemma mview_nopending : forall st, length (d_phys st) = length (d_cells st) -> d_pl st = 0%nat ->
  mview st = combine (d_cells st) (d_phys st).
Proof.
  intros st Hl Hp. apply (nth_ext _ _ dflt dflt).
  - rewrite mview_length, combine_length, Hl, Nat.min_id. reflexivity.
  - intros i Hi. rewrite mview_length in Hi. rewrite nth_mview by assumption. unfold dflt. rewrite nth_combine by assumption.
    unfold mpair. rewrite Hp, row_of_out by lia. reflexivity.
Qed.

(** ** flush: the block copy brings the rows over, the reversal puts the cells of the block into the order of the rows -
    on the view, the block is reversed and nothing else happens *)
Lemma flush_pl : forall st, d_pl (flush true st) = 0%nat.
Proof. intros. unfold flush. destruct (Nat.eqb_spec (d_pl st) 0); [assumption|reflexivity]. Qed.

Lemma flush_src : forall st, d_src (flush true st) = d_src st.
Proof. intros. unfold flush. destruct (d_pl st =? 0)%nat; reflexivity. Qed.

Lemma flush_cell_out : forall st i, (d_pd st + d_pl st <= length (d_cells st))%nat -> (d_pd st + d_pl st <= i)%nat ->
  cell_at (d_cells (flush true st)) i = cell_at (d_cells st) i.
Proof.
  intros st i Hn Hi. unfold flush. destruct (d_pl st =? 0)%nat; [reflexivity|]. cbn [d_cells]. unfold cell_at.
  rewrite nth_reverse_block by exact Hn. destruct (Nat.ltb_spec i (d_pd st + d_pl st)); [lia|]. rewrite andb_false_r. reflexivity.
Qed.

Lemma mview_flush : forall st, length (d_phys st) = length (d_cells st) ->
  (d_pl st = 0 \/ d_pd st + d_pl st <= length (d_cells st))%nat ->
  mview (flush true st) = reverse_block (d_pd st) (d_pl st) (mview st).
Proof.
  intros [cs ph src ps pd pl] Hl Hp. unfold flush. cbn [d_cells d_phys d_ps d_pd d_pl] in *.
  destruct (Nat.eqb_spec pl 0) as [->|Hn]; [symmetry; apply reverse_block_0|].
  destruct Hp as [Hp|Hp]; [contradiction|].
  set (st := mkD cs ph src ps pd pl).
  assert (Lr : length (reverse_block pd pl cs) = length cs) by (apply reverse_block_length; exact Hp).
  apply (nth_ext _ _ dflt dflt).
  - rewrite reverse_block_length, !mview_length; [exact Lr|rewrite mview_length; exact Hp].
  - intros i Hi. rewrite mview_length in Hi. cbn [d_cells] in Hi. rewrite nth_mview by exact Hi.
    unfold mpair, cell_at. cbn [d_cells d_phys d_ps d_pd d_pl]. rewrite Lr in Hi.
    rewrite row_of_out by lia. rewrite nth_move_cells by lia.
    rewrite !nth_reverse_block by (rewrite ?mview_length; exact Hp).
    destruct (Nat.leb_spec pd i); [destruct (Nat.ltb_spec i (pd + pl))|]; cbn [andb];
      rewrite nth_mview by (unfold st; cbn [d_cells]; lia); unfold mpair, cell_at, st; cbn [d_cells d_phys d_ps d_pd d_pl].
    + rewrite row_of_in by lia. do 2 f_equal. lia.
    + rewrite row_of_out by lia. reflexivity.
    + rewrite row_of_out by lia. reflexivity.
Qed.

(** ** one move.  The metadata of [s] goes to the free location [dst] and the pending block grows by one; [do_move] either
    does just that (the merge test holds) or flushes first.  On the view this is: the pair at [s] goes to [dst], and [s]
    keeps its row under a free cell - the pairs of the block do not move, since [row_of] follows the new block. *)
Definition xfer (st : dstate) (dst s : nat) : dstate :=
  mkD (set_nth s empty_cell (set_nth dst (cell_at (d_cells st) s) (d_cells st))) (d_phys st)
      s s (dst - d_pl st) (S (d_pl st)).

Lemma do_move_xfer : forall st dst s,
  (d_pl st = 0 \/ d_pd st + d_pl st <= dst)%nat -> (dst < s)%nat -> (s < length (d_cells st))%nat ->
  do_move true st dst s = xfer (if (0 <? d_pl st)%nat && merge_test true st dst s then st else flush true st) dst s.
Proof.
  intros [cs ph src ps pd pl] dst s Hp Hds Hs. unfold do_move, merge_test, xfer. cbn [d_cells d_phys d_ps d_pd d_pl] in *.
  destruct ((0 <? pl)%nat && ((S s =? ps)%nat && (dst =? pd + pl)%nat)) eqn:Em.
  - apply andb_true_iff in Em. destruct Em as [_ Em]. apply andb_true_iff in Em. destruct Em as [_ Em].
    apply Nat.eqb_eq in Em. cbn [d_cells d_phys d_pl]. replace (dst - pl)%nat with pd by lia. reflexivity.
  - unfold flush. cbn [d_cells d_phys d_src d_ps d_pd d_pl]. destruct (Nat.eqb_spec pl 0) as [->|Hn]; cbn [d_cells d_phys d_pl].
    + rewrite Nat.sub_0_r. reflexivity.
    + destruct Hp as [Hp|Hp]; [contradiction|]. rewrite Nat.sub_0_r.
      rewrite !reverse_block_set_nth by (rewrite ?set_nth_length; lia).
      unfold cell_at at 2. rewrite nth_reverse_block by lia. destruct (Nat.ltb_spec s (pd + pl)); [lia|]. rewrite andb_false_r.
      reflexivity.
Qed.

Lemma row_of_grow : forall ps pd pl dst s i, (pl = 0 \/ ps = S s /\ pd + pl = dst)%nat -> i <> dst ->
  row_of s (dst - pl) (S pl) i = row_of ps pd pl i.
Proof.
  intros ps pd pl dst s i H Hi. destruct (Nat.lt_ge_cases i (dst - pl)); [rewrite !row_of_out by lia; reflexivity|].
  destruct (Nat.lt_ge_cases i dst); [rewrite !row_of_in by lia; lia|rewrite !row_of_out by lia; reflexivity].
Qed.

Lemma mview_xfer : forall st dst s,
  (d_pl st = 0 \/ d_ps st = S s /\ d_pd st + d_pl st = dst)%nat -> (dst < s)%nat -> (s < length (d_cells st))%nat ->
  mview (xfer st dst s) =
  set_nth s (empty_cell, snd (nth s (mview st) dflt)) (set_nth dst (nth s (mview st) dflt) (mview st)).
Proof.
  intros [cs ph src ps pd pl] dst s H Hds Hs. cbn [d_cells d_phys d_ps d_pd d_pl] in *.
  set (st := mkD cs ph src ps pd pl).
  assert (Es : nth s (mview st) dflt = (cell_at cs s, nth s ph None)).
  { rewrite nth_mview by exact Hs. unfold mpair. cbn [st d_cells d_phys d_ps d_pd d_pl]. rewrite row_of_out by lia. reflexivity. }
  rewrite Es. cbn [snd].
  apply (nth_ext _ _ dflt dflt).
  - rewrite !set_nth_length, !mview_length. cbn [xfer st d_cells]. rewrite !set_nth_length. reflexivity.
  - intros i Hi. rewrite mview_length in Hi. cbn [xfer st d_cells] in Hi. rewrite !set_nth_length in Hi.
    rewrite nth_mview by (cbn [xfer st d_cells]; rewrite !set_nth_length; exact Hi).
    unfold mpair, cell_at. cbn [xfer st d_cells d_phys d_ps d_pd d_pl].
    destruct (Nat.eq_dec i s) as [->|Hns]; [|destruct (Nat.eq_dec i dst) as [->|Hnd]].
    + rewrite !nth_set_nth_eq by (rewrite ?set_nth_length, ?mview_length; exact Hs). rewrite row_of_out by lia. reflexivity.
    + rewrite !(nth_set_nth_neq _ _ dst s) by lia. rewrite !nth_set_nth_eq by (rewrite ?mview_length; cbn [st d_cells]; lia).
      rewrite row_of_in by lia. do 2 f_equal. lia.
    + rewrite !nth_set_nth_neq by assumption. rewrite nth_mview by exact Hi.
      rewrite (row_of_grow ps pd pl dst s i H Hnd). reflexivity.
Qed.

Lemma scan_src_spec : forall l dst src, (dst <= src)%nat ->
  let s := scan_src l dst src in
  (dst <= s <= src)%nat /\
  (forall i, (s < i <= src)%nat -> live (cell_at l i) = false) /\
  ((dst < s)%nat -> live (cell_at l s) = true).
Proof.
  intros l dst src. induction src as [|s' IH]; intros H; cbv zeta; cbn [scan_src].
  - repeat split; try lia; intros; lia.
  - destruct (Nat.leb_spec (S s') dst).
    + repeat split; try lia; intros; lia.
    + destruct (live (cell_at l (S s'))) eqn:E.
      * repeat split; try lia; intros; try lia. exact E.
      * destruct IH as [I1 [I2 I3]]; [lia|]. repeat split; try lia.
        -- intros i Hi. destruct (Nat.eq_dec i (S s')); [subst; exact E|]. apply I2. lia.
        -- exact I3.
Qed.

(** the loop invariant at outer index [dst], against the initial view [L0]: below [dst] (and [d_src]) everything is live, above
    [d_src] everything is free - [compact] in the making -, the pending block lies below both, and the view is still [L0]'s *)
Record J (n : nat) (L0 : list pair) (dst : nat) (st : dstate) : Prop := mkJ {
  j_lc : length (d_cells st) = n;
  j_lp : length (d_phys st) = n;
  j_src : (d_src st < n \/ (n = 0 /\ d_src st = 0))%nat;
  j_dst : (dst <= S (d_src st))%nat;
  j_live : forall i, (i < dst)%nat -> (i < d_src st)%nat -> live (cell_at (d_cells st) i) = true;
  j_dead : forall i, (d_src st < i)%nat -> live (cell_at (d_cells st) i) = false;
  j_pend : (d_pl st = 0 \/ (d_pd st + d_pl st <= dst /\ d_pd st + d_pl st <= d_src st))%nat;
  j_perm : Permutation (filter livep (mview st)) (filter livep L0)
}.

Lemma J_flush : forall n L0 dst st, J n L0 dst st -> J n L0 dst (flush true st).
Proof.
  intros n L0 dst st HJ. pose proof HJ as [Hlc Hlp Hsrc Hdst Hlive Hdead Hpend Hperm].
  assert (Hn : (d_pl st = 0 \/ d_pd st + d_pl st <= length (d_cells st))%nat) by lia.
  assert (Hv := mview_flush st ltac:(lia) Hn).
  unfold flush in *. destruct (Nat.eqb_spec (d_pl st) 0) as [E|E]; [exact HJ|].
  destruct Hpend as [Hp|[Hp1 Hp2]]; [contradiction|].
  constructor; cbn [d_cells d_phys d_src d_ps d_pd d_pl].
  - rewrite reverse_block_length; lia.
  - rewrite move_cells_length. exact Hlp.
  - exact Hsrc.
  - exact Hdst.
  - intros i H1 H2. unfold cell_at. rewrite nth_reverse_block by lia.
    destruct (Nat.leb_spec (d_pd st) i); [destruct (Nat.ltb_spec i (d_pd st + d_pl st))|]; cbn [andb]; apply Hlive; lia.
  - intros i Hi. unfold cell_at. rewrite nth_reverse_block by lia.
    destruct (Nat.ltb_spec i (d_pd st + d_pl st)); [lia|]. rewrite andb_false_r. apply Hdead. exact Hi.
  - left. reflexivity.
  - rewrite Hv. eapply Permutation_trans; [apply Permutation_filter', reverse_block_perm|exact Hperm].
Qed.

Lemma J_xfer : forall n L0 dst st s, J n L0 dst st ->
  (d_pl st = 0 \/ d_ps st = S s /\ d_pd st + d_pl st = dst)%nat -> (dst < s <= d_src st)%nat ->
  live (cell_at (d_cells st) dst) = false -> live (cell_at (d_cells st) s) = true ->
  (forall i, (s < i <= d_src st)%nat -> live (cell_at (d_cells st) i) = false) ->
  J n L0 (S dst) (xfer st dst s).
Proof.
  intros n L0 dst st s [Hlc Hlp Hsrc Hdst Hlive Hdead Hpend Hperm] Hm Hs Hdd Hsl Hscan.
  assert (Hsn : (s < length (d_cells st))%nat) by lia.
  constructor; cbn [xfer d_cells d_phys d_src d_ps d_pd d_pl].
  - rewrite !set_nth_length. exact Hlc.
  - exact Hlp.
  - left. lia.
  - lia.
  - intros i H1 H2. unfold cell_at. rewrite nth_set_nth_neq by lia.
    destruct (Nat.eq_dec i dst) as [->|Hn]; [rewrite nth_set_nth_eq by lia; exact Hsl|].
    rewrite nth_set_nth_neq by exact Hn. apply Hlive; lia.
  - intros i Hi. unfold cell_at. rewrite !nth_set_nth_neq by lia.
    destruct (Nat.le_gt_cases i (d_src st)); [apply Hscan|apply Hdead]; lia.
  - right. lia.
  - rewrite mview_xfer by (assumption || lia). eapply Permutation_trans; [|exact Hperm].
    apply filter_transfer_perm; [lia|rewrite mview_length; exact Hsn| |reflexivity].
    rewrite nth_mview by lia. exact Hdd.
Qed.

Lemma J_step : forall n L0 dst st, J n L0 dst st -> (dst < d_src st)%nat ->
  J n L0 (S dst)
    (if live (cell_at (d_cells st) dst) then st
     else let s := scan_src (d_cells st) dst (d_src st) in
          if (s <=? dst)%nat then mkD (d_cells st) (d_phys st) s (d_ps st) (d_pd st) (d_pl st)
          else do_move true st dst s).
Proof.
  intros n L0 dst st HJ Hlt. pose proof HJ as [Hlc Hlp Hsrc Hdst Hlive Hdead Hpend Hperm].
  destruct (live (cell_at (d_cells st) dst)) eqn:El.
  - constructor; auto; try lia.
    intros i Hi Hi2. destruct (Nat.eq_dec i dst); [subst; exact El|]. apply Hlive; lia.
  - cbv zeta. destruct (scan_src_spec (d_cells st) dst (d_src st) ltac:(lia)) as [S1 [S2 S3]].
    set (s := scan_src (d_cells st) dst (d_src st)) in *.
    destruct (Nat.leb_spec s dst).
    + (* nothing left above dst *)
      constructor; cbn [d_cells d_phys d_src d_ps d_pd d_pl]; auto; try lia.
      * intros i Hi Hi2. apply Hlive; lia.
      * intros i Hi. destruct (Nat.le_gt_cases i (d_src st)); [apply S2|apply Hdead]; lia.
    + specialize (S3 ltac:(lia)). rewrite do_move_xfer by lia.
      destruct ((0 <? d_pl st)%nat && merge_test true st dst s) eqn:Em.
      * (* merged into the pending move *)
        apply andb_true_iff in Em. destruct Em as [_ Em]. apply andb_true_iff in Em. destruct Em as [E1 E2].
        apply Nat.eqb_eq in E1, E2. apply J_xfer; auto; lia.
      * (* the pending move is flushed, a new one starts *)
        assert (Hc : forall i, (dst <= i)%nat -> cell_at (d_cells (flush true st)) i = cell_at (d_cells st) i).
        { intros i Hi. destruct Hpend as [Hp|Hp]; [unfold flush; rewrite Hp; reflexivity|apply flush_cell_out; lia]. }
        apply J_xfer; rewrite ?flush_src, ?Hc by lia; auto; try lia.
        -- apply J_flush. exact HJ.
        -- left. apply flush_pl.
        -- intros i Hi. rewrite Hc by lia. apply S2. exact Hi.
Qed.

Lemma J_loop : forall fuel n L0 dst st, J n L0 dst st -> (n <= dst + fuel)%nat ->
  exists dst', J n L0 dst' (defrag_loop true fuel dst st) /\ (d_src (defrag_loop true fuel dst st) <= dst')%nat.
Proof.
  induction fuel as [|f IH]; intros n L0 dst st HJ Hf; simpl.
  - exists dst. split; [exact HJ|]. destruct (j_src _ _ _ _ HJ); lia.
  - destruct (Nat.ltb_spec dst (d_src st)).
    + apply IH; [|lia]. apply (J_step n L0 dst st HJ H).
    + exists dst. split; [exact HJ|lia].
Qed.

Definition compact (l : list cell) : Prop :=
  forall i j, (i < j)%nat -> live (cell_at l j) = true -> live (cell_at l i) = true.

Theorem defrag_loop_correct : forall cs ps,
  length ps = length cs ->
  let n := length cs in
  let st := flush true (defrag_loop true n 0 (mkD cs ps (n - 1) 0 0 0)) in
  length (d_cells st) = n /\ length (d_phys st) = n /\
  Permutation (live_pairs (d_cells st) (d_phys st)) (live_pairs cs ps) /\
  compact (d_cells st).
Proof.
  intros cs ps Hl n st. subst st.
  set (st0 := mkD cs ps (n - 1) 0 0 0).
  assert (J0 : J n (combine cs ps) 0 st0).
  { constructor; cbn [st0 d_cells d_phys d_src d_ps d_pd d_pl]; auto; try lia.
    - intros i Hi. rewrite cell_at_oob by (fold n; lia). reflexivity.
    - rewrite mview_nopending by (simpl; auto). reflexivity. }
  destruct (J_loop n n (combine cs ps) 0 st0 J0 ltac:(lia)) as [dst' [HJ Hsd]].
  apply J_flush in HJ. rewrite <- flush_src in Hsd.
  set (st := flush true (defrag_loop true n 0 st0)) in *.
  destruct HJ as [Hlc Hlp Hsrc Hdst Hlive Hdead Hpend Hperm].
  rewrite mview_nopending in Hperm by first [apply flush_pl|lia].
  repeat split; auto.
  intros i j Hij Hj.
  assert (j <= d_src st)%nat.
  { destruct (Nat.le_gt_cases j (d_src st)); auto. rewrite Hdead in Hj by lia. discriminate. }
  apply Hlive; lia.
Qed.

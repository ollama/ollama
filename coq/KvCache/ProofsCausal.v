(** KvCache/ProofsCausal.v - SetCausal: the mask rows of a pass follow the current exemption list; rows of tokens that are
    not exempt are the causal rows; after a reset to the empty list the mask is the causal mask of StartForward again. *)
From Coq Require Import List ZArith NArith Bool Arith Lia.
From V Require Import KvCache.Model KvCache.ProofsList.
Import ListNotations.
Open Scope Z_scope.

Lemma visible_ex_enabled : forall w cl q p, visible_ex w cl q p true = visible_at w cl q p.
Proof. reflexivity. Qed.

Lemma mask_row_ex_enabled : forall w cs pr q p, mask_row_ex w cs pr q p true = mask_row w cs pr q p.
Proof. reflexivity. Qed.

Lemma list_eqb_eq : forall a b, list_eqb a b = true <-> a = b.
Proof.
  induction a as [|x a IH]; intros [|y b]; simpl; split; intros H; try discriminate; auto.
  - apply andb_true_iff in H. destruct H as [H1 H2]. apply Nat.eqb_eq in H1. apply IH in H2. congruence.
  - injection H as -> ->. rewrite Nat.eqb_refl. apply IH. reflexivity.
Qed.

(** the causal rows, as StartForward builds them *)
Definition causal_rows (c : cache) (pr : rng) (batch : list entry) : list (list nat) :=
  map (fun e : entry => let '(q, p, _) := e in mask_row (window c) (cells c) pr q p) batch.

Lemma rows_ex_nil : forall c pr batch, rows_ex c pr batch [] = causal_rows c pr batch.
Proof. intros. unfold rows_ex, mapi, causal_rows. apply mapi_from_map. intros k [[q p] t]. reflexivity. Qed.

Lemma rows_ex_not_exempt : forall c pr batch ex i q p t,
  nth_error batch i = Some (q, p, t) -> existsb (Nat.eqb i) ex = false ->
  nth_error (rows_ex c pr batch ex) i = Some (mask_row (window c) (cells c) pr q p).
Proof.
  intros c pr batch ex i q p t Hn He. unfold rows_ex, mapi.
  assert (G : forall l k j, nth_error l j = Some (q, p, t) -> existsb (Nat.eqb (k + j)) ex = false ->
            nth_error (mapi_from k (fun i0 (e : entry) => let '(q0, p0, _) := e in
                          mask_row_ex (window c) (cells c) pr q0 p0 (negb (existsb (Nat.eqb i0) ex))) l) j
            = Some (mask_row (window c) (cells c) pr q p)).
  { induction l as [|e r IH]; intros k j Hj Hk; destruct j as [|j]; simpl in *; try discriminate.
    - injection Hj as ->. rewrite Nat.add_0_r in Hk. rewrite Hk. reflexivity.
    - apply IH; [exact Hj|]. replace (S k + j)%nat with (k + S j)%nat by lia. exact Hk. }
  apply (G batch 0%nat i Hn). exact He.
Qed.

(** along the SetCausal calls of a pass (each with a context), the mask is the one of the current exemption list *)
Definition pass_ok (c : cache) (pr : rng) (batch : list entry) (ps : pass) : Prop :=
  p_vis ps = rows_ex c pr batch (p_except ps).

Lemma set_causal_ok : forall c pr batch ps ex, pass_ok c pr batch ps ->
  pass_ok c pr batch (set_causal c pr batch ps ex true) /\ p_except (set_causal c pr batch ps ex true) = ex.
Proof.
  intros c pr batch ps ex H. unfold set_causal. destruct (list_eqb (p_except ps) ex) eqn:E.
  - apply list_eqb_eq in E. split; [exact H|exact E].
  - split; reflexivity.
Qed.

Definition run_calls (c : cache) (pr : rng) (batch : list entry) (ps : pass) (calls : list (list nat)) : pass :=
  fold_left (fun ps ex => set_causal c pr batch ps ex true) calls ps.

Lemma last_indep : forall A (l : list A) x d d', last (x :: l) d = last (x :: l) d'.
Proof. intros A l. induction l as [|y t IH]; intros x d d'; [reflexivity|]. simpl in *. apply (IH y). Qed.

Theorem set_causal_run : forall calls c pr batch ps, pass_ok c pr batch ps ->
  pass_ok c pr batch (run_calls c pr batch ps calls) /\
  p_except (run_calls c pr batch ps calls) = last calls (p_except ps).
Proof.
  induction calls as [|ex t IH]; intros c pr batch ps H; simpl; auto.
  destruct (set_causal_ok c pr batch ps ex H) as [H1 H2].
  destruct (IH c pr batch _ H1) as [I1 I2]. split; [exact I1|]. rewrite I2.
  destruct t as [|y t']; [simpl; exact H2|]. apply last_indep.
Qed.

Theorem set_causal_reset : forall calls c pr batch ps, pass_ok c pr batch ps ->
  p_vis (run_calls c pr batch ps (calls ++ [[]])) = causal_rows c pr batch.
Proof.
  intros calls c pr batch ps H. destruct (set_causal_run (calls ++ [[]]) c pr batch ps H) as [H1 H2].
  unfold pass_ok in H1. rewrite H1, H2, last_last. apply rows_ex_nil.
Qed.

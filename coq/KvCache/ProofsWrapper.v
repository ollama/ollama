(** KvCache/ProofsWrapper.v - WrapperCache (kvcache/wrapper.go) over two Causal caches (a sliding-window one and a plain
    one, as gemma-style models use; any two windows are allowed): the pair refines the pair of specifications.
    StartForward that fails in the second cache unwinds the first by Remove(seq_k, pos_k, MaxInt32). *)
From Coq Require Import List ZArith NArith Bool Arith Lia Permutation.
From V Require Import KvCache.Model KvCache.ProofsList KvCache.ProofsInv KvCache.ProofsDefrag KvCache.ProofsOps
  KvCache.ProofsFwd KvCache.ProofsRefine.
From V Require KvCache.Spec.
Import ListNotations.
Open Scope Z_scope.

Fixpoint spec_unwind (s : Spec.sstate) (batch : list entry) : Spec.sstate :=
  match batch with
  | [] => s
  | (q, p, _) :: t => spec_unwind (fst (Spec.spec_remove s q p MaxInt32)) t
  end.

Definition wspec_forward (ws : Spec.sstate * Spec.sstate) (batch : list entry)
  : (Spec.sstate * Spec.sstate) * option Spec.serr :=
  let '(s0, s1) := ws in
  match Spec.spec_forward s0 batch with
  | (s0', Some er) => ((s0', s1), Some er)
  | (s0', None) =>
      match Spec.spec_forward s1 batch with
      | (s1', None) => ((s0', s1'), None)
      | (s1', Some er) => ((spec_unwind s0' batch, s1'), Some er)
      end
  end.

Definition sclear (s : Spec.sstate) (q : nat) : Spec.sstate := fst (Spec.spec_remove s q 0 MaxInt32).

Definition wspec_remove_c (ws : Spec.sstate * Spec.sstate) (q : nat) (b e : Z)
  : (Spec.sstate * Spec.sstate) * option Spec.serr :=
  let '(s0, s1) := ws in
  match Spec.spec_remove s0 q b e with
  | (_, Some er) => ((sclear s0 q, sclear s1 q), Some er)
  | (s0', None) =>
      match Spec.spec_remove s1 q b e with
      | (_, Some er) => ((sclear s0' q, sclear s1 q), Some er)
      | (s1', None) => ((s0', s1'), None)
      end
  end.

Definition wspec_pstep (ws : Spec.sstate * Spec.sstate) (o : op) : (Spec.sstate * Spec.sstate) * Spec.sout :=
  let '(s0, s1) := ws in
  match o with
  | Forward batch => let '(ws', e) := wspec_forward ws batch in (ws', Spec.OErr e)
  | Copy s d len => ((Spec.spec_copy s0 s d len, Spec.spec_copy s1 s d len), Spec.OUnit)
  | Remove q b e => let '(ws', r) := wspec_remove_c ws q b e in (ws', Spec.OErr r)
  | CanResume q p => (ws, Spec.OBool (Spec.spec_can_resume s0 q p && Spec.spec_can_resume s1 q p))
  end.
Definition wspec_prun (ws : Spec.sstate * Spec.sstate) (ops : list op) := fold_left (fun ws o => fst (wspec_pstep ws o)) ops ws.

Definition Inv2 (w : cache * cache) : Prop := Inv (fst w) /\ Inv (snd w).
Definition R2 (w : cache * cache) (ws : Spec.sstate * Spec.sstate) : Prop := R (fst w) (fst ws) /\ R (snd w) (snd ws).

Lemma blocked_max : forall c q b, Inv c -> existsb (blocked q b MaxInt32) (cells c) = false.
Proof.
  intros c q b HI. apply (proj2 (existsb_false_nth (blocked q b MaxInt32) (cells c))). intros k Hk. unfold blocked, cell_at.
  destruct (has q (nth k (cells c) empty_cell)) eqn:Hq; [|reflexivity].
  pose proof (valid_positions c q HI) as HV. rewrite Forall_forall in HV.
  specialize (HV _ (nth_In _ _ Hk) Hq). destruct (Z.leb_spec MaxInt32 (c_pos (nth k (cells c) empty_cell))); [lia|]. rewrite andb_false_r. reflexivity.
Qed.

Lemma remove_max_ok : forall c q b, Inv c -> snd (remove c q b MaxInt32) = OOk.
Proof. intros c q b HI. rewrite remove_cases, blocked_max, Z.eqb_refl by exact HI. destruct (negb _); reflexivity. Qed.

Lemma remove_max_refines : forall c s q b, Inv c -> R c s -> 0 <= b <= MaxInt32 ->
  Inv (fst (remove c q b MaxInt32)) /\ R (fst (remove c q b MaxInt32)) (fst (Spec.spec_remove s q b MaxInt32)) /\
  cells (fst (remove c q b MaxInt32)) = map (rm_cell' q b MaxInt32 0) (cells c).
Proof.
  intros c s q b HI HR Hb. pose proof (remove_refines c s q b MaxInt32 HI HR Hb) as P. rewrite (remove_max_ok c q b HI) in P.
  destruct (snd (Spec.spec_remove s q b MaxInt32)); [contradiction|]. destruct P as [HI' HR']. split; [exact HI'|]. split; [exact HR'|].
  rewrite remove_cases by exact HI. change (Spec.rm_offset b MaxInt32) with 0. rewrite (blocked_max c q b HI), Z.eqb_refl.
  destruct (negb _); reflexivity.
Qed.

Lemma clear_refines : forall c s q, Inv c -> R c s ->
  snd (remove c q 0 MaxInt32) = OOk /\ Inv (fst (remove c q 0 MaxInt32)) /\ R (fst (remove c q 0 MaxInt32)) (sclear s q).
Proof.
  intros c s q HI HR. split; [apply remove_max_ok; exact HI|].
  destruct (remove_max_refines c s q 0 HI HR ltac:(unfold MaxInt32; lia)) as [A [B _]]. auto.
Qed.

(** Remove(seq, p, MaxInt32), hence the unwind, neither reads nor writes the stored rows *)
Definition with_rows (c : cache) (ps : list (option datum)) : cache := with_layers (with_cpr c (cells c) ps (ranges c)).

Lemma remove_max_rows : forall c ps q b,
  fst (remove (with_rows c ps) q b MaxInt32) = with_rows (fst (remove c q b MaxInt32)) ps /\
  phys (fst (remove c q b MaxInt32)) = phys c.
Proof.
  intros. unfold remove. rewrite Z.eqb_refl. simpl.
  destruct (rm_loop q b MaxInt32 0 0 (cells c) new_range) as [[cs r] er]. destruct er; [split; reflexivity|].
  destruct ((fst r =? MaxInt) && (snd r =? 0)); split; reflexivity.
Qed.

Lemma unwind_rows : forall batch c ps,
  unwind (with_rows c ps) batch = with_rows (unwind c batch) ps /\ phys (unwind c batch) = phys c.
Proof.
  induction batch as [|[[q p] t] r IH]; intros c ps; simpl; [split; reflexivity|].
  destruct (remove_max_rows c ps q p) as [E1 E2]. rewrite E1.
  destruct (IH (fst (remove c q p MaxInt32)) ps) as [I1 I2]. split; [exact I1|congruence].
Qed.

Definition unwind_cell (batch : list entry) (cl : cell) : cell :=
  fold_left (fun cl (e : entry) => rm_cell' (e_seq e) (e_pos e) MaxInt32 0 cl) batch cl.

Lemma unwind_refines : forall batch c s, Inv c -> R c s -> Forall (fun e : entry => 0 <= e_pos e < MaxInt32) batch ->
  Inv (unwind c batch) /\ R (unwind c batch) (spec_unwind s batch) /\
  cells (unwind c batch) = map (unwind_cell batch) (cells c).
Proof.
  induction batch as [|[[q p] t] r IH]; intros c s HI HR Hv; simpl.
  - split; [exact HI|split; [exact HR|symmetry; apply map_id]].
  - inversion Hv as [|? ? Hp Hr]; subst. unfold e_pos in Hp. simpl in Hp.
    destruct (remove_max_refines c s q p HI HR ltac:(lia)) as [HI1 [HR1 HC1]].
    destruct (IH _ _ HI1 HR1 Hr) as [I1 [I2 I3]].
    split; [exact I1|]. split; [exact I2|]. rewrite I3, HC1, map_map. reflexivity.
Qed.

Lemma unwind_cell_dead : forall batch cl, live cl = false -> live (unwind_cell batch cl) = false.
Proof.
  induction batch as [|e r IH]; intros cl H; simpl; auto. apply IH. apply rm_cell_dead. exact H.
Qed.

(** a cell written for a batch entry does not survive the unwind of that batch *)
Lemma unwind_cell_kills : forall batch q p t, In (q, p, t) batch -> 0 <= p < MaxInt32 ->
  live (unwind_cell batch (mkCell p [q])) = false.
Proof.
  induction batch as [|[[q1 p1] t1] r IH]; intros q p t Hin Hp; simpl in *; [contradiction|].
  unfold e_seq, e_pos. simpl.
  assert (Hcases : rm_cell' q1 p1 MaxInt32 0 (mkCell p [q]) = mkCell p [q] \/ live (rm_cell' q1 p1 MaxInt32 0 (mkCell p [q])) = false).
  { unfold rm_cell', has, in_be. simpl. destruct (Nat.eqb_spec q1 q) as [->|Hne]; simpl; [|left; reflexivity].
    destruct ((p1 <=? p) && (p <? MaxInt32)) eqn:E.
    - right. unfold del, live. simpl. rewrite Nat.eqb_refl. reflexivity.
    - destruct (Z.leb_spec MaxInt32 p); [lia|]. left. reflexivity. }
  destruct Hin as [E|Hin].
  - injection E as -> -> ->. apply unwind_cell_dead. unfold rm_cell', has, in_be. simpl. rewrite Nat.eqb_refl. simpl.
    destruct (Z.leb_spec p p); [|lia]. destruct (Z.ltb_spec p MaxInt32); [|lia]. simpl.
    unfold del, live. simpl. rewrite Nat.eqb_refl. reflexivity.
  - destruct Hcases as [E|E]; [rewrite E; eapply IH; eauto|apply unwind_cell_dead; exact E].
Qed.

Lemma place_nth : forall batch cs rs cur loc k, (loc + length batch <= length cs)%nat -> (k < length batch)%nat ->
  cell_at (place_cells cs rs cur loc batch) (loc + k) = new_cell (nth k batch (0%nat, 0, 0%N)).
Proof.
  induction batch as [|[[q p] t] r IH]; intros cs rs cur loc k Hfit Hk; simpl in *; [lia|].
  unfold place_cells in *. simpl.
  set (cs1 := set_nth loc (mkCell p [q]) cs).
  assert (L1 : length cs1 = length cs) by (unfold cs1; apply set_nth_length).
  destruct k as [|k].
  - (* the first cell is not touched by the rest of the batch *)
    rewrite Nat.add_0_r.
    assert (G : forall b cs' rs' cur' loc', (loc < loc')%nat ->
              cell_at (fst (fst (place cs' rs' cur' loc' b))) loc = cell_at cs' loc).
    { clear. induction b as [|[[q p] t] r IH]; intros cs' rs' cur' loc' H; simpl; auto.
      rewrite IH by lia. unfold cell_at. apply nth_set_nth_neq. lia. }
    rewrite G by lia. unfold cs1, cell_at. apply nth_set_nth_eq. lia.
  - replace (loc + S k)%nat with (S loc + k)%nat by lia.
    match goal with |- context [place cs1 ?a ?b (S loc) r] => apply (IH cs1 a b (S loc) k) end; [rewrite L1|]; lia.
Qed.

Lemma put_nth_out : forall batch ps loc i, (i < loc \/ loc + length batch <= i)%nat -> nth i (put ps loc batch) None = nth i ps None.
Proof.
  induction batch as [|[[q p] t] r IH]; intros ps loc i H; simpl; auto.
  rewrite IH by (simpl in H; lia). apply nth_set_nth_neq. simpl in H. lia.
Qed.

Lemma live_pairs_phys_ext : forall cs ps ps', length ps = length cs -> length ps' = length cs ->
  (forall i, (i < length cs)%nat -> live (cell_at cs i) = true -> nth i ps None = nth i ps' None) ->
  live_pairs cs ps = live_pairs cs ps'.
Proof.
  induction cs as [|c t IH]; intros [|p ps] [|p' ps'] H1 H2 H; simpl in *; try lia; auto.
  unfold live_pairs in *. simpl.
  replace (livep (c, p')) with (livep (c, p)) by reflexivity.
  destruct (livep (c, p)) eqn:E.
  - rewrite (H 0%nat ltac:(lia) E : p = p'). f_equal. apply IH; try lia. intros i Hi Hl. apply (H (S i)); [lia|exact Hl].
  - apply IH; try lia. intros i Hi Hl. apply (H (S i)); [lia|exact Hl].
Qed.

Lemma forward_meta_cells : forall c batch c' f, (1 <= length batch)%nat -> start_forward_meta true c batch = (c', OFwd f) ->
  exists ck, (f_loc f + length batch <= length (cells ck))%nat /\
             cells c' = place_cells (cells ck) (ranges ck) new_range (f_loc f) batch.
Proof.
  intros c batch c' f Hn H. unfold start_forward_meta in H.
  assert (G : forall ck loc, find_start (cells ck) (length batch) = Some loc -> meta_place ck loc batch = (c', OFwd f) ->
            exists ck, (f_loc f + length batch <= length (cells ck))%nat /\
                       cells c' = place_cells (cells ck) (ranges ck) new_range (f_loc f) batch).
  { intros ck loc Hfs E. destruct (find_start_sound _ _ _ Hfs Hn) as [Hfit _]. unfold meta_place in E. exists ck. unfold place_cells.
    destruct (place (cells ck) (ranges ck) new_range loc batch) as [[cs rs] cur] eqn:Ep. injection E as <- <-. simpl. rewrite Ep. auto. }
  destruct (find_start (cells (update_window c batch)) (length batch)) as [loc|] eqn:E1; [eauto|].
  destruct (defrag true (update_window c batch)) as [c2|]; [|discriminate].
  destruct (find_start (cells c2) (length batch)) as [loc|] eqn:E2; [eauto|discriminate].
Qed.

Theorem unwind_after_forward : forall c s batch c' f, Inv c -> R c s -> valid_batch batch ->
  start_forward_meta true c batch = (c', OFwd f) ->
  Inv (unwind c' batch) /\ R (unwind c' batch) (spec_unwind (fst (Spec.spec_forward s batch)) batch).
Proof.
  intros c s batch c' f HI HR Hvb Hm. pose proof Hvb as [Hne Hval].
  (* the state Put would have produced, unwound: the same as the state without Put unwound, up to the rows *)
  pose proof (step_refines c s (Forward batch) HI HR Hvb) as [HIP [HRP _]]. simpl in HIP, HRP.
  rewrite start_forward_eq, Hm in HIP, HRP. simpl in HIP, HRP.
  assert (HRP' : R (put_batch c' (f_loc f) batch) (fst (Spec.spec_forward s batch))).
  { destruct (Spec.spec_forward s batch). exact HRP. }
  destruct (unwind_refines batch _ _ HIP HRP' Hval) as [HIU [HRU HCU]].
  change (put_batch c' (f_loc f) batch) with (with_rows c' (put (phys c') (f_loc f) batch)) in HIU, HRU, HCU.
  destruct (unwind_rows batch c' (put (phys c') (f_loc f) batch)) as [EU PU]. rewrite EU in HIU, HRU, HCU.
  set (U := unwind c' batch) in *. simpl in HCU.
  (* where the batch was written *)
  assert (Hn : (1 <= length batch)%nat) by (destruct batch; [congruence|simpl; lia]).
  destruct (forward_meta_cells c batch c' f Hn Hm) as [ck [Hfit Hcells]].
  assert (Hlen : length (cells c') = length (cells ck)) by (rewrite Hcells; apply place_cells_length).
  pose proof (inv_len _ HIU) as HlenU. simpl in HlenU. rewrite put_length in HlenU.
  (* every cell of the batch is dead after the unwind, so the rows that Put would have written do not matter *)
  assert (Hdead : forall i, (f_loc f <= i < f_loc f + length batch)%nat -> live (cell_at (cells U) i) = false).
  { intros i Hi. rewrite HCU, cell_at_map, Hcells by lia.
    replace i with (f_loc f + (i - f_loc f))%nat by lia. rewrite place_nth by lia.
    remember (nth (i - f_loc f) batch (0%nat, 0, 0%N)) as e. destruct e as [[q p] t]. simpl.
    assert (Hin : In (q, p, t) batch) by (rewrite Heqe; apply nth_In; lia).
    apply (unwind_cell_kills batch q p t Hin). rewrite Forall_forall in Hval. apply (Hval _ Hin). }
  assert (HLP : live_pairs (cells U) (phys U) = live_pairs (cells U) (put (phys c') (f_loc f) batch)).
  { rewrite PU. apply live_pairs_phys_ext; [exact HlenU|rewrite put_length; exact HlenU|].
    intros i Hi Hl. symmetry. apply put_nth_out.
    destruct (Nat.lt_ge_cases i (f_loc f)); [left; assumption|]. right.
    destruct (Nat.le_gt_cases (f_loc f + length batch) i); [assumption|]. rewrite Hdead in Hl by lia. discriminate. }
  split.
  - constructor; [rewrite PU; exact HlenU|apply (inv_size _ HIU)|rewrite HLP; apply (inv_data _ HIU)
                 |apply (inv_rng _ HIU)|apply (inv_pad _ HIU)|apply (inv_rpos _ HIU)].
  - destruct HRU as [RA RB]. unfold R, abs_cells in *. rewrite HLP. auto.
Qed.

Lemma forward_meta_out : forall c batch, Inv c -> valid_batch batch ->
  snd (start_forward_meta true c batch) = OErr EFull \/ exists f, snd (start_forward_meta true c batch) = OFwd f.
Proof.
  intros c batch HI Hvb. pose proof (forward_correct c batch HI Hvb) as [_ [_ H]].
  rewrite start_forward_eq in H. destruct (snd (start_forward_meta true c batch)) eqn:E; simpl in H;
    destruct H as [[H _]|[f' [H _]]]; try discriminate; eauto.
Qed.

(** one forward pass on one cache, by its outcome; if it was accepted, also what the unwind of the pass without Put leaves *)
Lemma forward_meta_refines : forall c s batch, Inv c -> R c s -> valid_batch batch ->
  let c' := fst (start_forward_meta true c batch) in let s' := fst (Spec.spec_forward s batch) in
  match snd (start_forward_meta true c batch), snd (Spec.spec_forward s batch) with
  | OFwd f, None => Inv (put_batch c' (f_loc f) batch) /\ R (put_batch c' (f_loc f) batch) s' /\
                    Inv (unwind c' batch) /\ R (unwind c' batch) (spec_unwind s' batch)
  | OErr EFull, Some Spec.EFull => Inv c' /\ R c' s'
  | _, _ => False
  end.
Proof.
  intros c s batch HI HR Hvb. cbv zeta.
  pose proof (step_refines c s (Forward batch) HI HR Hvb) as [A [B C]]. simpl in A, B, C. rewrite start_forward_eq in A, B, C.
  pose proof (unwind_after_forward c s batch) as U.
  destruct (start_forward_meta true c batch) as [c' r] eqn:E. destruct (Spec.spec_forward s batch) as [s' e]. simpl in *.
  destruct (forward_meta_out c batch HI Hvb) as [H|[f H]]; rewrite E in H; simpl in H; subst r; simpl in *.
  - destruct e as [[]|]; try contradiction. auto.
  - destruct e; [contradiction|]. destruct (U c' f HI HR Hvb eq_refl). auto.
Qed.

Theorem wstep_refines : forall w ws o, Inv2 w -> R2 w ws -> op_ok o ->
  Inv2 (fst (wpstep w o)) /\ R2 (fst (wpstep w o)) (fst (wspec_pstep ws o)) /\
  out_agree (snd (wpstep w o)) (snd (wspec_pstep ws o)).
Proof.
  intros [c0 c1] [s0 s1] o [HI0 HI1] [HR0 HR1] Hok. simpl in HI0, HI1, HR0, HR1.
  destruct o as [batch|src dst len|q b e|q p]; simpl in Hok.
  - unfold wpstep, wstep, wspec_pstep, wspec_forward.
    pose proof (forward_meta_refines c0 s0 batch HI0 HR0 Hok) as P0. pose proof (forward_meta_refines c1 s1 batch HI1 HR1 Hok) as P1.
    cbv zeta in P0, P1.
    destruct (start_forward_meta true c0 batch) as [c0' r0]. destruct (Spec.spec_forward s0 batch) as [s0' e0]. simpl in P0.
    destruct r0 as [f0|[]| | |]; try contradiction; destruct e0 as [[]|]; try contradiction.
    + destruct P0 as [A0 [B0 [U0 V0]]].
      destruct (start_forward_meta true c1 batch) as [c1' r1]. destruct (Spec.spec_forward s1 batch) as [s1' e1]. simpl in P1.
      destruct r1 as [f1|[]| | |]; try contradiction; destruct e1 as [[]|]; try contradiction.
      * destruct P1 as [A1 [B1 _]]. simpl. split; [split; assumption|]. split; [split; assumption|exact I].
      * (* the second cache is full: the first is unwound *)
        destruct P1 as [A1 B1]. simpl. split; [split; assumption|]. split; [split; assumption|exact I].
    + (* the first cache is full *)
      destruct P0 as [A0 B0]. simpl. split; [split; assumption|]. split; [split; assumption|exact I].
  - unfold wpstep, wstep, wspec_pstep. simpl.
    pose proof (step_refines c0 s0 (Copy src dst len) HI0 HR0 I) as [A0 [B0 _]].
    pose proof (step_refines c1 s1 (Copy src dst len) HI1 HR1 I) as [A1 [B1 _]].
    simpl in *. split; [split; assumption|]. split; [split; assumption|exact I].
  - (* Remove, with the clean-up on failure *)
    unfold wpstep, wremove_c, wstep, wspec_pstep, wspec_remove_c.
    pose proof (remove_refines c0 s0 q b e HI0 HR0 Hok) as P0. pose proof (remove_refines c1 s1 q b e HI1 HR1 Hok) as P1.
    destruct (remove c0 q b e) as [c0' r0]. destruct (Spec.spec_remove s0 q b e) as [s0' e0]. simpl in P0.
    destruct r0 as [|er0| | |]; try contradiction; destruct e0 as [ser0|]; try contradiction.
    + destruct P0 as [Hm [K1 [K2 K3]]]. destruct (clear_refines c1 s1 q HI1 HR1) as [L1 [L2 L3]].
      simpl. destruct (remove c0' q 0 MaxInt32) as [c0'' r0'']. simpl in K1, K2, K3. subst r0''.
      destruct (remove c1 q 0 MaxInt32) as [c1'' r1'']. simpl in L1, L2, L3. simpl.
      split; [split; assumption|]. split; [split; assumption|exact Hm].
    + destruct P0 as [A0 B0].
      destruct (remove c1 q b e) as [c1' r1]. destruct (Spec.spec_remove s1 q b e) as [s1' e1]. simpl in P1.
      destruct r1 as [|er1| | |]; try contradiction; destruct e1 as [ser1|]; try contradiction.
      * destruct P1 as [Hm [K1 [K2 K3]]]. destruct (clear_refines c0' s0' q A0 B0) as [L1 [L2 L3]].
        simpl. destruct (remove c0' q 0 MaxInt32) as [c0'' r0'']. simpl in L1, L2, L3. subst r0''.
        destruct (remove c1' q 0 MaxInt32) as [c1'' r1'']. simpl in K1, K2, K3. simpl.
        split; [split; assumption|]. split; [split; assumption|exact Hm].
      * destruct P1 as [A1 B1]. simpl. split; [split; assumption|]. split; [split; assumption|exact I].
  - unfold wpstep, wstep, wspec_pstep. simpl.
    split; [split; assumption|]. split; [split; assumption|].
    rewrite (can_resume_correct c0 q p HI0), (can_resume_correct c1 q p HI1).
    rewrite (spec_can_resume_perm (abs c0) s0 q p (proj1 (R_seqv _ _) HR0)), (spec_can_resume_perm (abs c1) s1 q p (proj1 (R_seqv _ _) HR1)).
    reflexivity.
Qed.

Theorem wprun_refines : forall ops w ws, Inv2 w -> R2 w ws -> Forall op_ok ops ->
  Inv2 (wprun w ops) /\ R2 (wprun w ops) (wspec_prun ws ops).
Proof.
  induction ops as [|o t IH]; intros w ws HI HR Hok; simpl; auto.
  inversion Hok as [|? ? Ho Ht]; subst.
  destruct (wstep_refines w ws o HI HR Ho) as [HI' [HR' _]]. apply IH; assumption.
Qed.

(** a forward pass that both caches accept is StartForward + Put on each *)
Lemma wstep_forward_ok : forall fx c0 c1 batch w' f0 f1,
  wstep fx (c0, c1) (Forward batch) = (w', OFwd f0, OFwd f1) ->
  start_forward fx c0 batch = (fst w', OFwd f0) /\ start_forward fx c1 batch = (snd w', OFwd f1).
Proof.
  intros fx c0 c1 batch w' f0 f1 H. unfold wstep in H. rewrite !start_forward_eq.
  destruct (start_forward_meta fx c0 batch) as [c0' [g0| | | |]]; try (injection H; intros; discriminate).
  destruct (start_forward_meta fx c1 batch) as [c1' [g1| | | |]]; try (injection H; intros; discriminate).
  injection H as <- <- <-. split; reflexivity.
Qed.

Theorem wrapper_visible : forall c0 c1 s0 s1 batch w' f0 f1, Inv c0 -> Inv c1 -> R c0 s0 -> R c1 s1 -> valid_batch batch ->
  wstep true (c0, c1) (Forward batch) = (w', OFwd f0, OFwd f1) ->
  fst w' = fst (start_forward true c0 batch) /\ snd w' = fst (start_forward true c1 batch) /\
  fwd_vis_ok (fst w') batch f0 /\ fwd_vis_ok (snd w') batch f1.
Proof.
  intros c0 c1 s0 s1 batch w' f0 f1 HI0 HI1 _ _ Hvb H. destruct (wstep_forward_ok _ _ _ _ _ _ _ H) as [E0 E1].
  pose proof (forward_correct c0 batch HI0 Hvb) as [_ [_ F0]]. pose proof (forward_correct c1 batch HI1 Hvb) as [_ [_ F1]].
  rewrite E0 in F0 |- *. rewrite E1 in F1 |- *. simpl in *.
  destruct F0 as [[X _]|[f [X [_ V0]]]]; [discriminate|]. injection X as <-.
  destruct F1 as [[X _]|[f [X [_ V1]]]]; [discriminate|]. injection X as <-. auto.
Qed.

Lemma spec_unwind_fresh : forall batch s l B,
  Forall (fun a => Spec.live a = true) l ->
  (forall a, In a l -> Spec.a_pos a < MaxInt32) ->
  Forall (fun e : entry => 0 <= e_pos e < MaxInt32) batch ->
  (forall q p t a, In (q, p, t) batch -> In a l -> Spec.has q a = true -> Spec.a_pos a < p) ->
  (forall x, In x B -> exists e, In e batch /\ x = Spec.entry_cell e) ->
  Spec.s_cells (spec_unwind (Spec.with_cells s (l ++ B)) batch) = l.
Proof.
  induction batch as [|[[q p] t] r IH]; intros s l B Hlive Hpos Hval Hfresh HB; simpl.
  - destruct B as [|x B]; [apply app_nil_r|]. destruct (HB x (or_introl eq_refl)) as [e [[] _]].
  - inversion Hval as [|? ? Hp Hr]; subst. unfold e_pos in Hp. simpl in Hp.
    rewrite spec_remove_max.
    2:{ simpl. intros a Ha. apply in_app_or in Ha. destruct Ha as [Ha|Ha]; [auto|].
        destruct (HB a Ha) as [[[q' p'] t'] [Hin ->]]. simpl. rewrite Forall_forall in Hval. apply (Hval _ Hin). }
    simpl. rewrite map_app. unfold Spec.prune. rewrite filter_app.
    assert (Hl : filter Spec.live (map (Spec.rm_cell q p MaxInt32) l) = l).
    { clear IH HB. induction l as [|a l' IHl]; simpl; auto. inversion Hlive as [|? ? Ha Hl']; subst.
      assert (E : Spec.rm_cell q p MaxInt32 a = a).
      { unfold Spec.rm_cell. destruct (Spec.has q a) eqn:Hq; [|reflexivity].
        pose proof (Hfresh q p t a (or_introl eq_refl) (or_introl eq_refl) Hq) as Hlt.
        pose proof (Hpos a (or_introl eq_refl)) as Hm. unfold Spec.in_range.
        destruct (Z.leb_spec p (Spec.a_pos a)); [lia|]. simpl. destruct (Z.leb_spec MaxInt32 (Spec.a_pos a)); [lia|reflexivity]. }
      rewrite E, Ha. f_equal. apply IHl; auto.
      - intros a' Ha'. apply Hpos. right. exact Ha'.
      - intros q0 p0 t0 a0 Hi Ha0. apply (Hfresh q0 p0 t0 a0 Hi). right. exact Ha0. }
    rewrite Hl.
    apply (IH (Spec.with_cells s (l ++ B)) l (filter Spec.live (map (Spec.rm_cell q p MaxInt32) B))); auto.
    + intros q0 p0 t0 a Hi. apply (Hfresh q0 p0 t0 a). right. exact Hi.
    + intros x Hx. apply filter_In in Hx. destruct Hx as [Hx Hlx]. apply in_map_iff in Hx. destruct Hx as [y [<- Hy]].
      destruct (HB y Hy) as [[[q' p'] t'] [Hin ->]]. destruct Hin as [E|Hin].
      * (* the entry of this very token does not survive *)
        injection E as <- <- <-. exfalso. unfold Spec.rm_cell, Spec.entry_cell, Spec.has, Spec.in_range in Hlx. simpl in Hlx.
        rewrite Nat.eqb_refl in Hlx. simpl in Hlx. destruct (Z.leb_spec p p); [|lia].
        change Spec.MaxInt32 with MaxInt32 in *. destruct (Z.ltb_spec p MaxInt32); [|lia]. simpl in Hlx.
        unfold Spec.drop_seq, Spec.live in Hlx. simpl in Hlx. rewrite Nat.eqb_refl in Hlx. discriminate.
      * exists (q', p', t'). split; [exact Hin|].
        unfold Spec.rm_cell, Spec.entry_cell, Spec.has, Spec.in_range in *. simpl in *. rewrite orb_false_r in *.
        destruct (Nat.eqb_spec q q') as [->|Hne]; [|reflexivity].
        change Spec.MaxInt32 with MaxInt32 in *.
        destruct ((p <=? p') && (p' <? MaxInt32)) eqn:Er.
        -- exfalso. unfold Spec.drop_seq, Spec.live in Hlx. simpl in Hlx. rewrite Nat.eqb_refl in Hlx. discriminate.
        -- rewrite Forall_forall in Hr. specialize (Hr _ Hin). unfold e_pos in Hr. simpl in Hr.
           destruct (Z.leb_spec MaxInt32 p'); [lia|reflexivity].
Qed.

Lemma R_cells_facts : forall c s, Inv c -> R c s ->
  Forall (fun a => Spec.live a = true) (Spec.s_cells s) /\ (forall a, In a (Spec.s_cells s) -> 0 <= Spec.a_pos a < MaxInt32).
Proof.
  intros c s HI [HP _].
  assert (H : forall a, In a (abs_cells (cells c) (phys c)) -> Spec.live a = true /\ 0 <= Spec.a_pos a < MaxInt32).
  { intros a Ha. unfold abs_cells in Ha. apply in_map_iff in Ha. destruct Ha as [p [<- Hp]]. split.
    - rewrite live_spec. unfold live_pairs in Hp. apply filter_In in Hp. tauto.
    - pose proof (inv_data c HI) as HD. rewrite Forall_forall in HD. destruct (HD p Hp) as [x [_ [_ Hb]]]. exact Hb. }
  split.
  - apply Forall_forall. intros a Ha. apply (H a). eapply Permutation_in; [apply Permutation_sym; exact HP|exact Ha].
  - intros a Ha. apply (H a). eapply Permutation_in; [apply Permutation_sym; exact HP|exact Ha].
Qed.

Lemma evict_facts : forall w batch l a', In a' (Spec.evict w batch l) ->
  Spec.live a' = true \/ w = None /\ In a' l.
Proof.
  intros w batch l a' H. unfold Spec.evict in H. destruct w; [|right; auto]. left. unfold Spec.prune in H. apply filter_In in H. tauto.
Qed.

Lemma evict_origin : forall w batch l a', In a' (Spec.evict w batch l) ->
  exists a, In a l /\ Spec.a_pos a' = Spec.a_pos a /\ (forall q, Spec.has q a' = true -> Spec.has q a = true).
Proof.
  intros w batch l a' H. unfold Spec.evict in H. destruct w as [w|]; [|exists a'; auto].
  unfold Spec.prune in H. apply filter_In in H. destruct H as [H _]. apply in_map_iff in H. destruct H as [a [<- Ha]].
  exists a. split; [exact Ha|]. split; [reflexivity|]. intros q Hq. unfold Spec.evict_cell, Spec.has in *. simpl in Hq.
  apply existsb_exists in Hq. destruct Hq as [x [Hx Hxe]]. apply filter_In in Hx. apply existsb_exists. exists x. tauto.
Qed.

Lemma Inv_set_shift : forall c b, Inv c -> Inv (set_shift c b).
Proof. intros c b [A B C D E F]. constructor; assumption. Qed.


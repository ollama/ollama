(** KvCache/Properties_C06.v - theorems of property C06, "the KV cache exposes exactly the causal history of
    each sequence" (the lemmas behind the longer proofs are in KvCache/Proofs*.v).

    Model: KvCache/Model.v ([fx = true]: kvcache/causal.go with fixes/C06-defrag-merge.patch and
    fixes/C06-canresume-window.patch applied).  Specification: KvCache/Spec.v - a multiset of entries
    (position, token, owning sequences); sliding-window eviction is part of the specification.
    [prun] runs a history in which a failing Remove is followed by Remove(seq, 0, MaxInt32), as kvcache/cache.go
    prescribes.  [op_ok]: batches are non-empty with positions in [0, MaxInt32), Remove has 0 <= begin <= end. *)
From Coq Require Import List ZArith NArith Bool Arith Lia Permutation.
From V Require Import KvCache.Model KvCache.ProofsList KvCache.ProofsInv KvCache.ProofsDefrag KvCache.ProofsOps
  KvCache.ProofsFwd KvCache.ProofsRefine KvCache.ProofsWindow KvCache.ProofsWrapper KvCache.ProofsEnc KvCache.ProofsCausal.
From V Require KvCache.Spec.
Import ListNotations.
Open Scope Z_scope.

(** *** Refinement, over every operation history, capacity, padding and window.
    After ANY history of protocol-level operations starting from the state built by Init, the representation
    invariant holds (metadata and physical data agree: every live location holds the row stored for it, with
    the position baked into K equal to the position of the cell; every live cell lies inside the range recorded
    for each of its sequences) and the live entries are, as a multiset, those of the specification run on the
    same operations. *)
Theorem C06_refines : forall w ms cap mb cp bp sh ops,
  Z.of_nat (cache_size w ms cap mb (norm_pad cp)) < MaxInt ->
  Forall op_ok ops ->
  let c := prun (init w ms cap mb cp bp sh) ops in
  Inv c /\ R c (Spec.spec_prun (Spec.spec_init (cache_size w ms cap mb (norm_pad cp)) w sh) (map to_sop ops)).
Proof.
  intros w ms cap mb cp bp sh ops Hsz Hok. destruct (init_inv w ms cap mb cp bp sh Hsz) as [HI HR].
  apply prun_refines; assumption.
Qed.
Print Assumptions C06_refines.

(** every single operation commutes with its specification, results included (EFull / EShared / ENotSupported
    are reported exactly when the specification reports them; CanResume answers what the specification answers) *)
Theorem C06_step_refines : forall c s o, Inv c -> R c s -> op_ok o ->
  Inv (fst (pstep c o)) /\ R (fst (pstep c o)) (fst (Spec.spec_pstep s (to_sop o))) /\
  out_agree (snd (pstep c o)) (snd (Spec.spec_pstep s (to_sop o))).
Proof. exact step_refines. Qed.
Print Assumptions C06_step_refines.

(** *** The exposed history is exact.
    After a successful StartForward + Put, for every batch token i = (seq, pos, _): the (kpos, token) pairs
    read from the physical rows at the locations the mask leaves open - locations taken from the *padded*
    range - are, as a multiset, the specification's visible history of (seq, pos): the entries owned by seq
    with position <= pos and, when a window is configured, >= pos - window.  Nothing foreign, nothing removed,
    nothing later, nothing missing, and kpos = position on each of them. *)
Theorem C06_visible_exact : forall c s batch c' f, Inv c -> R c s -> valid_batch batch ->
  start_forward true c batch = (c', OFwd f) ->
  forall i e, nth_error batch i = Some e ->
  exists vis, nth_error (f_vis f) i = Some vis /\
    Permutation (map (kt (phys c')) vis) (Spec.visible_raw (fst (Spec.spec_forward s batch)) (e_seq e) (e_pos e)).
Proof.
  intros c s batch c' f HI HR Hvb Hsf. pose proof (forward_refines c s batch HI HR Hvb) as [_ [_ H]]. cbv zeta in H. rewrite Hsf in H.
  destruct H as [[H _]|[f' [H [_ V]]]]; [discriminate|]. injection H as <-. exact V.
Qed.
Print Assumptions C06_visible_exact.

(** what the specification's visible history is, spelled out *)
Theorem C06_visible_meaning : forall s q p x,
  In x (Spec.visible_raw s q p) <->
  exists a, In a (Spec.s_cells s) /\ Spec.has q a = true /\ Spec.a_pos a <= p /\
            match Spec.s_window s with Some w => p - w <= Spec.a_pos a | None => True end /\
            x = (Spec.a_pos a, Spec.a_tok a).
Proof.
  intros s q p x. unfold Spec.visible_raw, Spec.in_window. rewrite in_map_iff. split.
  - intros [a [Hx Ha]]. apply filter_In in Ha. destruct Ha as [Hin Hc]. apply andb_true_iff in Hc. destruct Hc as [H1 H2].
    apply andb_true_iff in H2. destruct H2 as [H2 H3]. exists a. repeat split; auto.
    + apply Z.leb_le. exact H2.
    + destruct (Spec.s_window s); [apply Z.leb_le; exact H3|exact I].
  - intros [a [Hin [H1 [H2 [H3 ->]]]]]. exists a. split; [reflexivity|]. apply filter_In. split; [exact Hin|].
    rewrite H1. simpl. apply andb_true_iff. split; [apply Z.leb_le; exact H2|].
    destruct (Spec.s_window s); [apply Z.leb_le; exact H3|reflexivity].
Qed.
Print Assumptions C06_visible_meaning.

(** *** A full cache is an error, nothing else.
    StartForward either places the batch or returns ErrKvCacheFull (it never panics in the repaired code), it
    returns ErrKvCacheFull exactly when fewer locations are free (after sliding-window eviction) than the batch
    needs, and then the live entries are exactly those before the call minus what the window evicted: no live
    entry was overwritten or altered (defragmentation may have moved them, rows included). *)
Theorem C06_full_is_error : forall c batch, Inv c -> valid_batch batch ->
  let r := start_forward true c batch in
  let kept := Spec.evict (window c) batch (abs_cells (cells c) (phys c)) in
  Inv (fst r) /\
  ((length (cells c) - length kept < length batch)%nat ->
     snd r = OErr EFull /\ Permutation (abs_cells (cells (fst r)) (phys (fst r))) kept) /\
  ((length batch <= length (cells c) - length kept)%nat -> exists f, snd r = OFwd f).
Proof.
  intros c batch HI Hvb. cbv zeta.
  pose proof (forward_correct c batch HI Hvb) as [HI' [[HP _] Hout]].
  assert (Hn : (1 <= length batch)%nat) by (destruct Hvb as [Hne _]; destruct batch; [congruence|simpl; lia]).
  unfold Spec.spec_forward, abs in HP, Hout. cbn [Spec.s_window Spec.s_cells Spec.s_cap] in HP, Hout.
  assert (Hmax : Nat.max 1 (@length Spec.entry batch) = length batch) by (apply Nat.max_r; exact Hn).
  rewrite Hmax in HP, Hout. split; [exact HI'|]. split.
  - intros Hlt. destruct (Nat.ltb_spec (length (cells c) - length (Spec.evict (window c) batch (abs_cells (cells c) (phys c)))) (length batch)); [|lia].
    simpl in HP, Hout. destruct Hout as [[Ho _]|[f [_ [Hc _]]]]; [|discriminate]. auto.
  - intros Hge. destruct (Nat.ltb_spec (length (cells c) - length (Spec.evict (window c) batch (abs_cells (cells c) (phys c)))) (length batch)); [lia|].
    simpl in Hout. destruct Hout as [[_ Hc]|[f [Ho _]]]; [discriminate|]. eauto.
Qed.
Print Assumptions C06_full_is_error.

(** *** Defragmentation (repaired) keeps every (cell, row) pair together and compacts the cache. *)
Theorem C06_defrag_repaired : forall c c', Inv c -> defrag true c = Some c' ->
  Inv c' /\ Permutation (live_pairs (cells c') (phys c')) (live_pairs (cells c) (phys c)) /\ compact (cells c').
Proof. intros c c' HI H. destruct (defrag_correct c c' HI H) as [A [B [C _]]]. auto. Qed.
Print Assumptions C06_defrag_repaired.

(** *** The defects of the code as found, as theorems about [fx = false]. *)

(** defrag as found: the full statement, its refutation, and the repaired statement is [C06_defrag_repaired] *)
Definition C06_defrag_as_found_full : Prop :=
  forall c c', Inv c -> defrag false c = Some c' -> Inv c'.
Theorem C06_defrag_as_found_refuted : ~ C06_defrag_as_found_full.
Proof.
  (* a state the operations reach: two batches stored, the first removed - two holes at the front, two live cells at the
     back.  The merged move assigns the cell of location 3 to location 0 and the cell of location 2 to location 1, then
     copies rows 2,3 to 0,1 in that order. *)
  intros H.
  set (ops := [Forward [(0%nat, 0, 1%N); (0%nat, 1, 2%N)]; Forward [(0%nat, 2, 10%N); (0%nat, 3, 11%N)]; Remove 0 0 2]).
  pose proof (C06_refines None 1 4 2 1 1 true ops) as HR. cbv zeta in HR. destruct HR as [HI _]; [vm_compute; reflexivity| |].
  { repeat constructor; try discriminate; unfold e_pos, MaxInt32; simpl; lia. }
  destruct (defrag false (prun (init None 1 4 2 1 1 true) ops)) as [c'|] eqn:E; [|vm_compute in E; discriminate].
  pose proof (inv_data _ (H _ _ HI E)) as Hd. vm_compute in E. injection E as <-. unfold live_pairs in Hd. simpl in Hd.
  inversion Hd as [|? ? Hg _]. destruct Hg as [y [E1 [E2 _]]]. simpl in *. injection E1 as <-. simpl in E2. discriminate.
Qed.
Print Assumptions C06_defrag_as_found_refuted.

(** defrag as found divides by the number of layers: a forward pass into a cache without storage that does not
    fit panics instead of reporting ErrKvCacheFull *)
Theorem C06_defrag_as_found_panics : exists c batch, Inv c /\ valid_batch batch /\ snd (start_forward false c batch) = OPanic.
Proof.
  exists (init None 1 3 4 1 1 true), [(0%nat, 0, 1%N); (0%nat, 1, 2%N); (0%nat, 2, 3%N); (0%nat, 3, 4%N)].
  split; [|split].
  - apply init_inv. vm_compute. reflexivity.
  - split; [discriminate|]. repeat constructor; unfold e_pos, MaxInt32; simpl; lia.
  - vm_compute. reflexivity.
Qed.
Print Assumptions C06_defrag_as_found_panics.

(** CanResume: the repaired check guarantees that the window of the resumed position is completely present
    (positions of a sequence being distinct, as the runner guarantees); the check as found does not *)
Theorem C06_can_resume_sound : forall c q p w, Inv c -> window c = Some w ->
  NoDup (map c_pos (filter (has q) (cells c))) ->
  can_resume true c q p = true ->
  forall x, Z.max 0 (p - w) <= x < p -> exists cl, In cl (cells c) /\ has q cl = true /\ c_pos cl = x.
Proof.
  intros c q p w HI Hw Hnd Hcr x Hx. unfold can_resume in Hcr. rewrite Hw in Hcr.
  destruct (lookup (ranges c) q) as [r|] eqn:Hr; [|discriminate].
  destruct (last_in (cells c) r q =? -1); [discriminate|].
  destruct (Z.max 0 (p - w) <? Z.max 0 (last_in (cells c) r q - w)); [discriminate|].
  apply Z.eqb_eq in Hcr. rewrite (count_in_metas c q r _ _ HI Hr) in Hcr.
  (* as many distinct positions of the sequence in the window as the window is long *)
  destruct (all_present _ c_pos (filter (has q) (cells c)) (Z.max 0 (p - w)) p Hnd) with (y := x) as [cl [Hin Hp]].
  - rewrite <- Hcr, filter_filter. do 2 f_equal. apply filter_ext_in. intros; apply andb_assoc.
  - exact Hx.
  - apply filter_In in Hin. exists cl. tauto.
Qed.
Print Assumptions C06_can_resume_sound.

Definition C06_can_resume_as_found_full : Prop :=
  forall c q p w, Inv c -> window c = Some w -> NoDup (map c_pos (filter (has q) (cells c))) ->
  can_resume false c q p = true ->
  forall x, Z.max 0 (p - w) <= x < p -> exists cl, In cl (cells c) /\ has q cl = true /\ c_pos cl = x.
Theorem C06_can_resume_as_found_refuted : ~ C06_can_resume_as_found_full.
Proof.
  (* one entry at position 5 is all there is of the window of position 6 (window 3), and CanResume(6) still says yes *)
  intros H. set (ops := [Forward [(0%nat, 5, 1%N)]]).
  pose proof (C06_refines (Some 3) 1 2 1 1 1 true ops) as HR. cbv zeta in HR. destruct HR as [HI _]; [vm_compute; reflexivity| |].
  { repeat constructor; try discriminate; unfold e_pos, MaxInt32; simpl; lia. }
  destruct (H _ 0%nat 6 3 HI) with (x := 3) as [cl [Hin [_ Hp]]].
  - vm_compute. reflexivity.
  - vm_compute. repeat constructor. intros [].
  - vm_compute. reflexivity.
  - lia.
  - vm_compute in Hin. destruct Hin as [<-|[<-|[]]]; simpl in Hp; discriminate.
Qed.
Print Assumptions C06_can_resume_as_found_refuted.

(** *** The specification against the ideal history that never forgets (KvCache/ProofsWindow.v).
    [grun] runs the specification together with the ideal per-sequence histories [g_A] (store / copy of the prefix /
    removal with shift, by the meaning of the operations alone) and the ghost [g_M] of what the window evicted.
    [sop_ok]: valid positions, 0 <= begin <= end, CopyPrefix between different sequences. *)

(** after every history, for every sequence and position: ideal window = what the specification exposes ++ what was
    evicted inside that window *)
Theorem C06_window_ideal : forall cap w sh ops q p, Forall sop_ok ops ->
  let g := grun (ginit (Spec.spec_init cap w sh)) ops in
  Permutation (filter (inw w p) (g_A g q)) (Spec.visible_raw (g_s g) q p ++ filter (inw w p) (g_M g q)).
Proof.
  intros cap w sh ops q p Hok. cbv zeta.
  pose proof (grun_inv ops _ (ginit_inv cap w sh) Hok) as HG.
  pose proof (visible_ideal _ q p HG) as H. rewrite window_grun in H. exact H.
Qed.
Print Assumptions C06_window_ideal.

(** caches without a window: the exposed history is the ideal history, for every history whatsoever *)
Theorem C06_complete_no_window : forall cap sh ops q p, Forall sop_ok ops ->
  let g := grun (ginit (Spec.spec_init cap None sh)) ops in
  Permutation (filter (inw None p) (g_A g q)) (Spec.visible_raw (g_s g) q p).
Proof.
  intros cap sh ops q p Hok. cbv zeta. pose proof (C06_window_ideal cap None sh ops q p Hok) as H. cbv zeta in H.
  rewrite (no_window_no_eviction ops (ginit (Spec.spec_init cap None sh)) eq_refl (fun _ => eq_refl) q) in H.
  simpl in H. rewrite app_nil_r in H. exact H.
Qed.
Print Assumptions C06_complete_no_window.

(** sliding-window caches.  Full statement: after any history of valid operations, the tokens of a batch that continues
    each of its sequences where it ends see their complete ideal window.  It is FALSE: Remove of a middle range shifts
    the tail down, and the window of the next token reaches entries that were evicted (the known finding
    C06-swa-middle-remove, the TODO in kvcache/causal.go Remove). *)
Definition C06_window_complete_full : Prop :=
  forall cap w sh ops batch, Forall sop_ok ops -> sop_ok (Spec.SForward batch) ->
  let g0 := grun (ginit (Spec.spec_init cap (Some w) sh)) ops in
  contiguous_batch (g_A g0) batch ->
  let g := gstep g0 (Spec.SForward batch) in
  forall q p t, In (q, p, t) batch -> Permutation (filter (inw (Some w) p) (g_A g q)) (Spec.visible_raw (g_s g) q p).

Theorem C06_window_complete_refuted : ~ C06_window_complete_full.
Proof.
  intros H.
  specialize (H 12%nat 3 true
    [Spec.SForward [(0%nat, 0, 1%N); (0%nat, 1, 2%N); (0%nat, 2, 3%N); (0%nat, 3, 4%N)];
     Spec.SForward [(0%nat, 4, 5%N); (0%nat, 5, 6%N); (0%nat, 6, 7%N); (0%nat, 7, 8%N)];
     Spec.SRemove 0%nat 2 7]
    [(0%nat, 3, 20%N)]).
  cbv zeta in H.
  assert (Hp := fun a b c => H a b c 0%nat 3 20%N (or_introl eq_refl)). clear H.
  assert (HP : forall X Y : list (Z * N), (Permutation X Y) -> length X = length Y) by (intros; apply Permutation_length; assumption).
  eapply HP in Hp.
  - vm_compute in Hp. discriminate.
  - repeat constructor; unfold Spec.MaxInt32; simpl; lia.
  - repeat constructor; unfold Spec.MaxInt32; simpl; lia.
  - intros q L HL. simpl in HL. destruct q as [|q]; [|discriminate].
    injection HL as <-. vm_compute. reflexivity.
Qed.
Print Assumptions C06_window_complete_refuted.

(** the strongest partial statement, with the decidable guard that excludes exactly the failing class: a token sees its
    complete ideal window IF AND ONLY IF nothing the window evicted lies inside that window *)
Theorem C06_window_complete_partial : forall cap w sh ops q p, Forall sop_ok ops ->
  let g := grun (ginit (Spec.spec_init cap w sh)) ops in
  (filter (inw w p) (g_M g q) = [] <->
   Permutation (filter (inw w p) (g_A g q)) (Spec.visible_raw (g_s g) q p)).
Proof.
  intros cap w sh ops q p Hok. cbv zeta.
  pose proof (grun_inv ops _ (ginit_inv cap w sh) Hok) as HG.
  pose proof (complete_iff _ q p HG) as H. rewrite window_grun in H. exact H.
Qed.
Print Assumptions C06_window_complete_partial.

(** and the guard holds for the protocol "store where the sequence ends, or clear the sequence" (no CopyPrefix, no
    Remove other than Remove(seq, 0, MaxInt32)): every token of every batch of such a run sees its complete ideal window,
    whether or not intermediate batches were refused with ErrKvCacheFull *)
Theorem C06_window_complete_appends : forall cap w sh ops pre batch post,
  append_run (ginit (Spec.spec_init cap (Some w) sh)) ops -> ops = pre ++ Spec.SForward batch :: post ->
  forall q p t, In (q, p, t) batch ->
  let g := grun (ginit (Spec.spec_init cap (Some w) sh)) (pre ++ [Spec.SForward batch]) in
  Permutation (filter (inw (Some w) p) (g_A g q)) (Spec.visible_raw (g_s g) q p).
Proof.
  intros cap w sh ops pre batch post Hrun Heq q p t Hin.
  apply (append_run_complete ops w (ginit (Spec.spec_init cap (Some w) sh)) (ginit_inv cap (Some w) sh) eq_refl) with (post := post) (t := t); auto.
  intros q' x Hx. simpl in Hx. contradiction.
Qed.
Print Assumptions C06_window_complete_appends.

(** the complete caller protocol of sliding-window caches, truncate-and-resume included: store where the sequence ends;
    clear; or, after CanResume(seq, b) answered true, Remove(seq, b, MaxInt32) and continue at b ([proto_run]; batches store
    each position of a sequence once).  Every token of every batch of such a run sees its complete ideal window. *)
Theorem C06_window_complete_protocol : forall cap w sh ops pre batch post, 0 <= w ->
  proto_run (ginit (Spec.spec_init cap (Some w) sh)) ops -> ops = pre ++ Spec.SForward batch :: post ->
  forall q p t, In (q, p, t) batch ->
  let g := grun (ginit (Spec.spec_init cap (Some w) sh)) (pre ++ [Spec.SForward batch]) in
  Permutation (filter (inw (Some w) p) (g_A g q)) (Spec.visible_raw (g_s g) q p).
Proof.
  intros cap w sh ops pre batch post Hw Hrun Heq q p t Hin.
  apply (proto_run_complete ops w (ginit (Spec.spec_init cap (Some w) sh)) (ginit_inv cap (Some w) sh) eq_refl Hw)
    with (post := post) (t := t); auto.
  - intros q' x Hx. simpl in Hx. contradiction.
  - intros q'. simpl. constructor.
Qed.
Print Assumptions C06_window_complete_protocol.

(** end to end: what the MODEL exposes for a batch token, together with what the window evicted inside the token's
    window, is the token's ideal window *)
Theorem C06_exposed_is_ideal : forall w ms cap mb cp bp sh ops batch c' f,
  Z.of_nat (cache_size w ms cap mb (norm_pad cp)) < MaxInt ->
  Forall op_ok ops -> Forall sop_ok (map to_sop ops) -> valid_batch batch ->
  start_forward true (prun (init w ms cap mb cp bp sh) ops) batch = (c', OFwd f) ->
  let g := gstep (grun (ginit (Spec.spec_init (cache_size w ms cap mb (norm_pad cp)) w sh)) (map to_sop ops)) (Spec.SForward batch) in
  forall i e, nth_error batch i = Some e ->
  exists vis, nth_error (f_vis f) i = Some vis /\
    Permutation (map (kt (phys c')) vis ++ filter (inw w (e_pos e)) (g_M g (e_seq e)))
                (filter (inw w (e_pos e)) (g_A g (e_seq e))).
Proof.
  intros w ms cap mb cp bp sh ops batch c' f Hsz Hok Hsok Hvb Hsf g i e He.
  destruct (C06_refines w ms cap mb cp bp sh ops Hsz Hok) as [HI HR].
  destruct (C06_visible_exact _ _ batch c' f HI HR Hvb Hsf i e He) as [vis [Hn Hp]].
  exists vis. split; [exact Hn|].
  set (s0 := Spec.spec_init (cache_size w ms cap mb (norm_pad cp)) w sh) in *.
  assert (HG : GI g).
  { unfold g. apply gstep_inv; [apply grun_inv; [apply ginit_inv|exact Hsok]|]. destruct Hvb as [_ Hv]. exact Hv. }
  assert (Hgs : g_s g = fst (Spec.spec_forward (Spec.spec_prun s0 (map to_sop ops)) batch)).
  { unfold g. simpl. rewrite g_s_grun. simpl. destruct (Spec.spec_forward (Spec.spec_prun s0 (map to_sop ops)) batch). reflexivity. }
  assert (Hw : Spec.s_window (g_s g) = w).
  { pose proof (window_grun (map to_sop ops ++ [Spec.SForward batch]) (ginit s0)) as H.
    unfold grun in H. rewrite fold_left_app in H. simpl in H. exact H. }
  pose proof (visible_ideal g (e_seq e) (e_pos e) HG) as HV. rewrite Hw, Hgs in HV.
  apply Permutation_sym. eapply Permutation_trans; [exact HV|]. apply Permutation_app_tail. apply Permutation_sym. exact Hp.
Qed.
Print Assumptions C06_exposed_is_ideal.

(** *** WrapperCache (kvcache/wrapper.go) over two Causal caches with their own windows (gemma-style: sliding window +
    plain).  The state is the pair; the specification is the pair of specifications, with StartForward unwinding the first
    cache by Remove(seq_k, pos_k, MaxInt32) when the second refuses the batch, Remove stopping at the first failing cache and
    the prescribed Remove(seq, 0, MaxInt32) clearing both ([wpstep] / [wspec_pstep], KvCache/ProofsWrapper.v). *)
Theorem C06_wrapper_refines : forall w0 w1 ms cap mb cp bp sh ops,
  Z.of_nat (cache_size w0 ms cap mb (norm_pad cp)) < MaxInt -> Z.of_nat (cache_size w1 ms cap mb (norm_pad cp)) < MaxInt ->
  Forall op_ok ops ->
  let w := wprun (init w0 ms cap mb cp bp sh, init w1 ms cap mb cp bp sh) ops in
  Inv2 w /\
  R2 w (wspec_prun (Spec.spec_init (cache_size w0 ms cap mb (norm_pad cp)) w0 sh,
                    Spec.spec_init (cache_size w1 ms cap mb (norm_pad cp)) w1 sh) ops).
Proof.
  intros w0 w1 ms cap mb cp bp sh ops H0 H1 Hok. cbv zeta.
  destruct (init_inv w0 ms cap mb cp bp sh H0) as [I0 R0]. destruct (init_inv w1 ms cap mb cp bp sh H1) as [I1 R1].
  apply wprun_refines; [split; assumption|split; assumption|exact Hok].
Qed.
Print Assumptions C06_wrapper_refines.

Theorem C06_wrapper_step_refines : forall w ws o, Inv2 w -> R2 w ws -> op_ok o ->
  Inv2 (fst (wpstep w o)) /\ R2 (fst (wpstep w o)) (fst (wspec_pstep ws o)) /\
  out_agree (snd (wpstep w o)) (snd (wspec_pstep ws o)).
Proof. exact wstep_refines. Qed.
Print Assumptions C06_wrapper_step_refines.

(** each layer type sees exactly the visible history of its own cache's specification *)
Theorem C06_wrapper_visible_exact : forall c0 c1 s0 s1 batch w' f0 f1,
  Inv c0 -> Inv c1 -> R c0 s0 -> R c1 s1 -> valid_batch batch ->
  wstep true (c0, c1) (Forward batch) = (w', OFwd f0, OFwd f1) ->
  forall i e, nth_error batch i = Some e ->
  (exists vis, nth_error (f_vis f0) i = Some vis /\
     Permutation (map (kt (phys (fst w'))) vis) (Spec.visible_raw (fst (Spec.spec_forward s0 batch)) (e_seq e) (e_pos e))) /\
  (exists vis, nth_error (f_vis f1) i = Some vis /\
     Permutation (map (kt (phys (snd w'))) vis) (Spec.visible_raw (fst (Spec.spec_forward s1 batch)) (e_seq e) (e_pos e))).
Proof.
  intros c0 c1 s0 s1 batch w' f0 f1 HI0 HI1 HR0 HR1 Hvb H i e He. destruct (wstep_forward_ok _ _ _ _ _ _ _ H) as [E0 E1].
  split; [exact (C06_visible_exact c0 s0 batch _ f0 HI0 HR0 Hvb E0 i e He)|exact (C06_visible_exact c1 s1 batch _ f1 HI1 HR1 Hvb E1 i e He)].
Qed.
Print Assumptions C06_wrapper_visible_exact.

(** a forward pass refused by the wrapper (either cache full), the batch continuing its sequences: both caches keep the
    invariant and hold exactly what they held before minus what their own window evicted - the unwind removes the batch
    from the first cache and nothing else *)
Theorem C06_wrapper_full_is_error : forall c0 c1 s0 s1 batch,
  Inv c0 -> Inv c1 -> R c0 s0 -> R c1 s1 -> valid_batch batch ->
  (forall q p t a, In (q, p, t) batch -> In a (Spec.s_cells s0) -> Spec.has q a = true -> Spec.a_pos a < p) ->
  snd (wpstep (c0, c1) (Forward batch)) = OErr EFull ->
  let w' := fst (wpstep (c0, c1) (Forward batch)) in
  Inv2 w' /\
  exists s0' s1', R (fst w') s0' /\ R (snd w') s1' /\
    Spec.s_cells s0' = Spec.evict (Spec.s_window s0) batch (Spec.s_cells s0) /\
    (s1' = s1 \/ Spec.s_cells s1' = Spec.evict (Spec.s_window s1) batch (Spec.s_cells s1)).
Proof.
  intros c0 c1 s0 s1 batch HI0 HI1 HR0 HR1 Hvb Hfresh Hout. cbv zeta.
  destruct (wstep_refines (c0, c1) (s0, s1) (Forward batch) (conj HI0 HI1) (conj HR0 HR1) Hvb) as [HI' [[HRa HRb] Hag]].
  split; [exact HI'|]. rewrite Hout in Hag. simpl in HRa, HRb, Hag.
  unfold wspec_forward in HRa, HRb, Hag. unfold Spec.spec_forward in HRa, HRb, Hag.
  set (l0 := Spec.evict (Spec.s_window s0) batch (Spec.s_cells s0)) in *.
  set (l1 := Spec.evict (Spec.s_window s1) batch (Spec.s_cells s1)) in *.
  destruct (_ <? _)%nat in HRa, HRb, Hag.
  - simpl in *. exists (Spec.with_cells s0 l0), s1. auto.
  - destruct (_ <? _)%nat in HRa, HRb, Hag; simpl in *; [|contradiction].
    eexists. exists (Spec.with_cells s1 l1). split; [exact HRa|]. split; [exact HRb|]. split; [|right; reflexivity].
    destruct (R_cells_facts c0 s0 HI0 HR0) as [Hlive Hpos]. destruct Hvb as [_ Hval].
    apply spec_unwind_fresh; auto.
    + apply Forall_forall. intros a' Ha'. destruct (evict_facts _ _ _ _ Ha') as [H|[_ H]]; [exact H|].
      rewrite Forall_forall in Hlive. auto.
    + intros a' Ha'. destruct (evict_origin _ _ _ _ Ha') as [a [Ha [Hp _]]]. rewrite Hp. apply Hpos. exact Ha.
    + intros q p t a' Hin Ha' Hq. destruct (evict_origin _ _ _ _ Ha') as [a [Ha [Hp Hh]]]. rewrite Hp.
      apply (Hfresh q p t a Hin Ha). apply Hh. exact Hq.
    + intros x Hx. apply in_map_iff in Hx. destruct Hx as [e [<- He]]. exists e. auto.
Qed.
Print Assumptions C06_wrapper_full_is_error.

(** *** SetCausal (CausalOptions.Except, gemma3 image batches).  Inside a pass, after any sequence of SetCausal calls (each
    with a context) the mask Get returns is the one of the exemption list given LAST: a token that is not exempt has exactly
    its causal row - the row StartForward built, to which [C06_visible_exact] applies - and after a reset to the empty list the
    whole mask is the causal mask again, whatever was exempt before.  Across passes nothing is carried: StartForward
    ([start_forward], whose mask [C06_visible_exact] describes) does not depend on earlier SetCausal calls. *)
Theorem C06_set_causal_exact : forall c pr batch calls,
  let ps := run_calls c pr batch (mkPass [] (causal_rows c pr batch)) calls in
  p_vis ps = rows_ex c pr batch (last calls []) /\
  (forall i q p t, nth_error batch i = Some (q, p, t) -> existsb (Nat.eqb i) (last calls []) = false ->
     nth_error (p_vis ps) i = Some (mask_row (window c) (cells c) pr q p)) /\
  (last calls [] = [] -> p_vis ps = causal_rows c pr batch).
Proof.
  intros c pr batch calls. cbv zeta.
  assert (H0 : pass_ok c pr batch (mkPass [] (causal_rows c pr batch))) by (unfold pass_ok; simpl; symmetry; apply rows_ex_nil).
  destruct (set_causal_run calls c pr batch _ H0) as [H1 H2]. simpl in H2. unfold pass_ok in H1. rewrite H2 in H1.
  split; [exact H1|]. split.
  - intros i q p t Hn He. rewrite H1. eapply rows_ex_not_exempt; eauto.
  - intros E. rewrite H1, E. apply rows_ex_nil.
Qed.
Print Assumptions C06_set_causal_exact.

(** *** Backend faults.  The only error-returning backend calls inside the cache are the mask upload in StartForward and,
    in Remove's shift, the upload of the offsets and the model's shift function ([start_forward_fault], [remove_fault]:
    the state the code leaves - nothing is rolled back).  After the recovery the code base itself uses for a partly performed
    StartForward (WrapperCache: Remove(seq_k, pos_k, MaxInt32) for every batch entry), resp. the clearing that kvcache/cache.go
    prescribes after a failed Remove, the cache satisfies the invariant again and holds exactly the specified entries - so by
    [C06_visible_exact] every later visible history is exact. *)
Theorem C06_fault_forward_recovers : forall c s batch c', Inv c -> R c s -> valid_batch batch ->
  start_forward_fault true c batch = (c', OErr EBackend) ->
  Inv (unwind c' batch) /\ R (unwind c' batch) (spec_unwind (fst (Spec.spec_forward s batch)) batch).
Proof.
  intros c s batch c' HI HR Hvb H. unfold start_forward_fault in H.
  destruct (start_forward_meta true c batch) as [c1 r] eqn:E.
  destruct (forward_meta_out c batch HI Hvb) as [Hr|[f Hr]]; rewrite E in Hr; simpl in Hr; subst r.
  - discriminate.
  - injection H as <-. apply (unwind_after_forward c s batch c1 f HI HR Hvb E).
Qed.
Print Assumptions C06_fault_forward_recovers.

Theorem C06_fault_remove_recovers : forall c s q b e c', Inv c -> R c s -> 0 <= b <= e ->
  remove_fault c q b e = (c', OErr EBackend) ->
  snd (remove c' q 0 MaxInt32) = OOk /\ Inv (fst (remove c' q 0 MaxInt32)) /\ R (fst (remove c' q 0 MaxInt32)) (sclear s q).
Proof.
  (* the fault leaves what a Remove without shift function leaves, except that the shift function is still there *)
  intros c s q b e c' HI HR Hbe H. unfold remove_fault in H.
  destruct (remove (set_shift c false) q b e) as [c1 r] eqn:E. injection H as <- Hr.
  destruct r as [f|er| |bb|]; try discriminate.
  destruct (remove_err _ q b e c1 er (Inv_set_shift c false HI) Hbe E) as [_ [H1 [H2 [H3 [_ [H5 H6]]]]]].
  apply (clear_half_removed c _ s q HI HR). unfold half_removed. simpl. auto 10.
Qed.
Print Assumptions C06_fault_remove_recovers.

(** *** EncoderCache (kvcache/encoder.go, with fixes/C06-encoder-shift.patch).  Its one entry (the K/V of the most recent
    image, per cross-attention layer) is exposed - EncoderCached() true and Get returning it - exactly as long as the
    position it was stored for is part of the sequence; positions are followed through the shifts of Remove.  Histories:
    forward passes with an image (StartForward with its index, Put on every layer, Compute), without, reservation passes
    (never computed), Remove.  [pe_ok]: multimodal indices lie inside the batch. *)
Theorem C06_encoder_exact : forall layers ops, layers <> [] -> Forall pe_ok ops ->
  exists e, perun true layers enc_init ops = Some e /\
    match ideal_run None ops with
    | None => e_cached e = false
    | Some (p, img) => e_cached e = true /\ Model.e_pos e = p /\ forall l, In l layers -> lookupN (e_data e) l = Some img
    end.
Proof.
  intros layers ops Hl Hok. destruct (enc_refines layers ops enc_init None Hl (EI_init layers) Hok) as [e [He [_ HE]]].
  exists e. auto.
Qed.
Print Assumptions C06_encoder_exact.

(** WrapperCache(EncoderCache, Causal) as mllama builds it ([ewstep]): a pass with an image / without / a Remove drives the
    encoder component through exactly the protocol operations of [C06_encoder_exact] and the Causal component through
    StartForward+Put / Remove (so [C06_step_refines] applies to it); a refused pass whose batch lies behind the image leaves the
    encoder entry as it was *)
Theorem C06_encwrap_components : forall e c,
  (forall batch a id e' c' f, ewstep true (e, c) (EWForward batch (Some (a, id))) = Some ((e', c'), OFwd f) ->
     erun true e (expand [0%nat] (PStore (map (fun x : entry => snd (fst x)) batch) a id)) = Some e' /\ start_forward true c batch = (c', OFwd f)) /\
  (forall batch e' c' f, ewstep true (e, c) (EWForward batch None) = Some ((e', c'), OFwd f) ->
     erun true e (expand [0%nat] (PText (map (fun x : entry => snd (fst x)) batch))) = Some e' /\ start_forward true c batch = (c', OFwd f)) /\
  (forall q b en e' c' r, ewstep true (e, c) (EWRemove q b en) = Some ((e', c'), r) ->
     erun true e (expand [0%nat] (PRemove b en)) = Some e' /\ remove c q b en = (c', r)) /\
  (forall batch img e' c' er, ewstep true (e, c) (EWForward batch img) = Some ((e', c'), OErr er) ->
     (forall q p t, In (q, p, t) batch -> Model.e_pos e < p) ->
     e_cached e' = e_cached e /\ Model.e_pos e' = Model.e_pos e /\ e_data e' = e_data e /\ start_forward true c batch = (c', OErr er)).
Proof.
  intros e c. split; [|split; [|split]].
  - intros batch a id e' c' f H. unfold ewstep in H.
    destruct (enc_start e (map (fun x : entry => snd (fst x)) batch) [a] false) as [e1|] eqn:E1; [|discriminate].
    destruct (start_forward true c batch) as [c2 r] eqn:E2. destruct r; try discriminate. injection H as <- <- <-.
    split; [|reflexivity]. cbn [expand map app erun estep]. rewrite E1. reflexivity.
  - intros batch e' c' f H. unfold ewstep in H.
    destruct (enc_start e (map (fun x : entry => snd (fst x)) batch) [] false) as [e1|] eqn:E1; [|discriminate].
    destruct (start_forward true c batch) as [c2 r] eqn:E2. destruct r; try discriminate. injection H as <- <- <-.
    split; [|reflexivity]. cbn [expand erun estep]. rewrite E1. reflexivity.
  - intros q b en e' c' r H. unfold ewstep in H. destruct (remove c q b en) as [c2 r2]. injection H as <- <- <-. split; reflexivity.
  - intros batch img e' c' er H Hf. unfold ewstep in H.
    destruct (enc_start e (map (fun x : entry => snd (fst x)) batch) (match img with Some (at_, _) => [at_] | None => [] end) false) as [e1|] eqn:E1; [|discriminate].
    destruct (start_forward true c batch) as [c2 r] eqn:E2. destruct r; try discriminate.
    injection H as <- <- <-.
    assert (H1 : e_cached e1 = e_cached e /\ Model.e_pos e1 = Model.e_pos e /\ e_data e1 = e_data e).
    { unfold enc_start in E1. destruct img as [[a i]|]; [destruct (nth_error _ _) in E1; [|discriminate]|]; injection E1 as <-; auto. }
    destruct H1 as [A [B C]]. rewrite enc_unwind_fresh by (intros; rewrite B; eapply Hf; eauto). auto.
Qed.
Print Assumptions C06_encwrap_components.

Definition C06_encoder_as_found_full : Prop :=
  forall layers ops e', layers <> [] -> Forall pe_ok ops ->
  perun false layers enc_init ops = Some e' -> EI layers e' (ideal_run None ops).
Theorem C06_encoder_as_found_refuted : ~ C06_encoder_as_found_full.
Proof.
  intros H.
  (* image stored at position 1 of [0;1;2]; Remove(0,1) twice removes first the token before the image, then the image
     itself - and the cache still claims to hold it *)
  specialize (H [0%nat] [PStore [0; 1; 2] 1 7%N; PRemove 0 1; PRemove 0 1] _ ltac:(discriminate)
                ltac:(repeat constructor; simpl; discriminate) eq_refl).
  destruct H as [_ H]. vm_compute in H. discriminate.
Qed.
Print Assumptions C06_encoder_as_found_refuted.

(** *** Non-vacuity: a concrete history (store, copy the prefix, diverge, remove a middle range with shift, clear a
    sequence, store a batch that only fits after defragmentation) satisfies the hypotheses; the cache (6 locations)
    ends up defragmented and the visible history of the last token is the expected one *)
Example C06_example_history :
  let ops := [Forward [(0%nat, 0, 1%N); (0%nat, 1, 2%N); (0%nat, 2, 3%N)];
              Copy 0 1 2;
              Forward [(1%nat, 2, 4%N)];
              Remove 0 1 2;
              Forward [(0%nat, 2, 5%N); (1%nat, 3, 6%N)];
              Remove 1 0 MaxInt32;
              Forward [(0%nat, 3, 7%N); (0%nat, 4, 8%N); (0%nat, 5, 9%N)]] in
  Forall op_ok ops /\
  Z.of_nat (cache_size None 2 3 3 (norm_pad 1)) < MaxInt /\
  let c := prun (init None 2 3 3 1 1 true) ops in
  Spec.visible (Spec.spec_prun (Spec.spec_init 6 None true) (map to_sop ops)) 0%nat 5 =
    [(0, 1%N); (1, 3%N); (2, 5%N); (3, 7%N); (4, 8%N); (5, 9%N)] /\
  map (fun cl => (c_pos cl, c_seqs cl)) (cells c) =
    [(0, [0%nat]); (2, [0%nat]); (1, [0%nat]); (3, [0%nat]); (4, [0%nat]); (5, [0%nat])] /\
  map (kt (phys c)) [0; 1; 2; 3; 4; 5]%nat = [(0, 1%N); (2, 5%N); (1, 3%N); (3, 7%N); (4, 8%N); (5, 9%N)].
Proof.
  cbv zeta. split; [|split].
  - repeat constructor; unfold valid_batch, e_pos, MaxInt32; simpl; try (intro; discriminate); try lia;
      repeat constructor; simpl; lia.
  - vm_compute. reflexivity.
  - vm_compute. repeat split; reflexivity.
Qed.

(** the hypotheses of [C06_can_resume_sound] are satisfiable with a positive answer *)
Example C06_example_resume :
  let c := prun (init (Some 2) 1 8 4 1 1 true)
             [Forward [(0%nat, 0, 1%N); (0%nat, 1, 2%N); (0%nat, 2, 3%N)]; Forward [(0%nat, 3, 4%N)]; Forward [(0%nat, 4, 5%N)]] in
  window c = Some 2 /\ NoDup (map c_pos (filter (has 0%nat) (cells c))) /\ can_resume true c 0%nat 4 = true /\
  can_resume true c 0%nat 3 = false.
Proof.
  cbv zeta. vm_compute. repeat split; try reflexivity. repeat constructor; simpl; intuition discriminate.
Qed.

(** the guard of [C06_window_complete_partial] holds in a run in which the window did evict entries, and the protocol
    of [C06_window_complete_appends] is satisfiable by such a run *)
Example C06_example_window :
  let ops := [Spec.SForward [(0%nat, 0, 1%N); (0%nat, 1, 2%N); (0%nat, 2, 3%N); (0%nat, 3, 4%N)];
              Spec.SForward [(0%nat, 4, 5%N); (0%nat, 5, 6%N); (0%nat, 6, 7%N); (0%nat, 7, 8%N)];
              Spec.SForward [(0%nat, 8, 9%N)]] in
  let g := grun (ginit (Spec.spec_init 12 (Some 3) true)) ops in
  Forall sop_ok ops /\ append_run (ginit (Spec.spec_init 12 (Some 3) true)) ops /\
  g_M g 0%nat = [(0, 1%N); (1, 2%N); (2, 3%N); (3, 4%N); (4, 5%N)] /\ filter (inw (Some 3) 8) (g_M g 0%nat) = [] /\
  Spec.visible_raw (g_s g) 0%nat 8 = [(5, 6%N); (6, 7%N); (7, 8%N); (8, 9%N)].
Proof.
  cbv zeta. split; [|split].
  - repeat constructor; unfold Spec.MaxInt32; simpl; lia.
  - simpl. repeat split; try (repeat constructor; unfold Spec.MaxInt32; simpl; lia);
      intros q L HL; simpl in HL; destruct q as [|q]; try discriminate; injection HL as <-; vm_compute; reflexivity.
  - vm_compute. repeat split; reflexivity.
Qed.

(** wrapper and encoder hypotheses are satisfiable: a batch refused by a wrapper whose second cache is full, and an
    image that survives a context shift at its new position while a later removal of that position drops it *)
Example C06_example_wrapper :
  let w := wprun (init (Some 2) 1 8 2 1 1 true, init None 1 4 2 1 1 true)
             [Forward [(0%nat, 0, 1%N); (0%nat, 1, 2%N)]; Forward [(0%nat, 2, 3%N); (0%nat, 3, 4%N)]] in
  snd (wpstep w (Forward [(0%nat, 4, 5%N)])) = OErr EFull /\
  map (fun cl => (c_pos cl, c_seqs cl)) (cells (fst (fst (wpstep w (Forward [(0%nat, 4, 5%N)]))))) =
    [(4, []); (1, []); (2, [0%nat]); (3, [0%nat])].
Proof. cbv zeta. vm_compute. split; reflexivity. Qed.

Example C06_example_encoder :
  let ops := [PStore [0; 1; 2; 3] 2 7%N; PText [4; 5]; PRemove 0 2; PReserve [4; 5] [1%nat] 9%N; PRemove 1 4] in
  Forall pe_ok ops /\ ideal_run None (firstn 4 ops) = Some (0, 7%N) /\ ideal_run None ops = Some (0, 7%N) /\
  ideal_run None (ops ++ [PRemove 0 1]) = None /\
  match perun true [0%nat; 3%nat] enc_init ops with Some e => e_cached e = true /\ Model.e_pos e = 0 | None => False end.
Proof. cbv zeta. split; [repeat constructor; simpl; try discriminate; right; discriminate|]. vm_compute. repeat split; reflexivity. Qed.

(** [C06_window_complete_protocol]: a run with eviction, a granted CanResume, the truncation and the continuation *)
Example C06_example_protocol :
  let s0 := Spec.spec_init 12 (Some 3) true in
  let ops := [Spec.SForward [(0%nat, 0, 1%N); (0%nat, 1, 2%N); (0%nat, 2, 3%N); (0%nat, 3, 4%N)];
              Spec.SForward [(0%nat, 4, 5%N); (0%nat, 5, 6%N)];
              Spec.SCanResume 0%nat 5;
              Spec.SRemove 0%nat 5 Spec.MaxInt32;
              Spec.SForward [(0%nat, 5, 7%N)]] in
  proto_run (ginit s0) ops /\
  Spec.spec_can_resume (g_s (grun (ginit s0) (firstn 2 ops))) 0%nat 5 = true /\
  Spec.spec_can_resume (g_s (grun (ginit s0) (firstn 2 ops))) 0%nat 3 = false /\
  Spec.visible_raw (g_s (grun (ginit s0) ops)) 0%nat 5 = [(2, 3%N); (3, 4%N); (4, 5%N); (5, 7%N)].
Proof.
  cbv zeta. split; [|vm_compute; repeat split; reflexivity].
  simpl. repeat split; try (repeat constructor; unfold Spec.MaxInt32; simpl; lia);
    try (intros q L HL; simpl in HL; destruct q as [|q]; try discriminate; injection HL as <-; vm_compute; reflexivity);
    try (intros q; destruct q as [|q]; vm_compute; repeat constructor; simpl; intuition discriminate).
Qed.

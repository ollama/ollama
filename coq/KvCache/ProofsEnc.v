(** KvCache/ProofsEnc.v - EncoderCache (kvcache/encoder.go): its one entry is exposed (EncoderCached, Get) exactly as long as
    the position it was stored for is part of the sequence, positions being followed through the shifts of Remove. *)
From Coq Require Import List ZArith NArith Bool Arith Lia.
From V Require Import KvCache.Model.
Import ListNotations.
Open Scope Z_scope.

Inductive pe_op :=
| PStore (positions : list Z) (at_ : nat) (img : N)      (* batch with an image at index [at_] *)
| PText (positions : list Z)                              (* batch without image *)
| PReserve (positions : list Z) (mm : list nat) (img : N) (* reservation pass (worst-case graph, never computed) *)
| PRemove (b e : Z).

Definition expand (layers : list nat) (o : pe_op) : list eop :=
  match o with
  | PStore ps a img => EStart ps [a] false :: map (fun l => EPut l img) layers ++ [ECompute true]
  | PText ps => [EStart ps [] false; ECompute true]
  | PReserve ps mm img => EStart ps mm true :: map (fun l => EPut l img) layers ++ [ECompute false]
  | PRemove b e => [ERemove b e]
  end.

Fixpoint erun (fx : bool) (e : enc) (ops : list eop) : option enc :=
  match ops with
  | [] => Some e
  | o :: t => match estep fx e o with Some e' => erun fx e' t | None => None end
  end.

Fixpoint perun (fx : bool) (layers : list nat) (e : enc) (ops : list pe_op) : option enc :=
  match ops with
  | [] => Some e
  | o :: t => match erun fx e (expand layers o) with Some e' => perun fx layers e' t | None => None end
  end.

(** the ideal entry: position (in current coordinates) and image *)
Definition ideal_step (s : option (Z * N)) (o : pe_op) : option (Z * N) :=
  match o with
  | PStore ps a img => match nth_error ps a with Some p => Some (p, img) | None => s end
  | PText _ | PReserve _ _ _ => s
  | PRemove b e =>
      match s with
      | None => None
      | Some (p, img) =>
          if (b <=? p) && (p <? e) then None
          else if (e <=? p) && negb (e =? MaxInt32) then Some (p - (e - b), img) else s
      end
  end.
Definition ideal_run (s : option (Z * N)) (ops : list pe_op) : option (Z * N) := fold_left ideal_step ops s.

Definition EI (layers : list nat) (e : enc) (s : option (Z * N)) : Prop :=
  e_pend e = [] /\
  match s with
  | None => e_cached e = false
  | Some (p, img) => e_cached e = true /\ e_pos e = p /\ forall l, In l layers -> lookupN (e_data e) l = Some img
  end.

Lemma lookup_storeN_same : forall m l v, lookupN (storeN m (l, v)) l = Some v.
Proof. intros. unfold storeN. simpl. rewrite Nat.eqb_refl. reflexivity. Qed.

Lemma lookup_storeN_other : forall m l l' v, l <> l' -> lookupN (storeN m (l', v)) l = lookupN m l.
Proof.
  intros m l l' v H. unfold storeN. simpl. destruct (Nat.eqb_spec l' l); [congruence|].
  induction m as [|[k x] t IH]; simpl; auto. destruct (Nat.eqb_spec k l'); simpl.
  - subst. destruct (Nat.eqb_spec l' l); [congruence|]. exact IH.
  - destruct (Nat.eqb_spec k l); [reflexivity|exact IH].
Qed.

Lemma fold_store_all : forall layers img m l, In l layers ->
  lookupN (fold_left storeN (map (fun l => (l, img)) layers) m) l = Some img.
Proof.
  induction layers as [|x t IH]; intros img m l H; simpl in *; [contradiction|].
  destruct (in_dec Nat.eq_dec l t) as [Hi|Hn].
  - apply IH. exact Hi.
  - destruct H as [->|H]; [|contradiction].
    assert (G : forall t' m', ~ In l t' -> lookupN (fold_left storeN (map (fun l0 => (l0, img)) t') m') l = lookupN m' l).
    { induction t' as [|y t' IH']; intros m' Hn'; simpl; auto. rewrite IH' by (intros C; apply Hn'; right; exact C).
      apply lookup_storeN_other. intros ->. apply Hn'. left. reflexivity. }
    rewrite G by exact Hn. apply lookup_storeN_same.
Qed.

Lemma erun_puts : forall fx img run layers e,
  erun fx e (map (fun l => EPut l img) layers ++ [ECompute run]) =
  Some (mkEnc (if e_reserve e then e_cached e else match layers with [] => e_cached e | _ => true end)
              (if e_reserve e then e_pos e else match layers with [] => e_pos e | _ => e_cur e end)
              (e_cur e) (e_reserve e)
              (if run then fold_left storeN (e_pend e ++ map (fun l => (l, img)) layers) (e_data e) else e_data e) []).
Proof.
  intros fx img run. induction layers as [|x t IH]; intros e; simpl.
  - unfold enc_compute. rewrite app_nil_r. destruct (e_reserve e); reflexivity.
  - rewrite IH. unfold enc_put. destruct (e_reserve e) eqn:Er; simpl; rewrite ?Er, <- ?app_assoc; simpl.
    + reflexivity.
    + destruct t; reflexivity.
Qed.

(** indices of multimodal inputs lie inside the batch (otherwise the Go code panics with an index error) *)
Definition pe_ok (o : pe_op) : Prop :=
  match o with
  | PStore ps a _ => nth_error ps a <> None
  | PReserve ps mm _ => mm = [] \/ nth_error ps (last mm 0%nat) <> None
  | _ => True
  end.

Theorem enc_step_refines : forall layers e s o, layers <> [] -> EI layers e s -> pe_ok o ->
  exists e', erun true e (expand layers o) = Some e' /\ EI layers e' (ideal_step s o).
Proof.
  intros layers e s o Hl [Hp Hs] Hok. destruct o as [ps a img|ps|ps mm img|b en]; simpl in *.
  - destruct (nth_error ps a) as [p|] eqn:En; [|congruence]. unfold enc_start. simpl. rewrite ?En.
    rewrite erun_puts. simpl. eexists. split; [reflexivity|].
    destruct layers as [|l0 lt]; [congruence|]. split; [reflexivity|]. simpl. repeat split; auto.
    intros l Hin. apply (fold_store_all (l0 :: lt) img (e_data e) l Hin).
  - unfold enc_start, enc_compute. simpl. eexists. split; [reflexivity|]. split; [reflexivity|].
    destruct s as [[p i]|]; simpl; exact Hs.
  - assert (Hst : exists cur, enc_start e ps mm true = Some (mkEnc (e_cached e) (e_pos e) cur true (e_data e) [])).
    { unfold enc_start. destruct mm as [|n mm']; [eexists; reflexivity|].
      destruct Hok as [Hok|Hok]; [discriminate|]. destruct (nth_error ps (last (n :: mm') 0%nat)); [eexists; reflexivity|congruence]. }
    destruct Hst as [cur Hst]. rewrite Hst.
    rewrite erun_puts. simpl. eexists. split; [reflexivity|]. split; [reflexivity|].
    destruct s as [[p i]|]; simpl; exact Hs.
  - eexists. split; [reflexivity|]. unfold enc_remove. destruct s as [[p i]|]; simpl in *.
    + destruct Hs as [Hc [Hpos Hd]]. rewrite Hpos.
      destruct ((b <=? p) && (p <? en)); simpl; [split; [exact Hp|reflexivity]|].
      destruct ((en <=? p) && negb (en =? MaxInt32)); simpl; split; auto.
    + destruct ((b <=? e_pos e) && (e_pos e <? en)); simpl; [split; [exact Hp|reflexivity]|].
      destruct ((en <=? e_pos e) && negb (en =? MaxInt32)); simpl; split; auto.
Qed.

Theorem enc_refines : forall layers ops e s, layers <> [] -> EI layers e s -> Forall pe_ok ops ->
  exists e', perun true layers e ops = Some e' /\ EI layers e' (ideal_run s ops).
Proof.
  intros layers ops. induction ops as [|o t IH]; intros e s Hl HE Hok; simpl.
  - eexists. split; [reflexivity|exact HE].
  - inversion Hok as [|? ? Ho Ht]; subst. destruct (enc_step_refines layers e s o Hl HE Ho) as [e1 [H1 HE1]].
    rewrite H1. apply IH; assumption.
Qed.

Lemma EI_init : forall layers, EI layers enc_init None.
Proof. intros. split; reflexivity. Qed.

(** a refused pass: the unwind Remove(seq_k, pos_k, MaxInt32) leaves the encoder entry alone when the batch continues the
    sequence behind the image *)
Lemma enc_unwind_fresh : forall batch e, (forall q p t, In (q, p, t) batch -> e_pos e < p) -> enc_unwind true e batch = e.
Proof.
  induction batch as [|[[q p] t] r IH]; intros e H; simpl; auto.
  assert (E : enc_remove true e p MaxInt32 = e).
  { unfold enc_remove. specialize (H q p t (or_introl eq_refl)).
    destruct ((p <=? e_pos e) && (e_pos e <? MaxInt32)) eqn:A.
    - apply andb_true_iff in A. destruct A as [A _]. apply Z.leb_le in A. exfalso. apply (Z.lt_irrefl p). eapply Z.le_lt_trans; eauto.
    - rewrite Z.eqb_refl. cbn [negb]. rewrite andb_false_r. reflexivity. }
  rewrite E. apply IH. intros q' p' t' Hin. apply (H q' p' t'). right. exact Hin.
Qed.


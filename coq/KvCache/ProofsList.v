(** KvCache/ProofsList.v - list lemmas used by the C06 proofs: [set_nth], [mapi], block copy / block reversal. *)
From Coq Require Import List ZArith NArith Bool Arith Lia Permutation.
From V Require Import KvCache.Model.
Import ListNotations.

Lemma set_nth_length : forall A i (x : A) l, length (set_nth i x l) = length l.
Proof. intros A i x l. revert i. induction l as [|h t IH]; intros [|i]; simpl; auto. Qed.

Lemma nth_set_nth : forall A (l : list A) i j x d,
  nth i (set_nth j x l) d = if (i =? j)%nat && (j <? length l)%nat then x else nth i l d.
Proof.
  intros A l. induction l as [|h t IH]; intros i j x d.
  - simpl. destruct j; destruct i; simpl; rewrite ?andb_false_r; reflexivity.
  - destruct j as [|j]; destruct i as [|i]; simpl; try reflexivity.
    rewrite IH. replace (S j <? S (length t))%nat with (j <? length t)%nat; [reflexivity|].
    destruct (Nat.ltb_spec j (length t)); destruct (Nat.ltb_spec (S j) (S (length t))); auto; lia.
Qed.

Lemma nth_set_nth_eq : forall A (l : list A) i x d, (i < length l)%nat -> nth i (set_nth i x l) d = x.
Proof. intros. rewrite nth_set_nth, Nat.eqb_refl. destruct (Nat.ltb_spec i (length l)); [reflexivity|lia]. Qed.

Lemma nth_set_nth_neq : forall A (l : list A) i j x d, i <> j -> nth i (set_nth j x l) d = nth i l d.
Proof. intros. rewrite nth_set_nth. destruct (Nat.eqb_spec i j); [lia|reflexivity]. Qed.

Lemma set_nth_split : forall A (l : list A) i x, (i < length l)%nat ->
  set_nth i x l = firstn i l ++ x :: skipn (S i) l.
Proof.
  intros A l. induction l as [|h t IH]; intros [|i] x H; simpl in *; try lia; auto.
  f_equal. apply IH. lia.
Qed.

Lemma set_nth_oob : forall A (l : list A) i x, (length l <= i)%nat -> set_nth i x l = l.
Proof. intros A l. induction l as [|h t IH]; intros [|i] x H; simpl in *; try lia; auto. f_equal. apply IH. lia. Qed.

Lemma list_split_nth : forall A (l : list A) i d, (i < length l)%nat ->
  l = firstn i l ++ nth i l d :: skipn (S i) l.
Proof.
  intros A l. induction l as [|h t IH]; intros [|i] d H; simpl in *; try lia; auto.
  f_equal. apply IH. lia.
Qed.

Lemma mapi_from_length : forall A B (f : nat -> A -> B) l i, length (mapi_from i f l) = length l.
Proof. intros A B f l. induction l; intros; simpl; auto. Qed.

Lemma mapi_length : forall A B (f : nat -> A -> B) l, length (mapi f l) = length l.
Proof. intros. apply mapi_from_length. Qed.

Lemma nth_mapi_from : forall A B (f : nat -> A -> B) l i k da db, (k < length l)%nat ->
  nth k (mapi_from i f l) db = f (i + k)%nat (nth k l da).
Proof.
  intros A B f l. induction l as [|h t IH]; intros i k da db H; simpl in *; [lia|].
  destruct k as [|k]; simpl.
  - rewrite Nat.add_0_r. reflexivity.
  - rewrite (IH (S i) k da db) by lia. f_equal. lia.
Qed.

Lemma nth_mapi : forall A B (f : nat -> A -> B) l k da db, (k < length l)%nat ->
  nth k (mapi f l) db = f k (nth k l da).
Proof. intros. unfold mapi. rewrite (nth_mapi_from _ _ f l 0 k da db) by assumption. reflexivity. Qed.

Lemma mapi_from_ext : forall A B (f g : nat -> A -> B) l i,
  (forall k x, (k < length l)%nat -> nth_error l k = Some x -> f (i + k)%nat x = g (i + k)%nat x) ->
  mapi_from i f l = mapi_from i g l.
Proof.
  intros A B f g l. induction l as [|h t IH]; intros i H; simpl; auto.
  f_equal.
  - specialize (H 0%nat h). rewrite Nat.add_0_r in H. apply H; simpl; auto; lia.
  - apply IH. intros k x Hk Hx. replace (S i + k)%nat with (i + S k)%nat by lia. apply H; simpl; auto; lia.
Qed.

Lemma mapi_from_map : forall A B (f : nat -> A -> B) (g : A -> B) l i,
  (forall k x, f k x = g x) -> mapi_from i f l = map g l.
Proof. intros A B f g l. induction l; intros; simpl; auto. rewrite H. f_equal. auto. Qed.

Lemma mapi_from_combine : forall A B (f : nat -> A -> B) l i,
  mapi_from i f l = map (fun p => f (fst p) (snd p)) (combine (seq i (length l)) l).
Proof. intros A B f l. induction l; intros; simpl; auto. f_equal. auto. Qed.

Lemma copy_block_length : forall A len src dst (orig l : list A) d, length (copy_block src dst len orig l d) = length l.
Proof. intros A len. induction len; intros; simpl; auto. rewrite IHlen. apply set_nth_length. Qed.

Lemma nth_copy_block : forall A len src dst (orig l : list A) d i,
  (dst + len <= length l)%nat ->
  nth i (copy_block src dst len orig l d) d =
  if (dst <=? i)%nat && (i <? dst + len)%nat then nth (src + (i - dst)) orig d else nth i l d.
Proof.
  intros A len. induction len as [|k IH]; intros src dst orig l d i H; simpl.
  - destruct (Nat.leb_spec dst i); destruct (Nat.ltb_spec i (dst + 0)); simpl; auto; lia.
  - rewrite IH by (rewrite set_nth_length; lia).
    destruct (Nat.leb_spec (S dst) i); destruct (Nat.ltb_spec i (S dst + k)); simpl.
    + destruct (Nat.leb_spec dst i); destruct (Nat.ltb_spec i (dst + S k)); simpl; try lia. f_equal. lia.
    + rewrite nth_set_nth. destruct (Nat.eqb_spec i dst); [lia|]. simpl.
      destruct (Nat.leb_spec dst i); destruct (Nat.ltb_spec i (dst + S k)); simpl; auto; lia.
    + rewrite nth_set_nth. destruct (Nat.eqb_spec i dst).
      * subst. destruct (Nat.ltb_spec dst (length l)); [|lia]. simpl.
        destruct (Nat.leb_spec dst dst); destruct (Nat.ltb_spec dst (dst + S k)); simpl; try lia. f_equal. lia.
      * simpl. destruct (Nat.leb_spec dst i); destruct (Nat.ltb_spec i (dst + S k)); simpl; auto; lia.
    + lia.
Qed.

Lemma move_cells_length : forall src dst len p, length (move_cells src dst len p) = length p.
Proof. intros. apply copy_block_length. Qed.

Lemma nth_move_cells : forall src dst len p i, (dst + len <= length p)%nat ->
  nth i (move_cells src dst len p) None =
  if (dst <=? i)%nat && (i <? dst + len)%nat then nth (src + (i - dst)) p None else nth i p None.
Proof. intros. unfold move_cells. apply nth_copy_block. assumption. Qed.

Lemma nth_firstn' : forall A (l : list A) n i d, nth i (firstn n l) d = if (i <? n)%nat then nth i l d else d.
Proof.
  intros A l. induction l as [|h t IH]; intros n i d.
  - rewrite firstn_nil. destruct i as [|i]; [destruct (0 <? n)%nat|destruct (S i <? n)%nat]; reflexivity.
  - destruct n as [|n]; simpl.
    + destruct i; reflexivity.
    + destruct i as [|i]; simpl; [reflexivity|]. rewrite IH.
      replace (S i <? S n)%nat with (i <? n)%nat; [reflexivity|].
      destruct (Nat.ltb_spec i n); destruct (Nat.ltb_spec (S i) (S n)); auto; lia.
Qed.

Lemma nth_skipn' : forall A (l : list A) n i d, nth i (skipn n l) d = nth (n + i) l d.
Proof.
  intros A l. induction l as [|h t IH]; intros n i d.
  - rewrite skipn_nil. destruct i as [|i]; [destruct (n + 0)%nat|destruct (n + S i)%nat]; reflexivity.
  - destruct n as [|n]; simpl; [reflexivity|]. apply IH.
Qed.

Lemma reverse_block_length : forall A start len (l : list A), (start + len <= length l)%nat ->
  length (reverse_block start len l) = length l.
Proof.
  intros. unfold reverse_block. rewrite !app_length, rev_length, !firstn_length, !skipn_length. lia.
Qed.

Lemma nth_reverse_block : forall A start len (l : list A) d i, (start + len <= length l)%nat ->
  nth i (reverse_block start len l) d =
  if (start <=? i)%nat && (i <? start + len)%nat then nth (start + len - 1 - (i - start)) l d else nth i l d.
Proof.
  intros A start len l d i H. unfold reverse_block.
  destruct (Nat.leb_spec start i); simpl.
  - rewrite app_nth2 by (rewrite firstn_length; lia). rewrite firstn_length, Nat.min_l by lia.
    destruct (Nat.ltb_spec i (start + len)).
    + rewrite app_nth1 by (rewrite rev_length, firstn_length, skipn_length; lia).
      rewrite rev_nth by (rewrite firstn_length, skipn_length; lia).
      rewrite firstn_length, skipn_length, Nat.min_l by lia.
      rewrite nth_firstn'. destruct (Nat.ltb_spec (len - S (i - start)) len); [|lia].
      rewrite nth_skipn'. f_equal. lia.
    + rewrite app_nth2 by (rewrite rev_length, firstn_length, skipn_length; lia).
      rewrite rev_length, firstn_length, skipn_length, Nat.min_l by lia.
      rewrite nth_skipn'. f_equal. lia.
  - rewrite app_nth1 by (rewrite firstn_length; lia). rewrite nth_firstn'.
    destruct (Nat.ltb_spec i start); [reflexivity|lia].
Qed.

Lemma reverse_block_0 : forall A start (l : list A), reverse_block start 0 l = l.
Proof. intros. unfold reverse_block. rewrite Nat.add_0_r. apply firstn_skipn. Qed.

(** the reversal does not see an assignment behind the block *)
Lemma reverse_block_set_nth : forall A start len j (x : A) l, (start + len <= j)%nat -> (start + len <= length l)%nat ->
  reverse_block start len (set_nth j x l) = set_nth j x (reverse_block start len l).
Proof.
  intros A start len j x l Hj Hl. apply (nth_ext _ _ x x).
  - rewrite set_nth_length, !reverse_block_length; rewrite ?set_nth_length; auto.
  - intros i _. rewrite nth_reverse_block by (rewrite set_nth_length; exact Hl).
    rewrite !nth_set_nth, nth_reverse_block, reverse_block_length by exact Hl.
    destruct (Nat.leb_spec start i); [destruct (Nat.ltb_spec i (start + len))|]; cbn [andb]; try reflexivity.
    destruct (Nat.eqb_spec (start + len - 1 - (i - start)) j); [lia|]. destruct (Nat.eqb_spec i j); [lia|reflexivity].
Qed.

Lemma skipn_skipn' : forall A (l : list A) m n, skipn n (skipn m l) = skipn (m + n) l.
Proof.
  intros A l. induction l as [|h t IH]; intros m n.
  - rewrite !skipn_nil. reflexivity.
  - destruct m as [|m]; simpl; [reflexivity|]. apply IH.
Qed.

Lemma reverse_block_perm : forall A start len (l : list A), Permutation (reverse_block start len l) l.
Proof.
  intros. unfold reverse_block.
  rewrite <- (firstn_skipn start l) at 4. apply Permutation_app_head.
  rewrite <- (firstn_skipn len (skipn start l)) at 2. rewrite skipn_skipn'.
  apply Permutation_app_tail.
  apply Permutation_sym, Permutation_rev.
Qed.

Lemma filter_set_nth_perm : forall A (f : A -> bool) l i x d, (i < length l)%nat ->
  Permutation (filter f [nth i l d] ++ filter f (set_nth i x l)) (filter f [x] ++ filter f l).
Proof.
  intros A f l. induction l as [|a t IH]; intros i x d Hi; [inversion Hi|].
  change (a :: t) with ([a] ++ t) at 3. rewrite filter_app.
  destruct i as [|i]; cbn [nth set_nth].
  - change (x :: t) with ([x] ++ t). rewrite filter_app. apply Permutation_app_swap_app.
  - change (a :: set_nth i x t) with ([a] ++ set_nth i x t). rewrite filter_app.
    eapply Permutation_trans; [apply Permutation_app_swap_app|].
    eapply Permutation_trans; [|apply Permutation_app_swap_app].
    apply Permutation_app_head, IH. simpl in Hi. lia.
Qed.

Lemma filter_transfer_perm : forall A (f : A -> bool) l i j e d, (i < j)%nat -> (j < length l)%nat ->
  f (nth i l d) = false -> f e = false ->
  Permutation (filter f (set_nth j e (set_nth i (nth j l d) l))) (filter f l).
Proof.
  intros A f l i j e d Hij Hj Hi He.
  pose proof (filter_set_nth_perm A f l i (nth j l d) d ltac:(lia)) as E1.
  pose proof (filter_set_nth_perm A f (set_nth i (nth j l d) l) j e d ltac:(rewrite set_nth_length; exact Hj)) as E2.
  rewrite nth_set_nth_neq in E2 by lia. cbn [filter] in E1, E2. rewrite Hi in E1. rewrite He in E2.
  eapply Permutation_app_inv_l, Permutation_trans; [exact E2|exact E1].
Qed.

(** KvCache/ProofsOps.v - every operation of the cache model keeps the invariant and refines the corresponding
    operation of KvCache/Spec.v: defrag at cache level, CopyPrefix, CanResume, Remove. *)
From Coq Require Import List ZArith NArith Bool Arith Lia Permutation.
From V Require Import KvCache.Model KvCache.ProofsList KvCache.ProofsInv KvCache.ProofsDefrag.
From V Require KvCache.Spec.
Import ListNotations.
Open Scope Z_scope.

Lemma abs_map : forall (f : cell -> cell) (g : Spec.acell -> Spec.acell) LP,
  (forall p, g (to_acell p) = to_acell (on_cell f p)) ->
  map to_acell (filter livep (map (on_cell f) LP)) = Spec.prune (map g (map to_acell LP)).
Proof.
  intros f g LP H. unfold Spec.prune. induction LP as [|p t IH]; simpl; auto.
  rewrite H, live_spec. destruct (livep (on_cell f p)); simpl; rewrite IH; reflexivity.
Qed.

Lemma abs_cells_map : forall (f : cell -> cell) g cs ps,
  (forall cl, live cl = false -> live (f cl) = false) ->
  (forall p, g (to_acell p) = to_acell (on_cell f p)) ->
  abs_cells (map f cs) ps = Spec.prune (map g (abs_cells cs ps)).
Proof.
  intros f g cs ps Hd Hg. unfold abs_cells. rewrite live_pairs_map by assumption. apply abs_map. assumption.
Qed.

Lemma cell_at_map : forall (f : cell -> cell) cs i, (i < length cs)%nat -> cell_at (map f cs) i = f (cell_at cs i).
Proof.
  intros f cs i H. unfold cell_at. rewrite (nth_indep _ empty_cell (f empty_cell)) by (rewrite map_length; assumption).
  apply map_nth.
Qed.

Lemma good_map : forall (f : cell -> cell) cs ps,
  (forall cl, live cl = false -> live (f cl) = false) ->
  (forall cl, c_pos (f cl) = c_pos cl) ->
  Forall good_pair (live_pairs cs ps) -> Forall good_pair (live_pairs (map f cs) ps).
Proof.
  intros f cs ps Hd Hp H. rewrite live_pairs_map by assumption.
  apply Forall_forall. intros p Hin. apply filter_In in Hin. destruct Hin as [Hin _].
  apply in_map_iff in Hin. destruct Hin as [p0 [E Hin0]]. subst p.
  rewrite Forall_forall in H. destruct (H p0 Hin0) as [x [H1 [H2 H3]]].
  exists x. unfold on_cell. simpl. rewrite Hp. auto.
Qed.

Lemma lookup_map_range : forall (g : nat -> rng) m q,
  lookup (map (fun kr => (fst kr, g (fst kr))) m) q = match lookup m q with Some _ => Some (g q) | None => None end.
Proof.
  intros g m q. induction m as [|[k r] t IH]; simpl; auto.
  destruct (Nat.eqb_spec k q); [subst; reflexivity|exact IH].
Qed.

Theorem defrag_correct : forall c c', Inv c -> defrag true c = Some c' ->
  Inv c' /\ Permutation (live_pairs (cells c') (phys c')) (live_pairs (cells c) (phys c)) /\
  compact (cells c') /\ R c' (abs c).
Proof.
  intros c c' HI H. unfold defrag in H. simpl in H. injection H as H. subst c'. simpl.
  destruct (defrag_loop_correct (cells c) (phys c) (inv_len c HI)) as [L1 [L2 [HP HC]]].
  set (st := flush true (defrag_loop true (length (cells c)) 0
               (mkD (cells c) (phys c) (length (cells c) - 1) 0 0 0))) in *.
  split; [|split; [exact HP|split; [exact HC|]]].
  2:{ unfold R, abs_cells. simpl. repeat split; auto. apply Permutation_map. exact HP. }
  constructor; simpl.
  - lia.
  - rewrite L1. apply (inv_size c HI).
  - eapply Permutation_Forall; [apply Permutation_sym; exact HP|apply (inv_data c HI)].
  - intros i q Hi Hq. rewrite (lookup_map_range (fun k => range_of (fun _ cl => has k cl) (d_cells st))).
    (* the pair at i comes from some original live pair, so q was a key of the ranges *)
    assert (Hin : In (cell_at (d_cells st) i, nth i (d_phys st) None) (live_pairs (d_cells st) (d_phys st))).
    { apply In_live_pairs; [lia|]. exists i. repeat split; auto. eapply has_live; eauto. }
    apply (Permutation_in _ HP) in Hin. apply In_live_pairs in Hin; [|apply (inv_len c HI)].
    destruct Hin as [i0 [Hi0 [E _]]]. injection E as E1 E2.
    rewrite E1 in Hq. destruct (inv_rng c HI i0 q Hi0 Hq) as [r [Hr _]]. rewrite Hr.
    exists (range_of (fun _ cl => has q cl) (d_cells st)). split; [reflexivity|].
    apply range_of_covers; [lia|]. rewrite E1. exact Hq.
  - apply (inv_pad c HI).
  - intros q r Hr. rewrite (lookup_map_range (fun k => range_of (fun _ cl => has k cl) (d_cells st))) in Hr.
    destruct (lookup (ranges c) q); [injection Hr as <-; apply range_of_fst_nonneg|discriminate].
Qed.

Definition copy_cell' (src dst : nat) (len : Z) (cl : cell) : cell :=
  let cl1 := del dst cl in if has src cl1 && (c_pos cl1 <? len) then add dst cl1 else cl1.

Lemma copy_cell_eq : forall src dst len cl, copy_cell src dst len cl = copy_cell' src dst len cl.
Proof.
  intros. unfold copy_cell, copy_cell'. destruct (has dst cl) eqn:E; [reflexivity|].
  rewrite (has_false_del _ _ E). reflexivity.
Qed.

Lemma copy_cell_dead : forall src dst len cl, live cl = false -> live (copy_cell src dst len cl) = false.
Proof.
  intros src dst len cl H. rewrite copy_cell_eq. unfold copy_cell'.
  assert (E : del dst cl = cl) by (apply has_false_del, has_dead; assumption). rewrite E.
  rewrite (has_dead src cl H). simpl. exact H.
Qed.

Lemma copy_cell_spec : forall src dst len p,
  Spec.copy_cell src dst len (to_acell p) = to_acell (on_cell (copy_cell src dst len) p).
Proof.
  intros src dst len [cl d]. unfold on_cell. simpl. rewrite copy_cell_eq. unfold Spec.copy_cell, copy_cell'.
  change (Spec.drop_seq dst (to_acell (cl, d))) with (to_acell (del dst cl, d)).
  rewrite has_spec. simpl.
  destruct (has src (del dst cl) && (c_pos cl <? len)); reflexivity.
Qed.

Lemma has_copy_cell : forall src dst len cl q,
  has q (copy_cell src dst len cl) = if Nat.eqb q dst then has src (del dst cl) && (c_pos cl <? len) else has q cl.
Proof.
  intros. change (has q (copy_cell src dst len cl)) with (Spec.has q (to_acell (on_cell (copy_cell src dst len) (cl, None)))).
  rewrite <- copy_cell_spec. apply (copy_cell_has src dst len (to_acell (cl, None)) q).
Qed.

Theorem copy_prefix_correct : forall c src dst len, Inv c ->
  Inv (copy_prefix c src dst len) /\ abs (copy_prefix c src dst len) = Spec.spec_copy (abs c) src dst len.
Proof.
  intros c src dst len HI. unfold copy_prefix. split.
  - constructor; simpl.
    + rewrite map_length. apply (inv_len c HI).
    + rewrite map_length. apply (inv_size c HI).
    + apply good_map; [apply copy_cell_dead| |apply (inv_data c HI)].
      intros cl. rewrite copy_cell_eq. unfold copy_cell'. destruct (has src (del dst cl) && _); reflexivity.
    + intros i q Hi Hq. rewrite map_length in Hi. rewrite cell_at_map, has_copy_cell in Hq by assumption.
      destruct (Nat.eqb_spec q dst) as [->|E].
      * rewrite lookup_update_same. eexists. split; [reflexivity|]. apply range_of_covers; [assumption|]. cbv beta zeta.
        replace (if has dst (cell_at (cells c) i) then del dst (cell_at (cells c) i) else cell_at (cells c) i)
          with (del dst (cell_at (cells c) i)); [exact Hq|].
        destruct (has dst (cell_at (cells c) i)) eqn:Ed; [reflexivity|apply has_false_del; exact Ed].
      * rewrite lookup_update_other by assumption. apply (inv_rng c HI i q Hi Hq).
    + apply (inv_pad c HI).
    + apply rpos_update; [exact (inv_rpos c HI)|apply range_of_fst_nonneg].
  - rewrite abs_with_cpr by apply map_length. unfold Spec.spec_copy. f_equal.
    apply abs_cells_map; [apply copy_cell_dead|apply copy_cell_spec].
Qed.

Lemma map_fst_combine : forall (cs : list cell) (ps : list (option datum)), length ps = length cs -> map fst (combine cs ps) = cs.
Proof.
  intros cs. induction cs as [|c t IH]; intros [|p ps] H; simpl in *; try lia; auto. f_equal. apply IH. lia.
Qed.

Lemma metas_filter : forall (P : cell -> bool) cs ps, length ps = length cs ->
  (forall cl, P cl = true -> live cl = true) ->
  map fst (filter (fun p => P (fst p)) (live_pairs cs ps)) = filter P cs.
Proof.
  intros P cs ps Hl HP. unfold live_pairs. rewrite filter_filter.
  rewrite (filter_ext_in (fun x => livep x && P (fst x)) (fun x => P (fst x))).
  - rewrite <- (filter_map_comm _ _ fst P), map_fst_combine by assumption. reflexivity.
  - intros x _. unfold livep. destruct (P (fst x)) eqn:E; [rewrite (HP _ E); reflexivity|apply andb_false_r].
Qed.

Lemma abs_filter_metas : forall (P : cell -> bool) (Q : Spec.acell -> bool) cs ps, length ps = length cs ->
  (forall cl, P cl = true -> live cl = true) ->
  (forall p, Q (to_acell p) = P (fst p)) ->
  map Spec.a_pos (filter Q (abs_cells cs ps)) = map c_pos (filter P cs).
Proof.
  intros P Q cs ps Hl HP HQ. unfold abs_cells. rewrite filter_map_comm, map_map.
  rewrite (filter_ext_in (fun x => Q (to_acell x)) (fun x => P (fst x))) by (intros; apply HQ).
  rewrite <- (metas_filter P cs ps Hl HP). rewrite map_map. reflexivity.
Qed.

Lemma mapi_from_eq_map : forall A B (f : nat -> A -> B) (g : A -> B) l i d,
  (forall k, (k < length l)%nat -> f (i + k)%nat (nth k l d) = g (nth k l d)) -> mapi_from i f l = map g l.
Proof.
  intros A B f g l. induction l as [|h t IH]; intros i d H; simpl; auto. f_equal.
  - specialize (H 0%nat). simpl in H. rewrite Nat.add_0_r in H. apply H. lia.
  - apply (IH (S i) d). intros k Hk. replace (S i + k)%nat with (i + S k)%nat by lia. apply (H (S k)). simpl. lia.
Qed.

Lemma fold_max_left_right : forall (g : cell -> Z) (P : cell -> bool) (h : cell -> Z) l a,
  (forall cl, g cl = if P cl then h cl else -1) -> -1 <= a ->
  fold_left Z.max (map g l) a = Z.max a (fold_right Z.max (-1) (map h (filter P l))).
Proof.
  intros g P h l. induction l as [|cl t IH]; intros a Hg Ha; simpl.
  - lia.
  - rewrite IH by (auto; lia). rewrite Hg. destruct (P cl); simpl; lia.
Qed.

Lemma length_filter_id_map : forall A (f : A -> bool) l, length (filter (fun b : bool => b) (map f l)) = length (filter f l).
Proof. intros. induction l as [|a t IH]; simpl; auto. destruct (f a); simpl; rewrite IH; reflexivity. Qed.

(** under the invariant, the range restriction of the scans is immaterial *)
Lemma in_rng_of_inv : forall c q r, Inv c -> lookup (ranges c) q = Some r ->
  forall k, (k < length (cells c))%nat -> has q (cell_at (cells c) k) = true -> in_rng r k = true.
Proof.
  intros c q r HI Hr k Hk Hq. destruct (inv_rng c HI k q Hk Hq) as [r' [Hr' Hin]]. congruence.
Qed.

Lemma no_range_no_cell : forall c q, Inv c -> lookup (ranges c) q = None -> filter (has q) (cells c) = [].
Proof.
  intros c q HI Hr. destruct (filter (has q) (cells c)) as [|x t] eqn:E; auto. exfalso.
  assert (Hin : In x (filter (has q) (cells c))) by (rewrite E; left; reflexivity).
  apply filter_In in Hin. destruct Hin as [Hin Hq]. apply (In_nth _ _ empty_cell) in Hin.
  destruct Hin as [k [Hk Hn]]. destruct (inv_rng c HI k q Hk) as [r [Hr' _]]; [unfold cell_at; rewrite Hn; exact Hq|congruence].
Qed.

Lemma last_in_metas : forall c q r, Inv c -> lookup (ranges c) q = Some r ->
  last_in (cells c) r q = fold_right Z.max (-1) (map c_pos (filter (has q) (cells c))).
Proof.
  intros c q r HI Hr. unfold last_in, mapi.
  rewrite (mapi_from_eq_map _ _ _ (fun cl => if has q cl then c_pos cl else -1) (cells c) 0 empty_cell).
  - rewrite (fold_max_left_right _ (has q) c_pos) by (auto; lia).
    assert (-1 <= fold_right Z.max (-1) (map c_pos (filter (has q) (cells c)))).
    { induction (map c_pos (filter (has q) (cells c))); simpl; lia. }
    lia.
  - intros k Hk. simpl. destruct (has q (nth k (cells c) empty_cell)) eqn:E; [|rewrite andb_false_r; reflexivity].
    rewrite (in_rng_of_inv c q r HI Hr k Hk E). reflexivity.
Qed.

Lemma count_in_metas : forall c q r lo hi, Inv c -> lookup (ranges c) q = Some r ->
  count_in (cells c) r q lo hi =
  Z.of_nat (length (filter (fun cl => has q cl && (lo <=? c_pos cl) && (c_pos cl <? hi)) (cells c))).
Proof.
  intros c q r lo hi HI Hr. unfold count_in, mapi.
  rewrite (mapi_from_eq_map _ _ _ (fun cl => has q cl && (lo <=? c_pos cl) && (c_pos cl <? hi)) (cells c) 0 empty_cell).
  - rewrite length_filter_id_map. reflexivity.
  - intros k Hk. simpl. destruct (has q (nth k (cells c) empty_cell)) eqn:E; [|rewrite andb_false_r; reflexivity].
    rewrite (in_rng_of_inv c q r HI Hr k Hk E). reflexivity.
Qed.

Lemma spec_last_pos_metas : forall c q, Inv c ->
  Spec.last_pos (abs c) q = fold_right Z.max (-1) (map c_pos (filter (has q) (cells c))).
Proof.
  intros c q HI. unfold Spec.last_pos, abs. simpl.
  rewrite (abs_filter_metas (has q) (Spec.has q) _ _ (inv_len c HI)); auto. intros; eapply has_live; eauto.
Qed.

Lemma spec_count_pos_metas : forall c q lo hi, Inv c ->
  Spec.count_pos (abs c) q lo hi =
  Z.of_nat (length (filter (fun cl => has q cl && (lo <=? c_pos cl) && (c_pos cl <? hi)) (cells c))).
Proof.
  intros c q lo hi HI. unfold Spec.count_pos, abs. simpl. f_equal.
  rewrite <- (map_length Spec.a_pos), <- (map_length c_pos).
  rewrite (abs_filter_metas (fun cl => has q cl && (lo <=? c_pos cl) && (c_pos cl <? hi))
             (fun a => Spec.has q a && (lo <=? Spec.a_pos a) && (Spec.a_pos a <? hi)) _ _ (inv_len c HI)); auto.
  intros cl H. apply andb_true_iff in H. destruct H as [H _]. apply andb_true_iff in H. destruct H as [H _].
  eapply has_live; eauto.
Qed.

Theorem can_resume_correct : forall c q p, Inv c -> can_resume true c q p = Spec.spec_can_resume (abs c) q p.
Proof.
  intros c q p HI. unfold can_resume, Spec.spec_can_resume. simpl. destruct (window c) as [w|]; [|reflexivity].
  rewrite spec_last_pos_metas by assumption.
  destruct (lookup (ranges c) q) as [r|] eqn:Hr.
  - rewrite (last_in_metas c q r HI Hr).
    destruct (fold_right Z.max (-1) (map c_pos (filter (has q) (cells c))) =? -1); [reflexivity|].
    rewrite (count_in_metas c q r _ _ HI Hr), spec_count_pos_metas by assumption.
    destruct (Z.ltb_spec (Z.max 0 (p - w)) (Z.max 0 (fold_right Z.max (-1) (map c_pos (filter (has q) (cells c))) - w)));
      destruct (Z.leb_spec (Z.max 0 (fold_right Z.max (-1) (map c_pos (filter (has q) (cells c))) - w)) (Z.max 0 (p - w)));
      try lia; reflexivity.
  - rewrite (no_range_no_cell c q HI Hr). reflexivity.
Qed.

(** the loop of Remove read cell by cell: at a [blocked] cell (owned, behind the range, shared) the code gives up; otherwise the
    cell becomes [rm_cell'], and it counts for the new range of the sequence iff it is [kept] *)
Definition in_be (b e : Z) (cl : cell) : bool := (b <=? c_pos cl) && (c_pos cl <? e).
Definition blocked (q : nat) (b e : Z) (cl : cell) : bool :=
  has q cl && negb (in_be b e cl) && (e <=? c_pos cl) && others q cl.
Definition rm_cell' (q : nat) (b e off : Z) (cl : cell) : cell :=
  if has q cl then if in_be b e cl then del q cl else if e <=? c_pos cl then shift_cell off cl else cl else cl.
Definition kept (q : nat) (b e : Z) (cl : cell) : bool := has q cl && negb (in_be b e cl).

Lemma rm_loop_cons : forall q b e off i cl t r,
  rm_loop q b e off i (cl :: t) r =
  if blocked q b e cl then (cl :: t, r, true)
  else let '(t', r', er) := rm_loop q b e off (S i) t (if kept q b e cl then widen r i else r) in
       (rm_cell' q b e off cl :: t', r', er).
Proof.
  intros. unfold blocked, kept, rm_cell', in_be. simpl.
  destruct (has q cl); [destruct ((b <=? c_pos cl) && (c_pos cl <? e)); [|destruct (e <=? c_pos cl); [destruct (others q cl)|]]|];
    reflexivity.
Qed.

Lemma rm_loop_spec : forall q b e off l i r,
  let '(l', r', er) := rm_loop q b e off i l r in
  er = existsb (blocked q b e) l /\ length l' = length l /\
  (er = false -> l' = map (rm_cell' q b e off) l /\ r' = range_from i (fun _ cl => kept q b e cl) l r).
Proof.
  intros q b e off l. induction l as [|cl t IH]; intros i r; [simpl; auto|].
  rewrite rm_loop_cons. simpl. destruct (blocked q b e cl); simpl.
  - split; [reflexivity|split; [reflexivity|discriminate]].
  - specialize (IH (S i) (if kept q b e cl then widen r i else r)).
    destruct (rm_loop q b e off (S i) t (if kept q b e cl then widen r i else r)) as [[t' r'] er].
    destruct IH as [I1 [I2 I3]]. simpl. split; [exact I1|split; [lia|intros E; destruct (I3 E); subst; auto]].
Qed.

(** whatever the loop did (also when it gave up half way), cell by cell: the other owners are untouched, a cell with
    another owner keeps its position, and what the sequence still owns has a valid position *)
Definition pert (q : nat) (a a' : cell) : Prop :=
  c_seqs (del q a') = c_seqs (del q a) /\ (others q a = true -> c_pos a' = c_pos a) /\
  (has q a' = true -> 0 <= c_pos a' < MaxInt32).

Lemma del_del : forall q cl, del q (del q cl) = del q cl.
Proof. intros. apply has_false_del. apply has_del_same. Qed.

Lemma pert_refl : forall q l, Forall (fun cl => has q cl = true -> 0 <= c_pos cl < MaxInt32) l -> Forall2 (pert q) l l.
Proof. intros q l H. induction H; constructor; auto. unfold pert. auto. Qed.

Lemma pert_rm_cell : forall q b e off cl, 0 <= b <= e -> (off = 0 \/ off = b - e) -> blocked q b e cl = false ->
  (has q cl = true -> 0 <= c_pos cl < MaxInt32) -> pert q cl (rm_cell' q b e off cl).
Proof.
  intros q b e off cl Hbe Hoff Hb Hc. unfold blocked, rm_cell', in_be in *.
  destruct (has q cl) eqn:Hq; [|unfold pert; rewrite Hq; auto].
  destruct ((b <=? c_pos cl) && (c_pos cl <? e)).
  - unfold pert. rewrite del_del, has_del_same. repeat split; auto; discriminate.
  - destruct (Z.leb_spec e (c_pos cl)); [|unfold pert; auto]. simpl in Hb.
    unfold pert, shift_cell, del, has. simpl. specialize (Hc eq_refl). repeat split; auto; [congruence|lia|lia].
Qed.

Lemma rm_loop_pert : forall q b e off l i r,
  0 <= b <= e -> (off = 0 \/ off = b - e) ->
  Forall (fun cl => has q cl = true -> 0 <= c_pos cl < MaxInt32) l ->
  Forall2 (pert q) l (fst (fst (rm_loop q b e off i l r))).
Proof.
  intros q b e off l. induction l as [|cl t IH]; intros i r Hbe Hoff Hpos; [constructor|].
  rewrite rm_loop_cons. destruct (blocked q b e cl) eqn:Hb; [apply pert_refl; exact Hpos|].
  inversion Hpos as [|? ? Hc Ht]; subst.
  specialize (IH (S i) (if kept q b e cl then widen r i else r) Hbe Hoff Ht).
  destruct (rm_loop q b e off (S i) t (if kept q b e cl then widen r i else r)) as [[t' r'] er].
  constructor; [apply pert_rm_cell; assumption|exact IH].
Qed.

Lemma data_nth : forall cs ps, length ps = length cs ->
  (Forall good_pair (live_pairs cs ps) <->
   forall i, (i < length cs)%nat -> live (cell_at cs i) = true -> good_pair (cell_at cs i, nth i ps None)).
Proof.
  intros cs ps Hl. rewrite Forall_forall. split.
  - intros H i Hi Hlive. apply H. apply In_live_pairs; auto. exists i. auto.
  - intros H p Hin. apply In_live_pairs in Hin; auto. destruct Hin as [i [Hi [E Hlive]]]. subst p. auto.
Qed.

Lemma existsb_abs : forall (P : cell -> bool) (Q : Spec.acell -> bool) cs ps, length ps = length cs ->
  (forall cl, P cl = true -> live cl = true) -> (forall p, Q (to_acell p) = P (fst p)) ->
  existsb Q (abs_cells cs ps) = existsb P cs.
Proof.
  intros P Q cs. induction cs as [|c t IH]; intros [|p ps] Hl HP HQ; simpl in *; try lia; auto.
  unfold abs_cells, live_pairs in *. simpl. unfold livep at 1. simpl.
  destruct (live c) eqn:E; simpl.
  - rewrite HQ. simpl. f_equal. apply IH; auto.
  - destruct (P c) eqn:EP; [rewrite (HP _ EP) in E; discriminate|]. simpl. apply IH; auto.
Qed.

Lemma existsb_false_nth : forall (P : cell -> bool) l,
  existsb P l = false <-> forall k, (k < length l)%nat -> P (cell_at l k) = false.
Proof.
  intros P l. split.
  - intros H k Hk. destruct (P (cell_at l k)) eqn:E; auto.
    assert (existsb P l = true) by (apply existsb_exists; exists (cell_at l k); split; [apply nth_In; assumption|assumption]).
    congruence.
  - intros H. destruct (existsb P l) eqn:E; auto. apply existsb_exists in E. destruct E as [x [Hin Hx]].
    apply (In_nth _ _ empty_cell) in Hin. destruct Hin as [k [Hk Hn]]. specialize (H k Hk). unfold cell_at in H. congruence.
Qed.

Lemma abs_cells_tok_ext : forall cs ps ps', Forall2 (fun d d' => tok_of d = tok_of d') ps ps' ->
  abs_cells cs ps = abs_cells cs ps'.
Proof.
  intros cs. induction cs as [|c t IH]; intros ps ps' H; simpl; auto.
  inversion H as [|d d' l l' Hd Hl]; subst; simpl; auto.
  unfold abs_cells, live_pairs in *. simpl.
  replace (livep (c, d')) with (livep (c, d)) by reflexivity.
  destruct (livep (c, d)); simpl.
  - f_equal; [unfold to_acell; simpl; rewrite Hd; reflexivity|]. apply IH. assumption.
  - apply IH. assumption.
Qed.

(** [shift] re-rotates K rows and leaves the tokens alone *)
Definition shift_datum (off : Z) (d : option datum) : option datum :=
  match d with Some x => Some (mkDatum (d_tok x) (d_kpos x + off)) | None => None end.

Lemma nth_shift_phys : forall cs r q bg off ps i, (i < length ps)%nat ->
  nth i (shift_phys cs r q bg off ps) None =
  if in_rng r i && has q (cell_at cs i) && (bg <=? c_pos (cell_at cs i)) then shift_datum off (nth i ps None) else nth i ps None.
Proof. intros. unfold shift_phys. rewrite (nth_mapi _ _ _ _ _ None None) by assumption. reflexivity. Qed.

Lemma Forall2_mapi_from : forall A (Rel : A -> A -> Prop) (f : nat -> A -> A) l i,
  (forall k x, Rel x (f k x)) -> Forall2 Rel l (mapi_from i f l).
Proof. intros A Rel f l. induction l; intros; simpl; constructor; auto. Qed.

Lemma shift_phys_tok : forall cs r q bg off ps, Forall2 (fun d d' => tok_of d = tok_of d') ps (shift_phys cs r q bg off ps).
Proof.
  intros. unfold shift_phys, mapi. apply Forall2_mapi_from. intros k x.
  destruct (in_rng r k && has q (cell_at cs k) && (bg <=? c_pos (cell_at cs k))); [destruct x|]; reflexivity.
Qed.

Lemma rm_cell_dead : forall q b e off cl, live cl = false -> live (rm_cell' q b e off cl) = false.
Proof. intros. unfold rm_cell'. rewrite (has_dead q cl H). exact H. Qed.

Lemma rm_cell_spec : forall q b e p,
  Spec.rm_cell q b e (to_acell p) = to_acell (on_cell (rm_cell' q b e (Spec.rm_offset b e)) p).
Proof.
  intros q b e [cl d]. unfold on_cell, Spec.rm_cell, rm_cell', in_be, Spec.in_range. simpl.
  rewrite has_spec. simpl. destruct (has q cl); [|reflexivity].
  destruct ((b <=? c_pos cl) && (c_pos cl <? e)); [reflexivity|]. destruct (e <=? c_pos cl); reflexivity.
Qed.

Lemma has_rm_cell_same : forall q b e off cl, has q (rm_cell' q b e off cl) = kept q b e cl.
Proof.
  intros. unfold rm_cell', kept. destruct (has q cl) eqn:Hq; simpl; [|exact Hq].
  destruct (in_be b e cl); simpl; [apply has_del_same|].
  destruct (e <=? c_pos cl); [unfold has, shift_cell; simpl|]; exact Hq.
Qed.

Lemma has_rm_cell_other : forall q q' b e off cl, q' <> q -> has q' (rm_cell' q b e off cl) = has q' cl.
Proof.
  intros. unfold rm_cell'. destruct (has q cl); [|reflexivity].
  destruct (in_be b e cl); [apply has_del_other; assumption|]. destruct (e <=? c_pos cl); reflexivity.
Qed.

Lemma existsb_kept : forall q b e off l, existsb (has q) (map (rm_cell' q b e off) l) = existsb (kept q b e) l.
Proof. intros. induction l; simpl; auto. rewrite has_rm_cell_same, IHl. reflexivity. Qed.

Lemma c_pos_rm_cell : forall q b e off cl,
  c_pos (rm_cell' q b e off cl) = if kept q b e cl && (e <=? c_pos cl) then c_pos cl + off else c_pos cl.
Proof.
  intros. unfold rm_cell', kept. destruct (has q cl); [|reflexivity]. destruct (in_be b e cl); [reflexivity|].
  destruct (e <=? c_pos cl); reflexivity.
Qed.

Lemma good_pair_pos : forall cl cl' d, good_pair (cl, d) -> c_pos cl' = c_pos cl -> good_pair (cl', d).
Proof. intros cl cl' d [x [H1 [H2 H3]]] E. exists x. simpl in *. rewrite E. auto. Qed.

(** with the shift: exactly the rows of the cells that moved are re-rotated, by the same amount *)
Lemma good_pair_rm_shift : forall q b e cl d, 0 <= b <= e -> good_pair (cl, d) ->
  let cl' := rm_cell' q b e (b - e) cl in
  good_pair (cl', if kept q b e cl && (b <=? c_pos cl') then shift_datum (b - e) d else d).
Proof.
  intros q b e cl d Hbe [x [H1 [H2 H3]]] cl'. simpl in H1, H2, H3. subst d. unfold cl'. rewrite c_pos_rm_cell.
  unfold good_pair. cbn [fst snd]. rewrite c_pos_rm_cell. unfold kept, in_be.
  destruct (has q cl); cbn [andb]; [|eauto].
  destruct (Z.leb_spec b (c_pos cl)); destruct (Z.ltb_spec (c_pos cl) e); cbn [andb negb]; eauto.
  - destruct (Z.leb_spec e (c_pos cl)); [|lia]. destruct (Z.leb_spec b (c_pos cl + (b - e))); [|lia].
    eexists. split; [reflexivity|]. simpl. lia.
  - destruct (Z.leb_spec e (c_pos cl)); [lia|]. destruct (Z.leb_spec b (c_pos cl)); [lia|]. eauto.
  - lia.
Qed.

Lemma remove_inv : forall c q b e off ps' rs', Inv c ->
  length ps' = length (cells c) ->
  (forall i, (i < length (cells c))%nat -> good_pair (cell_at (cells c) i, nth i (phys c) None) ->
     live (rm_cell' q b e off (cell_at (cells c) i)) = true ->
     good_pair (rm_cell' q b e off (cell_at (cells c) i), nth i ps' None)) ->
  (forall q', q' <> q -> lookup rs' q' = lookup (ranges c) q') ->
  (existsb (kept q b e) (cells c) = true -> lookup rs' q = Some (range_of (fun _ cl => kept q b e cl) (cells c))) ->
  RP rs' ->
  Inv (with_cpr c (map (rm_cell' q b e off) (cells c)) ps' rs').
Proof.
  intros c q b e off ps' rs' HI Hlen Hdat Hro Hrq Hrp.
  pose proof (proj1 (data_nth _ _ (inv_len c HI)) (inv_data c HI)) as HD.
  constructor; simpl; rewrite ?map_length.
  - exact Hlen.
  - apply (inv_size c HI).
  - apply data_nth; rewrite map_length; [exact Hlen|]. intros i Hi Hlive. rewrite cell_at_map in * by assumption.
    apply Hdat; auto. apply HD; [assumption|].
    destruct (live (cell_at (cells c) i)) eqn:E; auto. rewrite rm_cell_dead in Hlive by exact E. discriminate.
  - intros i q' Hi Hq'. rewrite cell_at_map in Hq' by assumption.
    destruct (Nat.eq_dec q' q) as [->|Hne].
    + rewrite has_rm_cell_same in Hq'. eexists. split.
      * apply Hrq. apply existsb_exists. exists (cell_at (cells c) i). split; [apply nth_In; assumption|exact Hq'].
      * apply range_of_covers; assumption.
    + rewrite has_rm_cell_other in Hq' by assumption. rewrite Hro by assumption. apply (inv_rng c HI i q' Hi Hq').
  - apply (inv_pad c HI).
  - exact Hrp.
Qed.

(** Remove and its specification, by the tests they make.  [blocked] anywhere: ErrShared; nothing [kept]: the range is
    dropped; otherwise the positions behind the range move, unless there is no shift function. *)
Lemma remove_cases : forall c q b e, Inv c ->
  let off := Spec.rm_offset b e in
  let cs := map (rm_cell' q b e off) (cells c) in
  let r := range_of (fun _ cl => kept q b e cl) (cells c) in
  remove c q b e =
    if existsb (blocked q b e) (cells c)
    then (with_cpr c (fst (fst (rm_loop q b e off 0 (cells c) new_range))) (phys c) (ranges c), OErr EShared)
    else if negb (existsb (kept q b e) (cells c)) then (with_cpr c cs (phys c) (delete (ranges c) q), OOk)
    else if e =? MaxInt32 then (with_cpr c cs (phys c) (update (ranges c) q r), OOk)
    else if negb (can_shift c) then (with_cpr c cs (phys c) (update (ranges c) q r), OErr ENotSupported)
    else (with_cpr c cs (shift_phys cs r q (e + off) off (phys c)) (update (ranges c) q r), OOk).
Proof.
  intros c q b e HI off cs r. unfold remove. change (if e =? MaxInt32 then 0 else b - e) with off.
  pose proof (rm_loop_spec q b e off (cells c) 0 new_range) as HS.
  destruct (rm_loop q b e off 0 (cells c) new_range) as [[cs0 r0] er]. destruct HS as [Her [_ Hok]]. rewrite <- Her.
  destruct er; [reflexivity|]. destruct (Hok eq_refl) as [-> ->]. fold (range_of (fun _ cl => kept q b e cl) (cells c)). fold cs r.
  replace ((fst r =? MaxInt) && (snd r =? 0)) with (negb (existsb (kept q b e) (cells c))); [reflexivity|].
  pose proof (range_of_new_iff (fun _ cl => kept q b e cl) (cells c) (inv_size c HI)) as Hn. fold r in Hn.
  destruct (existsb (kept q b e) (cells c)) eqn:Ek; symmetry.
  - apply not_true_is_false. intros En. pose proof (proj2 (existsb_false_nth (kept q b e) _) (proj1 Hn En)). congruence.
  - apply (proj2 Hn), (existsb_false_nth (kept q b e)). exact Ek.
Qed.

Lemma spec_remove_abs : forall c q b e, Inv c ->
  Spec.spec_remove (abs c) q b e =
    if existsb (blocked q b e) (cells c) then (abs c, Some Spec.EShared)
    else if negb (existsb (kept q b e) (cells c)) || (e =? MaxInt32) || can_shift c
         then (Spec.with_cells (abs c) (abs_cells (map (rm_cell' q b e (Spec.rm_offset b e)) (cells c)) (phys c)), None)
         else (abs c, Some Spec.ENotSupported).
Proof.
  intros c q b e HI. pose proof (inv_len c HI) as HL. unfold Spec.spec_remove. simpl.
  rewrite (existsb_abs (blocked q b e) _ _ _ HL); auto.
  2:{ intros cl Hb. unfold blocked in Hb. repeat (apply andb_true_iff in Hb; destruct Hb as [Hb _]). eapply has_live; eauto. }
  destruct (existsb (blocked q b e) (cells c)); [reflexivity|].
  rewrite <- (abs_cells_map _ _ _ _ (rm_cell_dead q b e (Spec.rm_offset b e)) (rm_cell_spec q b e)).
  rewrite (existsb_abs (has q) (Spec.has q)), existsb_kept; auto; [|rewrite map_length; exact HL|intros; eapply has_live; eauto].
  change Spec.MaxInt32 with MaxInt32.
  destruct (existsb (kept q b e) (cells c)); destruct (e =? MaxInt32); destruct (can_shift c); reflexivity.
Qed.

Theorem remove_ok : forall c q b e c', Inv c -> 0 <= b <= e -> remove c q b e = (c', OOk) ->
  Inv c' /\ Spec.spec_remove (abs c) q b e = (abs c', None).
Proof.
  intros c q b e c' HI Hbe H. rewrite remove_cases in H by exact HI. rewrite spec_remove_abs by exact HI.
  set (off := Spec.rm_offset b e) in *. set (r := range_of (fun _ cl => kept q b e cl) (cells c)) in *.
  pose proof (inv_len c HI) as HL.
  destruct (existsb (blocked q b e) (cells c)); [discriminate|].
  assert (Hrpu : RP (update (ranges c) q r)) by (apply rpos_update; [exact (inv_rpos c HI)|apply range_of_fst_nonneg]).
  (* where no cell moves, the rows are as good as before *)
  assert (Hstay : (forall i, (i < length (cells c))%nat -> kept q b e (cell_at (cells c) i) = true -> off = 0) ->
            forall i, (i < length (cells c))%nat -> good_pair (cell_at (cells c) i, nth i (phys c) None) ->
            live (rm_cell' q b e off (cell_at (cells c) i)) = true ->
            good_pair (rm_cell' q b e off (cell_at (cells c) i), nth i (phys c) None)).
  { intros H0 i Hi Hg _. apply (good_pair_pos _ _ _ Hg). rewrite c_pos_rm_cell.
    destruct (kept q b e (cell_at (cells c) i)) eqn:Ek; [rewrite (H0 i Hi Ek)|]; simpl; [destruct (e <=? _)|]; lia. }
  destruct (existsb (kept q b e) (cells c)) eqn:Ek; cbn [negb orb] in H |- *.
  - destruct (Z.eqb_spec e MaxInt32) as [Ee|Ee]; cbn [orb] in H |- *.
    + injection H as <-. rewrite abs_with_cpr by apply map_length. split; [|reflexivity].
      apply remove_inv; auto using lookup_update_other, lookup_update_same.
      apply Hstay. intros. unfold off, Spec.rm_offset. subst e. reflexivity.
    + destruct (can_shift c); [|discriminate]. injection H as <-. cbn [negb]. rewrite abs_with_cpr by apply map_length.
      split; [|do 2 f_equal; apply abs_cells_tok_ext, shift_phys_tok].
      assert (Eo : off = b - e) by (unfold off, Spec.rm_offset; destruct (Z.eqb_spec e Spec.MaxInt32); [contradiction|reflexivity]).
      apply remove_inv; auto using lookup_update_other, lookup_update_same.
      { unfold shift_phys. rewrite mapi_length. exact HL. }
      intros i Hi Hg _. rewrite nth_shift_phys by lia. rewrite cell_at_map, has_rm_cell_same by exact Hi.
      pose proof (good_pair_rm_shift q b e _ _ Hbe Hg) as G. cbv zeta in G. rewrite Eo. replace (e + (b - e)) with b by lia.
      destruct (kept q b e (cell_at (cells c) i)) eqn:Eki; [|rewrite andb_false_r; exact G].
      unfold r. rewrite range_of_covers by assumption. exact G.
  - injection H as <-. rewrite abs_with_cpr by apply map_length. split; [|reflexivity].
    apply remove_inv; auto using lookup_delete_other; [|congruence|apply rpos_delete; exact (inv_rpos c HI)].
    apply Hstay. intros i Hi Eki. apply (proj1 (existsb_false_nth _ _) Ek) in Hi. congruence.
Qed.

Definition err_match (er : err) (ser : Spec.serr) : Prop :=
  match er, ser with
  | EFull, Spec.EFull => True | EShared, Spec.EShared => True | ENotSupported, Spec.ENotSupported => True
  | _, _ => False
  end.

Lemma valid_positions : forall c q, Inv c -> Forall (fun cl => has q cl = true -> 0 <= c_pos cl < MaxInt32) (cells c).
Proof.
  intros c q HI. apply Forall_forall. intros cl Hin Hq. apply (In_nth _ _ empty_cell) in Hin.
  destruct Hin as [k [Hk Hn]]. pose proof (proj1 (data_nth _ _ (inv_len c HI)) (inv_data c HI) k Hk) as HD.
  unfold cell_at in HD. rewrite Hn in HD. destruct HD as [x [_ [_ Hp]]]; [eapply has_live; eauto|exact Hp].
Qed.

(** [c1] is what a Remove on sequence [q] that gave up leaves of the good state [c]: only cells of [q] and the range of [q]
    are affected, and no row was touched *)
Definition half_removed (c c1 : cache) (q : nat) : Prop :=
  Forall2 (pert q) (cells c) (cells c1) /\ phys c1 = phys c /\
  window c1 = window c /\ can_shift c1 = can_shift c /\ cpad c1 = cpad c /\
  (forall q', q' <> q -> lookup (ranges c1) q' = lookup (ranges c) q').

Theorem remove_err : forall c q b e c' er, Inv c -> 0 <= b <= e -> remove c q b e = (c', OErr er) ->
  (exists ser, Spec.spec_remove (abs c) q b e = (abs c, Some ser) /\ err_match er ser) /\ half_removed c c' q.
Proof.
  intros c q b e c' er HI Hbe H. split.
  - rewrite remove_cases in H by exact HI. rewrite spec_remove_abs by exact HI.
    destruct (existsb (blocked q b e) (cells c)); [injection H as _ <-; exists Spec.EShared; split; [reflexivity|exact I]|].
    destruct (existsb (kept q b e) (cells c)); cbn [negb orb] in *; [|discriminate].
    destruct (e =? MaxInt32); [discriminate|]. destruct (can_shift c); [discriminate|].
    injection H as _ <-. exists Spec.ENotSupported. split; [reflexivity|exact I].
  - unfold remove in H. set (off := if e =? MaxInt32 then 0 else b - e) in *.
    assert (Hoff : off = 0 \/ off = b - e) by (unfold off; destruct (e =? MaxInt32); auto).
    pose proof (rm_loop_pert q b e off (cells c) 0 new_range Hbe Hoff (valid_positions c q HI)) as HP.
    destruct (rm_loop q b e off 0 (cells c) new_range) as [[cs r] er0]. simpl in HP.
    assert (Hup : forall q', q' <> q -> lookup (update (ranges c) q r) q' = lookup (ranges c) q')
      by (intros; apply lookup_update_other; assumption).
    destruct er0; [|destruct (_ && _); [discriminate|]; destruct (e =? MaxInt32); [discriminate|];
                    destruct (negb (can_shift c)); [|discriminate]];
      injection H as <- _; unfold half_removed; simpl; auto 10.
Qed.

Lemma rm_loop_clear : forall q l i r, Forall (fun cl => has q cl = true -> 0 <= c_pos cl < MaxInt32) l ->
  rm_loop q 0 MaxInt32 0 i l r = (map (del q) l, r, false).
Proof.
  intros q l. induction l as [|cl t IH]; intros i r H; simpl; auto.
  inversion H as [|? ? Hc Ht]; subst. rewrite (IH (S i) r Ht).
  destruct (has q cl) eqn:Hq.
  - specialize (Hc eq_refl).
    replace ((0 <=? c_pos cl) && (c_pos cl <? MaxInt32)) with true; [reflexivity|].
    symmetry. apply andb_true_iff. split; [apply Z.leb_le|apply Z.ltb_lt]; lia.
  - rewrite (has_false_del _ _ Hq). reflexivity.
Qed.

Definition eq_or_dead (x y : cell) : Prop := x = y \/ (live x = false /\ live y = false).

Lemma live_pairs_ext : forall cs1 cs2 ps, Forall2 eq_or_dead cs1 cs2 -> live_pairs cs1 ps = live_pairs cs2 ps.
Proof.
  intros cs1 cs2 ps H. revert ps. induction H as [|x y l l' Hxy Hl IH]; intros ps; simpl; auto.
  destruct ps as [|p ps]; simpl; auto. unfold live_pairs in *. simpl.
  destruct Hxy as [->|[Hx Hy]].
  - destruct (livep (y, p)); rewrite IH; reflexivity.
  - replace (livep (x, p)) with false by (unfold livep; simpl; congruence).
    replace (livep (y, p)) with false by (unfold livep; simpl; congruence). apply IH.
Qed.

Lemma pert_del : forall q l l', Forall2 (pert q) l l' -> Forall2 eq_or_dead (map (del q) l') (map (del q) l).
Proof.
  intros q l l' H. induction H as [|a a' t t' Ha Ht IH]; simpl; constructor; auto.
  destruct Ha as [Hs [Hp _]]. unfold eq_or_dead.
  destruct (c_seqs (del q a)) as [|x rest] eqn:Es.
  - right. unfold live. rewrite Hs, Es. auto.
  - left. assert (Ho : others q a = true).
    { unfold others. apply existsb_exists. exists x. assert (Hin : In x (c_seqs (del q a))) by (rewrite Es; left; reflexivity).
      unfold del in Hin. simpl in Hin. apply filter_In in Hin. exact Hin. }
    specialize (Hp Ho). unfold del in *. simpl in *. rewrite Hp, Hs, Es. reflexivity.
Qed.

Lemma pert_has_other : forall q q' a a', pert q a a' -> q' <> q -> has q' a' = has q' a.
Proof.
  intros q q' a a' [Hs _] Hne. rewrite <- (has_del_other q' q a') by assumption. rewrite <- (has_del_other q' q a) by assumption.
  unfold has. rewrite Hs. reflexivity.
Qed.

Lemma Forall2_length' : forall A B (Rel : A -> B -> Prop) l l', Forall2 Rel l l' -> length l = length l'.
Proof. intros A B Rel l l' H. induction H; simpl; auto. Qed.

Theorem clear_correct : forall c c1 q, Inv c -> half_removed c c1 q ->
  exists c2, remove c1 q 0 MaxInt32 = (c2, OOk) /\ Inv c2 /\ abs c2 = fst (Spec.spec_remove (abs c) q 0 MaxInt32).
Proof.
  intros c c1 q HI [HP [Hph [Hw [Hsh [Hpad Hrs]]]]].
  assert (Hlen1 : length (cells c1) = length (cells c)) by (symmetry; eapply Forall2_length'; eauto).
  assert (Hv1 : Forall (fun cl => has q cl = true -> 0 <= c_pos cl < MaxInt32) (cells c1)).
  { clear - HP. induction HP; constructor; auto. destruct H as [_ [_ H]]. exact H. }
  (* the same clean-up from the good state, for which remove_ok applies *)
  assert (Hrm : remove c q 0 MaxInt32 = (with_cpr c (map (del q) (cells c)) (phys c) (delete (ranges c) q), OOk)).
  { unfold remove. rewrite Z.eqb_refl. rewrite (rm_loop_clear q _ 0 new_range (valid_positions c q HI)). reflexivity. }
  destruct (remove_ok c q 0 MaxInt32 _ HI ltac:(unfold MaxInt32; lia) Hrm) as [HI0 Hs'].
  assert (Hlp : live_pairs (map (del q) (cells c1)) (phys c) = live_pairs (map (del q) (cells c)) (phys c))
    by (apply live_pairs_ext, pert_del; exact HP).
  exists (with_cpr c1 (map (del q) (cells c1)) (phys c1) (delete (ranges c1) q)).
  split; [|split].
  - unfold remove. rewrite Z.eqb_refl. rewrite (rm_loop_clear q _ 0 new_range Hv1). reflexivity.
  - constructor; simpl.
    + rewrite map_length, Hph, Hlen1. apply (inv_len c HI).
    + rewrite map_length, Hlen1. apply (inv_size c HI).
    + rewrite Hph, Hlp. apply (inv_data _ HI0).
    + intros i q' Hi Hq'. rewrite map_length in Hi. rewrite cell_at_map in Hq' by assumption.
      destruct (Nat.eq_dec q' q) as [->|Hne]; [rewrite has_del_same in Hq'; discriminate|].
      rewrite has_del_other in Hq' by assumption.
      rewrite lookup_delete_other, Hrs by assumption.
      apply (inv_rng c HI i q'); [lia|].
      assert (Hpi : pert q (cell_at (cells c) i) (cell_at (cells c1) i)).
      { clear - HP Hi Hlen1. revert i Hi. induction HP; intros i Hi; simpl in *; [lia|].
        destruct i; unfold cell_at; simpl; auto. apply IHHP; lia. }
      rewrite <- (pert_has_other q q' _ _ Hpi Hne). exact Hq'.
    + rewrite Hpad. apply (inv_pad c HI).
    + intros q' r Hr. destruct (Nat.eq_dec q' q) as [->|Hne].
      * rewrite lookup_delete_same in Hr. discriminate.
      * rewrite lookup_delete_other, Hrs in Hr by assumption. eapply (inv_rpos c HI); eauto.
  - rewrite Hs'. unfold abs, abs_cells. simpl. rewrite !map_length, Hph, Hlp, Hlen1, Hw, Hsh. reflexivity.
Qed.

Lemma remove_out_shape : forall c q b e, snd (remove c q b e) = OOk \/ exists er, snd (remove c q b e) = OErr er.
Proof.
  intros. unfold remove. destruct (rm_loop _ _ _ _ _ _ _) as [[? ?] []]; simpl; eauto.
  repeat match goal with |- context [if ?x then _ else _] => destruct x end; simpl; eauto.
Qed.

(** KvCache/ProofsWindow.v - the specification (KvCache/Spec.v) against the ideal history that never forgets.  A ghost [g_M]
    collects, per sequence, what the window evicted; [gstep_inv]: ideal history = what the specification holds ++ what was
    evicted, so a token sees its ideal window iff nothing evicted lies inside it ([visible_ideal]).  Appending keeps evicted
    entries below every later window; Remove of a middle range (positions shift down) does not - the known finding. *)
From Coq Require Import List ZArith NArith Bool Arith Lia Permutation.
From V Require Import KvCache.ProofsInv.
From V Require Import KvCache.Spec.
Import ListNotations.
Open Scope Z_scope.

Definition pmap := nat -> list (Z * N).
Definition upd (f : pmap) (q : nat) (v : list (Z * N)) : pmap := fun x => if Nat.eqb x q then v else f x.

Definition batch_of (batch : list entry) (q : nat) : list (Z * N) :=
  map (fun e : entry => (snd (fst e), snd e)) (filter (fun e : entry => Nat.eqb q (fst (fst e))) batch).

Definition rm_list (b e : Z) (l : list (Z * N)) : list (Z * N) :=
  filter (fun x => fst x <? b) l ++ map (fun x => (fst x + rm_offset b e, snd x)) (filter (fun x => e <=? fst x) l).

Definition a_forward (A : pmap) (batch : list entry) : pmap := fun q => A q ++ batch_of batch q.
Definition a_copy (A : pmap) (src dst : nat) (len : Z) : pmap := upd A dst (filter (fun x => fst x <? len) (A src)).
Definition a_remove (A : pmap) (q : nat) (b e : Z) : pmap := upd A q (rm_list b e (A q)).
Definition a_clear (A : pmap) (q : nat) : pmap := upd A q [].

(** what the window evicts from sequence [q] when [batch] is stored *)
Definition m_forward (w : option Z) (M : pmap) (s : sstate) (batch : list entry) : pmap :=
  match w with
  | None => M
  | Some w => fun q => M q ++ filter (fun x => evicted w batch q (fst x)) (hist_raw s q)
  end.

Record gstate := mkG { g_s : sstate; g_A : pmap; g_M : pmap }.

Definition gstep (g : gstate) (o : sop) : gstate :=
  match o with
  | SForward batch =>
      let '(s', e) := spec_forward (g_s g) batch in
      mkG s' (match e with None => a_forward (g_A g) batch | Some _ => g_A g end)
          (m_forward (s_window (g_s g)) (g_M g) (g_s g) batch)
  | SCopy src dst len => mkG (spec_copy (g_s g) src dst len) (a_copy (g_A g) src dst len) (a_copy (g_M g) src dst len)
  | SRemove q b e =>
      let '(s', r) := spec_remove_c (g_s g) q b e in
      match r with
      | None => mkG s' (a_remove (g_A g) q b e) (a_remove (g_M g) q b e)
      | Some _ => mkG s' (a_clear (g_A g) q) (a_clear (g_M g) q)
      end
  | SCanResume _ _ => g
  end.

Definition grun (g : gstate) (ops : list sop) : gstate := fold_left gstep ops g.
Definition ginit (s : sstate) : gstate := mkG s (fun _ => []) (fun _ => []).

Lemma g_s_grun : forall ops g, g_s (grun g ops) = spec_prun (g_s g) ops.
Proof.
  induction ops as [|o t IH]; intros g; simpl; auto. rewrite IH. f_equal.
  destruct o; simpl; auto.
  - destruct (spec_forward (g_s g) batch); reflexivity.
  - destruct (spec_remove_c (g_s g) q b e) as [s' [er|]]; reflexivity.
Qed.

Definition sop_ok (o : sop) : Prop :=
  match o with
  | SForward batch => Forall (fun e : entry => 0 <= snd (fst e) < MaxInt32) batch
  | SRemove _ b e => 0 <= b <= e
  | SCopy src dst _ => src <> dst
  | SCanResume _ _ => True
  end.

Definition pos_ok (s : sstate) : Prop := Forall (fun a => 0 <= a_pos a < MaxInt32) (s_cells s).

Record GI (g : gstate) : Prop := mkGI {
  gi_pos : pos_ok (g_s g);
  gi_perm : forall q, Permutation (hist_raw (g_s g) q ++ g_M g q) (g_A g q)
}.

Lemma filter_has_prune : forall q l, filter (has q) (prune l) = filter (has q) l.
Proof.
  intros q l. unfold prune. rewrite filter_filter. apply filter_ext_in. intros x _.
  destruct (has q x) eqn:E; [rewrite (has_live_spec _ _ E); reflexivity|apply andb_false_r].
Qed.

Lemma hist_raw_cells : forall s l q, hist_raw (with_cells s l) q = map pt (filter (has q) l).
Proof. reflexivity. Qed.

Lemma hist_batch : forall batch q, map pt (filter (has q) (map entry_cell batch)) = batch_of batch q.
Proof.
  intros batch q. unfold batch_of. induction batch as [|[[q' p] t] r IH]; simpl; auto.
  unfold has at 1. simpl. rewrite orb_false_r. destruct (Nat.eqb q q'); simpl; rewrite IH; reflexivity.
Qed.

Lemma filter_partition_perm : forall A (f : A -> bool) l, Permutation (filter (fun x => negb (f x)) l ++ filter f l) l.
Proof.
  intros A f l. induction l as [|a t IH]; simpl; auto. destruct (f a); simpl.
  - apply Permutation_sym, Permutation_cons_app, Permutation_sym. exact IH.
  - constructor. exact IH.
Qed.

Lemma has_filter_seqs : forall q (f : seqid -> bool) p t sq, has q (mkA p t (filter f sq)) = has q (mkA p t sq) && f q.
Proof.
  intros q f p t sq. unfold has. simpl. induction sq as [|x r IH]; simpl; auto.
  destruct (f x) eqn:Ef; simpl.
  - rewrite IH. destruct (Nat.eqb_spec q x); simpl; [subst; rewrite Ef; reflexivity|reflexivity].
  - rewrite IH. destruct (Nat.eqb_spec q x); simpl; [subst; rewrite Ef, andb_false_r; reflexivity|reflexivity].
Qed.

(** what one cell contributes to the history of [q] *)
Definition sel (q : seqid) (a : acell) : list (Z * N) := if has q a then [pt a] else [].

Lemma hist_flat : forall q l, map pt (filter (has q) l) = flat_map (sel q) l.
Proof. intros q l. induction l as [|a r IH]; simpl; auto. unfold sel at 1. destruct (has q a); simpl; rewrite IH; reflexivity. Qed.

(** a cell-wise operation [f] acts on a per-sequence history as its per-entry reading [k] *)
Lemma hist_map_cell : forall (f : acell -> acell) q q0 (k : Z * N -> list (Z * N)) l,
  (forall a, In a l -> sel q (f a) = if has q0 a then k (pt a) else []) ->
  map pt (filter (has q) (map f l)) = flat_map k (map pt (filter (has q0) l)).
Proof.
  intros f q q0 k l H. rewrite hist_flat. induction l as [|a r IH]; simpl; auto.
  rewrite (H a (or_introl eq_refl)), IH by (intros; apply H; right; assumption).
  destruct (has q0 a); reflexivity.
Qed.

Lemma flat_map_if : forall A (g : A -> bool) l, flat_map (fun x => if g x then [x] else []) l = filter g l.
Proof. intros. induction l as [|a r IH]; simpl; auto. destruct (g a); simpl; rewrite IH; reflexivity. Qed.

Lemma flat_map_single : forall A (l : list A), flat_map (fun x => [x]) l = l.
Proof. intros. induction l; simpl; congruence. Qed.

Lemma hist_evict : forall w batch l q,
  map pt (filter (has q) (prune (map (evict_cell w batch) l))) =
  filter (fun x => negb (evicted w batch q (fst x))) (map pt (filter (has q) l)).
Proof.
  intros. rewrite filter_has_prune, <- (flat_map_if _ (fun x : Z * N => negb (evicted w batch q (fst x)))).
  apply (hist_map_cell _ q q). intros [p t sq] _.
  unfold sel, evict_cell. cbn [a_pos a_tok a_seqs]. rewrite has_filter_seqs. cbn [pt fst a_pos a_tok].
  destruct (has q (mkA p t sq)); destruct (evicted w batch q p); reflexivity.
Qed.

Lemma copy_cell_pt : forall src dst len a, pt (copy_cell src dst len a) = pt a.
Proof. intros src dst len [p t sq]. unfold copy_cell. simpl. destruct (_ && _); reflexivity. Qed.

Lemma hist_copy : forall s src dst len q, src <> dst ->
  hist_raw (spec_copy s src dst len) q =
  if Nat.eqb q dst then filter (fun x => fst x <? len) (hist_raw s src) else hist_raw s q.
Proof.
  intros s src dst len q Hne. unfold spec_copy, hist_raw. simpl. rewrite filter_has_prune.
  destruct (Nat.eqb_spec q dst) as [->|Hq].
  - rewrite <- (flat_map_if _ (fun x : Z * N => fst x <? len)). apply (hist_map_cell _ dst src). intros a _.
    unfold sel. rewrite copy_cell_has, Nat.eqb_refl, (has_drop_other src dst a Hne), copy_cell_pt.
    destruct (has src a); reflexivity.
  - rewrite (hist_map_cell _ q q (fun x => [x])); [apply flat_map_single|]. intros a _.
    unfold sel. rewrite copy_cell_has, copy_cell_pt. destruct (Nat.eqb_spec q dst); [contradiction|reflexivity].
Qed.

Lemma hist_remove_other : forall l q q' b e, q' <> q -> existsb (rm_blocked q b e) l = false ->
  map pt (filter (has q') (map (rm_cell q b e) l)) = map pt (filter (has q') l).
Proof.
  intros l q q' b e Hne Hb. rewrite (hist_map_cell _ q' q' (fun x => [x])); [apply flat_map_single|].
  intros a Ha. assert (Hba : rm_blocked q b e a = false).
  { destruct (rm_blocked q b e a) eqn:E; auto. rewrite <- Hb. symmetry. apply existsb_exists. eauto. }
  unfold sel, rm_cell. destruct (has q a) eqn:Hq; [|reflexivity].
  destruct (in_range b e (a_pos a)) eqn:Hin; [rewrite (has_drop_other q' q a Hne); destruct a; reflexivity|].
  destruct (e <=? a_pos a) eqn:He; [|reflexivity].
  (* would be shifted: then nobody else owns it *)
  unfold rm_blocked in Hba. rewrite Hq, Hin, He in Hba. simpl in Hba.
  replace (has q' (shift_pos (rm_offset b e) a)) with (has q' a) by (destruct a; reflexivity).
  destruct (has q' a) eqn:E; [|reflexivity]. exfalso. unfold has in E. apply existsb_exists in E. destruct E as [x [Hx Hxe]].
  apply Nat.eqb_eq in Hxe. subst x. unfold others in Hba.
  assert (existsb (fun x => negb (Nat.eqb x q)) (a_seqs a) = true); [|congruence].
  apply existsb_exists. exists q'. split; auto. destruct (Nat.eqb_spec q' q); [contradiction|reflexivity].
Qed.

Definition rm1 (b e : Z) (x : Z * N) : list (Z * N) :=
  if fst x <? b then [x] else if e <=? fst x then [(fst x + rm_offset b e, snd x)] else [].

Lemma rm_list_flat : forall b e l, b <= e -> Permutation (flat_map (rm1 b e) l) (rm_list b e l).
Proof.
  intros b e l Hbe. unfold rm_list. induction l as [|x r IH]; simpl; auto. unfold rm1 at 1.
  destruct (Z.ltb_spec (fst x) b); destruct (Z.leb_spec e (fst x)); try lia; simpl.
  - apply perm_skip. exact IH.
  - apply Permutation_cons_app. exact IH.
  - exact IH.
Qed.

Lemma hist_remove_same : forall l q b e, b <= e ->
  Permutation (map pt (filter (has q) (map (rm_cell q b e) l))) (rm_list b e (map pt (filter (has q) l))).
Proof.
  intros l q b e Hbe. rewrite (hist_map_cell _ q q (rm1 b e)); [apply rm_list_flat; exact Hbe|].
  intros [p t sq] _. unfold sel, rm_cell, rm1, in_range. cbn [a_pos pt fst snd].
  destruct (has q (mkA p t sq)) eqn:Hq; [|rewrite Hq; reflexivity].
  destruct (Z.leb_spec b p); destruct (Z.ltb_spec p e); destruct (Z.ltb_spec p b); destruct (Z.leb_spec e p); try lia; cbn [andb];
    rewrite ?has_drop_same; try (unfold has, shift_pos in *; cbn [a_seqs] in *; rewrite Hq); reflexivity.
Qed.

Lemma remove_max_spec : forall s q b, pos_ok s ->
  spec_remove s q b MaxInt32 = (with_cells s (prune (map (rm_cell q b MaxInt32) (s_cells s))), None).
Proof.
  intros s q b Hp. apply spec_remove_max. intros a Ha. unfold pos_ok in Hp. rewrite Forall_forall in Hp. apply (Hp a Ha).
Qed.

Lemma clear_cells : forall s q, pos_ok s ->
  spec_remove s q 0 MaxInt32 = (with_cells s (prune (map (drop_seq q) (s_cells s))), None).
Proof.
  intros s q Hp. rewrite (remove_max_spec s q 0 Hp). do 3 f_equal.
  unfold pos_ok in Hp. induction Hp as [|a r Ha Hr IH]; simpl; auto. rewrite IH. f_equal.
  unfold rm_cell, in_range. destruct (has q a) eqn:Hq.
  - destruct (Z.leb_spec 0 (a_pos a)); destruct (Z.ltb_spec (a_pos a) MaxInt32); simpl; try lia. reflexivity.
  - destruct a as [p t sq]. unfold drop_seq, has in *. simpl in *. f_equal. clear - Hq.
    induction sq as [|x l IH]; simpl in *; auto. apply orb_false_iff in Hq. destruct Hq as [H1 H2].
    destruct (Nat.eqb_spec x q); simpl; [subst; rewrite Nat.eqb_refl in H1; discriminate|]. f_equal. auto.
Qed.

Lemma hist_clear : forall l q q',
  map pt (filter (has q') (prune (map (drop_seq q) l))) = if Nat.eqb q' q then [] else map pt (filter (has q') l).
Proof.
  intros. rewrite filter_has_prune. destruct (Nat.eqb_spec q' q) as [->|Hne].
  - rewrite (hist_map_cell _ q q (fun _ => [])); [induction (map pt _); auto|].
    intros a _. unfold sel. rewrite has_drop_same. destruct (has q a); reflexivity.
  - rewrite (hist_map_cell _ q' q' (fun x => [x])); [apply flat_map_single|].
    intros a _. unfold sel. rewrite (has_drop_other q' q a Hne). destruct a; reflexivity.
Qed.

Lemma pos_ok_prune_map : forall (f : acell -> acell) s l,
  (forall a, 0 <= a_pos a < MaxInt32 -> 0 <= a_pos (f a) < MaxInt32) ->
  Forall (fun a => 0 <= a_pos a < MaxInt32) l -> pos_ok (with_cells s (prune (map f l))).
Proof.
  intros f s l Hf Hl. unfold pos_ok. simpl. apply Forall_forall. intros x Hx. unfold prune in Hx. apply filter_In in Hx.
  destruct Hx as [Hx _]. apply in_map_iff in Hx. destruct Hx as [a [<- Ha]]. apply Hf. rewrite Forall_forall in Hl. auto.
Qed.

Lemma rm_cell_pos : forall q b e a, 0 <= b <= e -> 0 <= a_pos a < MaxInt32 -> 0 <= a_pos (rm_cell q b e a) < MaxInt32.
Proof.
  intros q b e [p t sq] Hbe Hp. unfold rm_cell, rm_offset. simpl in *. destruct (has q _); auto.
  destruct (in_range b e p); auto. destruct (Z.leb_spec e p); auto. simpl.
  destruct (Z.eqb_spec e MaxInt32); lia.
Qed.

Lemma spec_remove_pos : forall s q b e, pos_ok s -> 0 <= b <= e -> pos_ok (fst (spec_remove s q b e)).
Proof.
  intros s q b e Hp Hbe. unfold spec_remove.
  assert (H : pos_ok (with_cells s (prune (map (rm_cell q b e) (s_cells s)))))
    by (apply pos_ok_prune_map; [intros; apply rm_cell_pos; assumption|exact Hp]).
  repeat match goal with |- context [if ?x then _ else _] => destruct x end; simpl; auto.
Qed.

Lemma spec_remove_ok_shape : forall s q b e s1, spec_remove s q b e = (s1, None) ->
  existsb (rm_blocked q b e) (s_cells s) = false /\ s1 = with_cells s (prune (map (rm_cell q b e) (s_cells s))).
Proof.
  intros s q b e s1 H. unfold spec_remove in H. destruct (existsb (rm_blocked q b e) (s_cells s)); [discriminate|].
  split; [reflexivity|].
  repeat match type of H with context [if ?x then _ else _] => destruct x end; try discriminate; injection H as <-; reflexivity.
Qed.

Lemma rm_list_perm : forall b e l l', Permutation l l' -> Permutation (rm_list b e l) (rm_list b e l').
Proof.
  intros b e l l' H. unfold rm_list. apply Permutation_app; [apply Permutation_filter'|apply Permutation_map, Permutation_filter']; assumption.
Qed.

Lemma rm_list_app : forall b e l1 l2, Permutation (rm_list b e (l1 ++ l2)) (rm_list b e l1 ++ rm_list b e l2).
Proof.
  intros. unfold rm_list. rewrite !filter_app, map_app. rewrite <- !app_assoc. apply Permutation_app_head.
  rewrite !app_assoc. apply Permutation_app_tail. apply Permutation_app_comm.
Qed.

Lemma evicted_none : forall w batch q x, lowest batch q = None -> evicted w batch q x = false.
Proof. intros. unfold evicted. rewrite H. reflexivity. Qed.

Theorem gstep_inv : forall g o, GI g -> sop_ok o -> GI (gstep g o).
Proof.
  intros g o [Hpos Hperm] Hok. destruct o as [batch|src dst len|q b e|q p]; simpl in *.
  - unfold spec_forward.
    set (l := evict (s_window (g_s g)) batch (s_cells (g_s g))).
    assert (Hl : Forall (fun a => 0 <= a_pos a < MaxInt32) l).
    { unfold l, evict. destruct (s_window (g_s g)) as [w|]; [|exact Hpos].
      apply (pos_ok_prune_map (evict_cell w batch) (g_s g)); [intros [p t sq]; auto|exact Hpos]. }
    assert (Hh : forall q, Permutation (map pt (filter (has q) l) ++ m_forward (s_window (g_s g)) (g_M g) (g_s g) batch q) (g_A g q)).
    { intros q. unfold l, evict, m_forward. destruct (s_window (g_s g)) as [w|]; [|apply Hperm].
      rewrite hist_evict. fold (hist_raw (g_s g) q).
      eapply Permutation_trans; [|apply Hperm].
      eapply Permutation_trans; [apply Permutation_app_head, Permutation_app_comm|].
      rewrite app_assoc. apply Permutation_app_tail.
      apply (filter_partition_perm _ (fun x => evicted w batch q (fst x))). }
    destruct (_ <? _)%nat; constructor; simpl.
    + exact Hl.
    + intros q. rewrite hist_raw_cells. apply Hh.
    + unfold pos_ok. simpl. apply Forall_app. split; [exact Hl|].
      apply Forall_forall. intros x Hx. apply in_map_iff in Hx. destruct Hx as [[[q' p] t] [<- Hin]]. simpl.
      rewrite Forall_forall in Hok. apply (Hok _ Hin).
    + intros q. rewrite hist_raw_cells, filter_app, map_app, hist_batch. unfold a_forward.
      eapply Permutation_trans; [|apply Permutation_app_tail; apply Hh].
      rewrite <- !app_assoc. apply Permutation_app_head. apply Permutation_app_comm.
  - constructor; simpl.
    + apply pos_ok_prune_map; [intros [p t sq] H; unfold copy_cell; simpl; destruct (_ && _); exact H|exact Hpos].
    + intros q. rewrite (hist_copy _ _ _ _ _ Hok). unfold a_copy, upd. destruct (Nat.eqb q dst); [|apply Hperm].
      rewrite <- filter_app. apply Permutation_filter'. apply Hperm.
  - (* remove, cleared on failure *)
    unfold spec_remove_c. destruct (spec_remove (g_s g) q b e) as [s1 [er|]] eqn:E.
    + (* failed: the sequence is cleared *)
      simpl. rewrite (clear_cells _ q Hpos). simpl. constructor; simpl.
      * apply pos_ok_prune_map; [intros [p t sq] H; exact H|exact Hpos].
      * intros q'. rewrite hist_raw_cells, hist_clear. unfold a_clear, upd. destruct (Nat.eqb q' q); [constructor|apply Hperm].
    + destruct (spec_remove_ok_shape _ _ _ _ _ E) as [Hb ->]. constructor; simpl.
      * apply pos_ok_prune_map; [intros; apply rm_cell_pos; assumption|exact Hpos].
      * intros q'. rewrite hist_raw_cells, filter_has_prune. unfold a_remove, upd. destruct (Nat.eqb_spec q' q) as [->|Hne].
        -- eapply Permutation_trans; [apply Permutation_app_tail; apply hist_remove_same; lia|].
           eapply Permutation_trans; [apply Permutation_sym, rm_list_app|]. apply rm_list_perm. apply Hperm.
        -- rewrite (hist_remove_other _ _ _ _ _ Hne Hb). apply Hperm.
  - constructor; assumption.
Qed.

Theorem grun_inv : forall ops g, GI g -> Forall sop_ok ops -> GI (grun g ops).
Proof.
  induction ops as [|o t IH]; intros g HG Hok; simpl; auto. inversion Hok; subst. apply IH; auto. apply gstep_inv; assumption.
Qed.

Lemma ginit_inv : forall cap w sh, GI (ginit (spec_init cap w sh)).
Proof. intros. constructor; simpl; [constructor|intros; constructor]. Qed.

Definition inw (w : option Z) (p : Z) (x : Z * N) : bool := in_window w (fst x) p.

Lemma visible_as_hist : forall s q p, visible_raw s q p = filter (inw (s_window s) p) (hist_raw s q).
Proof.
  intros s q p. unfold visible_raw, hist_raw, inw. induction (s_cells s) as [|a r IH]; simpl; auto.
  destruct (has q a); simpl; [|exact IH]. change (fst (pt a)) with (a_pos a).
  destruct (in_window (s_window s) (a_pos a) p); simpl; rewrite IH; reflexivity.
Qed.

Theorem visible_ideal : forall g q p, GI g ->
  Permutation (filter (inw (s_window (g_s g)) p) (g_A g q))
              (visible_raw (g_s g) q p ++ filter (inw (s_window (g_s g)) p) (g_M g q)).
Proof.
  intros g q p HG. rewrite visible_as_hist, <- filter_app. apply Permutation_filter'. apply Permutation_sym. apply (gi_perm g HG).
Qed.

(** the exact guard: a token sees its whole ideal window iff nothing evicted lies in that window *)
Theorem complete_iff : forall g q p, GI g ->
  (filter (inw (s_window (g_s g)) p) (g_M g q) = [] <->
   Permutation (filter (inw (s_window (g_s g)) p) (g_A g q)) (visible_raw (g_s g) q p)).
Proof.
  intros g q p HG. pose proof (visible_ideal g q p HG) as H. split.
  - intros E. rewrite E, app_nil_r in H. exact H.
  - intros HP. pose proof (Permutation_length (Permutation_trans (Permutation_sym HP) H)) as HL.
    rewrite app_length in HL. destruct (filter _ (g_M g q)); [reflexivity|simpl in HL; lia].
Qed.

Lemma window_grun : forall ops g, s_window (g_s (grun g ops)) = s_window (g_s g).
Proof.
  induction ops as [|o t IH]; intros g; simpl; auto. rewrite IH. destruct o; simpl; auto.
  - unfold spec_forward. destruct (_ <? _)%nat; reflexivity.
  - unfold spec_remove_c, spec_remove.
    repeat match goal with |- context [if ?x then _ else _] => destruct x end; simpl; auto.
Qed.

Lemma window_gstep : forall g o, s_window (g_s (gstep g o)) = s_window (g_s g).
Proof. intros. exact (window_grun [o] g). Qed.

Theorem no_window_no_eviction : forall ops g, s_window (g_s g) = None -> (forall q, g_M g q = []) ->
  forall q, g_M (grun g ops) q = [].
Proof.
  induction ops as [|o t IH]; intros g Hw HM q; simpl; auto. apply IH.
  - rewrite window_gstep. exact Hw.
  - intros q'. destruct o; simpl; auto.
    + destruct (spec_forward (g_s g) batch). simpl. unfold m_forward. rewrite Hw. apply HM.
    + unfold a_copy, upd. destruct (Nat.eqb q' dst); [rewrite HM; reflexivity|apply HM].
    + destruct (spec_remove_c (g_s g) q0 b e) as [s' [er|]]; simpl.
      * unfold a_clear, upd. destruct (Nat.eqb q' q0); [reflexivity|apply HM].
      * unfold a_remove, upd. destruct (Nat.eqb q' q0); [rewrite HM; reflexivity|apply HM].
Qed.

(** a run every step of which keeps [K] and leaves nothing evicted inside the window of a token it stores:
    every batch token of the run sees its complete ideal window *)
Lemma run_complete : forall (K : gstate -> Prop) (Run : gstate -> list sop -> Prop) w,
  (forall g o t, GI g -> s_window (g_s g) = Some w -> K g -> Run g (o :: t) ->
     sop_ok o /\ Run (gstep g o) t /\ K (gstep g o) /\
     match o with
     | SForward batch => forall q p t', In (q, p, t') batch -> filter (inw (Some w) p) (g_M (gstep g o) q) = []
     | _ => True
     end) ->
  forall pre g batch post, GI g -> s_window (g_s g) = Some w -> K g -> Run g (pre ++ SForward batch :: post) ->
  forall q p t, In (q, p, t) batch ->
  let g' := grun g (pre ++ [SForward batch]) in
  Permutation (filter (inw (Some w) p) (g_A g' q)) (visible_raw (g_s g') q p).
Proof.
  intros K Run w Hstep. induction pre as [|o pre IH]; intros g batch post HG Hw HK Hrun q p t Hin.
  - destruct (Hstep g (SForward batch) post HG Hw HK Hrun) as [Hok [_ [_ Htok]]].
    pose proof (complete_iff (gstep g (SForward batch)) q p (gstep_inv g _ HG Hok)) as Hc.
    rewrite window_gstep, Hw in Hc. apply Hc. exact (Htok q p t Hin).
  - destruct (Hstep g o _ HG Hw HK Hrun) as [Hok [Hrest [HK' _]]].
    apply (IH (gstep g o) batch post) with (t := t); auto; [apply gstep_inv; assumption|rewrite window_gstep; exact Hw].
Qed.

Definition top (l : list (Z * N)) : Z := fold_right Z.max (-1) (map fst l).

Lemma fold_max_ge : forall l : list Z, -1 <= fold_right Z.max (-1) l.
Proof. induction l; simpl; lia. Qed.

Lemma top_ge : forall l, -1 <= top l.
Proof. intros l. unfold top. apply fold_max_ge. Qed.

Lemma top_app : forall l l', top (l ++ l') = Z.max (top l) (top l').
Proof.
  intros l l'. unfold top. rewrite map_app. induction (map fst l) as [|x r IH]; simpl.
  - pose proof (fold_max_ge (map fst l')). lia.
  - rewrite IH. lia.
Qed.

(** every sequence of the batch continues exactly where it ends in the ideal history *)
Definition contiguous_batch (A : pmap) (batch : list entry) : Prop :=
  forall q L, lowest batch q = Some L -> L = top (A q) + 1.

Definition append_op (A : pmap) (o : sop) : Prop :=
  match o with
  | SForward batch => contiguous_batch A batch
  | SRemove _ b e => b = 0 /\ e = MaxInt32
  | SCanResume _ _ => True
  | SCopy _ _ _ => False
  end.

Fixpoint append_run (g : gstate) (ops : list sop) : Prop :=
  match ops with
  | [] => True
  | o :: t => append_op (g_A g) o /\ sop_ok o /\ append_run (gstep g o) t
  end.

(** what the window evicted from a sequence lies below the window of every position at which the sequence can continue *)
Definition KI (w : Z) (g : gstate) : Prop :=
  forall q x, In x (g_M g q) -> 0 <= fst x < MaxInt32 /\ fst x < top (g_A g q) + 1 - w.

Lemma lowest_in : forall batch q p t, In (q, p, t) batch -> exists L, lowest batch q = Some L.
Proof.
  induction batch as [|[[q' p'] t'] r IH]; intros q p t Hin; simpl in *; [contradiction|].
  destruct (Nat.eqb_spec q' q) as [->|Hne].
  - destruct (lowest r q); eauto.
  - destruct Hin as [E|Hin]; [injection E as -> -> ->; contradiction|]. eapply IH; eauto.
Qed.

Lemma lowest_le : forall batch q L p t, lowest batch q = Some L -> In (q, p, t) batch -> L <= p.
Proof.
  induction batch as [|[[q' p'] t'] r IH]; intros q L p t HL Hin; simpl in *; [contradiction|].
  destruct Hin as [E|Hin].
  - injection E as -> -> ->. rewrite Nat.eqb_refl in HL. destruct (lowest r q); injection HL as <-; lia.
  - destruct (lowest_in _ _ _ _ Hin) as [m Em]. destruct (Nat.eqb q' q); [|rewrite Em in HL; injection HL as <-; eapply IH; eauto].
    rewrite Em in HL. injection HL as <-. specialize (IH q m p t Em Hin). lia.
Qed.

Lemma hist_raw_pos : forall s q x, pos_ok s -> In x (hist_raw s q) -> 0 <= fst x < MaxInt32.
Proof.
  intros s q x Hp Hx. unfold hist_raw in Hx. apply in_map_iff in Hx. destruct Hx as [a [<- Ha]].
  apply filter_In in Ha. destruct Ha as [Ha _]. unfold pos_ok in Hp. rewrite Forall_forall in Hp. apply (Hp a Ha).
Qed.

Lemma rm_list_max : forall b l, (forall x, In x l -> fst x < MaxInt32) -> rm_list b MaxInt32 l = filter (fun x => fst x <? b) l.
Proof.
  intros b l H. unfold rm_list. rewrite (filter_none _ (fun x => MaxInt32 <=? fst x) l); [simpl; apply app_nil_r|].
  intros x Hx. specialize (H x Hx). destruct (Z.leb_spec MaxInt32 (fst x)); [lia|reflexivity].
Qed.

Theorem append_step : forall w g o, GI g -> s_window (g_s g) = Some w -> KI w g -> append_op (g_A g) o ->
  KI w (gstep g o) /\
  match o with
  | SForward batch => forall q p t, In (q, p, t) batch -> filter (inw (Some w) p) (g_M (gstep g o) q) = []
  | _ => True
  end.
Proof.
  intros w g o HG Hw HK Ha. destruct o as [batch|src dst len|q b e|q p]; simpl in *.
  - (* forward: stored or refused, the same entries are evicted *)
    assert (HM : forall q x, In x (m_forward (Some w) (g_M g) (g_s g) batch q) ->
              0 <= fst x < MaxInt32 /\ fst x < top (g_A g q) + 1 - w /\ (forall L, lowest batch q = Some L -> fst x < L - w)).
    { intros q x Hx. unfold m_forward in Hx. apply in_app_or in Hx. destruct Hx as [Hx|Hx].
      - destruct (HK q x Hx) as [K1 K2]. split; [exact K1|]. split; [exact K2|]. intros L HL. rewrite (Ha q L HL). exact K2.
      - apply filter_In in Hx. destruct Hx as [Hh He]. unfold evicted in He. destruct (lowest batch q) as [L|] eqn:EL; [|discriminate].
        apply Z.ltb_lt in He. split; [apply (hist_raw_pos _ _ _ (gi_pos g HG) Hh)|].
        split; [rewrite (Ha q L EL) in He; lia|]. intros L' E'. injection E' as <-. exact He. }
    assert (HT : forall q p t, In (q, p, t) batch -> filter (inw (Some w) p) (m_forward (Some w) (g_M g) (g_s g) batch q) = []).
    { intros q p t Hin. apply filter_none. intros x Hx. destruct (lowest_in _ _ _ _ Hin) as [L HL].
      destruct (HM q x Hx) as [_ [_ H2]]. specialize (H2 L HL). pose proof (lowest_le _ _ _ _ _ HL Hin).
      unfold inw, in_window. destruct (Z.leb_spec (p - w) (fst x)); [lia|]. apply andb_false_r. }
    rewrite Hw. destruct (spec_forward (g_s g) batch) as [s' [er|]]; cbn [g_A g_M g_s]; split; try exact HT.
    + intros q x Hx. cbn [g_A g_M] in *. destruct (HM q x Hx) as [H0 [H1 _]]. auto.
    + intros q x Hx. cbn [g_A g_M] in *. destruct (HM q x Hx) as [H0 [H1 _]]. split; [exact H0|].
      unfold a_forward. rewrite top_app. lia.
  - contradiction.
  - split; [|exact I]. destruct (spec_remove_c (g_s g) q b e) as [s' [er|]]; simpl.
    + intros q' x. cbn [g_A g_M]. unfold a_clear, upd. destruct (Nat.eqb q' q); intros Hx; [contradiction|apply HK; exact Hx].
    + destruct Ha as [-> ->]. intros q' x. cbn [g_A g_M]. unfold a_remove, upd. destruct (Nat.eqb q' q); intros Hx; [|apply HK; exact Hx].
      (* Remove(q, 0, MaxInt32) that succeeds keeps nothing of what was evicted either *)
      rewrite rm_list_max in Hx by (intros y Hy; destruct (HK q y Hy); lia).
      apply filter_In in Hx. destruct Hx as [Hx Hlt]. apply Z.ltb_lt in Hlt. destruct (HK q x Hx). lia.
  - split; [exact HK|exact I].
Qed.

Theorem append_run_complete : forall ops w g, GI g -> s_window (g_s g) = Some w -> KI w g -> append_run g ops ->
  forall pre batch post, ops = pre ++ SForward batch :: post ->
  forall q p t, In (q, p, t) batch ->
  let g' := grun g (pre ++ [SForward batch]) in
  Permutation (filter (inw (Some w) p) (g_A g' q)) (visible_raw (g_s g') q p).
Proof.
  intros ops w g HG Hw HK Hrun pre batch post ->. apply (run_complete (KI w) append_run w) with (post := post); auto.
  intros g0 o t HG0 Hw0 HK0 [Hop [Hok Hrest]]. destruct (append_step w g0 o HG0 Hw0 HK0 Hop). auto.
Qed.

(** the full caller protocol on sliding-window caches: append where the sequence ends, clear, or - after CanResume
    answered true for position [b] - truncate with Remove(seq, b, MaxInt32) and continue at [b] *)
Definition ND (g : gstate) : Prop := forall q, NoDup (map fst (g_A g q)).

Definition proto_op (g : gstate) (o : sop) : Prop :=
  match o with
  | SForward batch => contiguous_batch (g_A g) batch /\ forall q, NoDup (map fst (batch_of batch q))
  | SRemove q b e => e = MaxInt32 /\ (b = 0 \/ spec_can_resume (g_s g) q b = true)
  | SCanResume _ _ => True
  | SCopy _ _ _ => False
  end.

Fixpoint proto_run (g : gstate) (ops : list sop) : Prop :=
  match ops with
  | [] => True
  | o :: t => proto_op g o /\ sop_ok o /\ proto_run (gstep g o) t
  end.

Lemma top_max : forall l x, In x l -> fst x <= top l.
Proof.
  intros l x H. unfold top. induction l as [|y r IH]; simpl in *; [contradiction|].
  destruct H as [->|H]; [lia|]. specialize (IH H). lia.
Qed.

Lemma NoDup_app_inv : forall A (l l' : list A), NoDup (l ++ l') -> NoDup l /\ NoDup l' /\ forall x, In x l -> ~ In x l'.
Proof.
  intros A l l'. induction l as [|a r IH]; simpl; intros H.
  - split; [constructor|]. split; [exact H|]. intros x [].
  - inversion H as [|? ? Hn Hr]; subst. destruct (IH Hr) as [I1 [I2 I3]]. split; [|split; [exact I2|]].
    + constructor; [|exact I1]. intros C. apply Hn. apply in_or_app. left. exact C.
    + intros x [->|Hx]; [intros C; apply Hn; apply in_or_app; right; exact C|apply I3; exact Hx].
Qed.

Lemma NoDup_app_intro : forall A (l l' : list A), NoDup l -> NoDup l' -> (forall x, In x l -> ~ In x l') -> NoDup (l ++ l').
Proof.
  intros A l l' H1 H2 Hd. induction H1 as [|a r Hn Hr IH]; simpl; auto.
  constructor.
  - intros C. apply in_app_or in C. destruct C as [C|C]; [contradiction|]. apply (Hd a); [left; reflexivity|exact C].
  - apply IH. intros x Hx. apply Hd. right. exact Hx.
Qed.

Lemma batch_of_in : forall batch q x, In x (batch_of batch q) -> exists t, In (q, fst x, t) batch.
Proof.
  intros batch q x H. unfold batch_of in H. apply in_map_iff in H. destruct H as [[[q' p] t] [<- He]].
  apply filter_In in He. destruct He as [He Hq]. simpl in Hq. apply Nat.eqb_eq in Hq. subst q'. exists t. exact He.
Qed.

Lemma count_pos_hist : forall s q lo hi,
  count_pos s q lo hi = Z.of_nat (length (filter (fun x => (lo <=? fst x) && (fst x <? hi)) (hist_raw s q))).
Proof.
  intros. unfold count_pos, hist_raw. f_equal. induction (s_cells s) as [|a r IH]; simpl; auto.
  destruct (has q a); simpl; [|exact IH]. change (fst (pt a)) with (a_pos a).
  destruct ((lo <=? a_pos a) && (a_pos a <? hi)); simpl; rewrite IH; reflexivity.
Qed.

(** CanResume of the specification, read on the per-sequence history: every position of the resumed window is held *)
Lemma can_resume_holds : forall s w q b, s_window s = Some w -> NoDup (map fst (hist_raw s q)) ->
  spec_can_resume s q b = true ->
  forall y, Z.max 0 (b - w) <= y < b -> exists x, In x (hist_raw s q) /\ fst x = y.
Proof.
  intros s w q b Hw Hnd Hcr. unfold spec_can_resume in Hcr. rewrite Hw in Hcr.
  destruct (last_pos s q =? -1); [discriminate|]. apply andb_true_iff in Hcr. destruct Hcr as [_ Hcnt].
  apply Z.eqb_eq in Hcnt. rewrite count_pos_hist in Hcnt. exact (all_present _ fst (hist_raw s q) _ b Hnd Hcnt).
Qed.

Theorem proto_step : forall w g o, GI g -> s_window (g_s g) = Some w -> 0 <= w -> KI w g -> ND g -> proto_op g o ->
  KI w (gstep g o) /\ ND (gstep g o) /\
  match o with
  | SForward batch => forall q p t, In (q, p, t) batch -> filter (inw (Some w) p) (g_M (gstep g o) q) = []
  | _ => True
  end.
Proof.
  intros w g o HG Hw Hw0 HK HN Hop. destruct o as [batch|src dst len|q b e|q p]; simpl in Hop.
  - destruct Hop as [Hc Hnb]. destruct (append_step w g (SForward batch) HG Hw HK Hc) as [HK' HT].
    split; [exact HK'|]. split; [|exact HT].
    intros q. simpl. destruct (spec_forward (g_s g) batch) as [s' [er|]]; simpl; [apply HN|].
    unfold a_forward. rewrite map_app. apply NoDup_app_intro; [apply HN|apply Hnb|].
    intros z Hz Hz'. apply in_map_iff in Hz. destruct Hz as [x [<- Hx]]. apply in_map_iff in Hz'. destruct Hz' as [y [Hy Hyb]].
    destruct (batch_of_in _ _ _ Hyb) as [t Hin]. destruct (lowest_in _ _ _ _ Hin) as [L HL].
    pose proof (lowest_le _ _ _ _ _ HL Hin). rewrite (Hc q L HL) in H. pose proof (top_max _ _ Hx). lia.
  - contradiction.
  - (* Remove(q, b, MaxInt32): clear, or truncate after CanResume.  Both histories are cut at [b]. *)
    destruct Hop as [-> Hres].
    assert (HMv : forall y, In y (g_M g q) -> fst y < MaxInt32) by (intros y Hy; destruct (HK q y Hy); lia).
    assert (HAv : forall y, In y (g_A g q) -> fst y < MaxInt32).
    { intros y Hy. apply (Permutation_in _ (Permutation_sym (gi_perm g HG q))) in Hy. apply in_app_or in Hy.
      destruct Hy as [Hy|Hy]; [destruct (hist_raw_pos _ _ _ (gi_pos g HG) Hy); lia|apply HMv; exact Hy]. }
    simpl. unfold spec_remove_c. rewrite (remove_max_spec _ q b (gi_pos g HG)). simpl.
    unfold a_remove. rewrite (rm_list_max b _ HMv), (rm_list_max b _ HAv).
    split; [|split; [|exact I]].
    + (* KI *)
      intros q' x. cbn [g_A g_M]. unfold upd. destruct (Nat.eqb_spec q' q) as [->|Hne]; [|apply HK].
      intros Hx. apply filter_In in Hx. destruct Hx as [Hx Hlt].
      apply Z.ltb_lt in Hlt. destruct (HK q x Hx) as [K1 K2]. split; [exact K1|].
      destruct Hres as [->|Hcr]; [lia|].
      pose proof (Permutation_NoDup (Permutation_map fst (Permutation_sym (gi_perm g HG q))) (HN q)) as HNA.
      rewrite map_app in HNA. destruct (NoDup_app_inv _ _ _ HNA) as [HNB [_ Hdisj]].
      pose proof (can_resume_holds (g_s g) w q b Hw HNB Hcr) as Hall. set (lo := Z.max 0 (b - w)) in *.
      assert (Hxlo : fst x < lo).
      { destruct (Z.lt_ge_cases (fst x) lo); auto. exfalso. destruct (Hall (fst x) ltac:(lia)) as [y [Hy Hyf]].
        apply (Hdisj (fst x)); [rewrite <- Hyf; apply in_map; exact Hy|apply in_map; exact Hx]. }
      destruct (Z.le_gt_cases (b - w) 0) as [Hc0|Hc0]; [lia|].
      destruct (Z.eq_dec w 0) as [->|Hwn].
      * (* window 0 *)
        assert (Hin : In x (filter (fun y => fst y <? b) (g_A g q))).
        { apply filter_In. split; [|apply Z.ltb_lt; exact Hlt].
          apply (Permutation_in _ (gi_perm g HG q)). apply in_or_app. right. exact Hx. }
        pose proof (top_max _ _ Hin). lia.
      * destruct (Hall (b - 1) ltac:(lia)) as [y [Hy Hyf]].
        assert (Hin : In y (filter (fun z => fst z <? b) (g_A g q))).
        { apply filter_In. split; [|apply Z.ltb_lt; lia].
          apply (Permutation_in _ (gi_perm g HG q)). apply in_or_app. left. exact Hy. }
        pose proof (top_max _ _ Hin). lia.
    + (* ND *)
      intros q'. cbn [g_A]. unfold upd. destruct (Nat.eqb q' q); [|apply HN].
      rewrite <- (filter_map_comm _ _ fst (fun z => z <? b)). apply NoDup_filter. apply HN.
  - split; [exact HK|]. split; [exact HN|exact I].
Qed.

Theorem proto_run_complete : forall ops w g, GI g -> s_window (g_s g) = Some w -> 0 <= w -> KI w g -> ND g -> proto_run g ops ->
  forall pre batch post, ops = pre ++ SForward batch :: post ->
  forall q p t, In (q, p, t) batch ->
  let g' := grun g (pre ++ [SForward batch]) in
  Permutation (filter (inw (Some w) p) (g_A g' q)) (visible_raw (g_s g') q p).
Proof.
  intros ops w g HG Hw Hw0 HK HN Hrun pre batch post ->.
  apply (run_complete (fun g => KI w g /\ ND g) proto_run w) with (post := post); auto.
  intros g0 o t HG0 Hw1 [HK0 HN0] [Hop [Hok Hrest]]. destruct (proto_step w g0 o HG0 Hw1 Hw0 HK0 HN0 Hop) as [A [B C]]. auto.
Qed.

(** KvCache/ProofsFwd.v - StartForward + Put: sliding-window eviction, first-fit placement, defrag-and-retry,
    cell/range update, mask - keep the invariant and refine [Spec.spec_forward]; the mask exposes exactly the
    specified history. *)
From Coq Require Import List ZArith NArith Bool Arith Lia Permutation.
From V Require Import KvCache.Model KvCache.ProofsList KvCache.ProofsInv KvCache.ProofsDefrag KvCache.ProofsOps.
From V Require KvCache.Spec.
Import ListNotations.
Open Scope Z_scope.

(** updateSlidingWindow.  One pass of the loop for a sequence is [map (ev1 ..)] over the cells (under [RI] the range test of the
    code is immaterial); folding over the sequences of the batch is, per cell, one filter of its owners ([fold_evq]); and
    [batch_seqs] lists every sequence that has a lowest position ([batch_seqs_complete]), so the filter is the specification's. *)
Definition RI (cs : list cell) (rs : list (nat * rng)) : Prop :=
  forall i q, (i < length cs)%nat -> has q (cell_at cs i) = true -> exists r, lookup rs q = Some r /\ in_rng r i = true.

Definition ev1 (w : Z) (q : nat) (p : Z) (cl : cell) : cell :=
  if has q cl && (c_pos cl <? p - w) then del q cl else cl.

Lemma has_ev1_same : forall w q p cl, has q (ev1 w q p cl) = has q cl && negb (c_pos cl <? p - w).
Proof.
  intros. unfold ev1. destruct (has q cl) eqn:Hq; simpl; [|exact Hq].
  destruct (c_pos cl <? p - w); simpl; [apply has_del_same|exact Hq].
Qed.

Lemma has_ev1_other : forall w q q' p cl, q' <> q -> has q' (ev1 w q p cl) = has q' cl.
Proof. intros. unfold ev1. destruct (has q cl && _); [apply has_del_other; assumption|reflexivity]. Qed.

Lemma map_id_nth : forall (f : cell -> cell) l, (forall k, (k < length l)%nat -> f (cell_at l k) = cell_at l k) -> map f l = l.
Proof.
  intros f l H. apply (nth_ext _ _ empty_cell empty_cell); [apply map_length|].
  intros k Hk. rewrite map_length in Hk. fold (cell_at (map f l) k). rewrite cell_at_map by assumption. apply H. assumption.
Qed.

Lemma evict_seq_spec : forall w cs rs q p, RI cs rs -> RP rs ->
  fst (evict_seq w cs rs q p) = map (ev1 w q p) cs /\
  RI (fst (evict_seq w cs rs q p)) (snd (evict_seq w cs rs q p)) /\ RP (snd (evict_seq w cs rs q p)).
Proof.
  intros w cs rs q p HR HP. unfold evict_seq. destruct (lookup rs q) as [old|] eqn:Hl; simpl.
  - assert (Hcs : mapi (fun i cl => if in_rng old i && has q cl && (c_pos cl <? p - w) then del q cl else cl) cs = map (ev1 w q p) cs).
    { unfold mapi. apply (mapi_from_eq_map _ _ _ _ cs 0 empty_cell). intros k Hk. simpl. unfold ev1.
      destruct (has q (nth k cs empty_cell)) eqn:Hq; [|rewrite andb_false_r; reflexivity].
      destruct (HR k q Hk Hq) as [r [Hr Hin]]. rewrite Hl in Hr. injection Hr as <-. rewrite Hin. reflexivity. }
    rewrite Hcs. split; [reflexivity|]. split; [|apply rpos_update; [exact HP|apply range_of_fst_nonneg]].
    intros i q' Hi Hq'. rewrite map_length in Hi. rewrite cell_at_map in Hq' by assumption.
    destruct (Nat.eq_dec q' q) as [->|Hne].
    + rewrite lookup_update_same. eexists. split; [reflexivity|].
      rewrite has_ev1_same in Hq'. apply andb_true_iff in Hq'. destruct Hq' as [Hq1 Hq2].
      apply range_of_covers; [assumption|]. rewrite Hq1, Hq2.
      destruct (HR i q Hi Hq1) as [r [Hr Hin]]. rewrite Hl in Hr. injection Hr as <-. rewrite Hin. reflexivity.
    + rewrite lookup_update_other by assumption. rewrite has_ev1_other in Hq' by assumption. apply HR; assumption.
  - assert (Hcs : map (ev1 w q p) cs = cs).
    { apply map_id_nth. intros k Hk. unfold ev1. destruct (has q (cell_at cs k)) eqn:Hq; [|reflexivity].
      destruct (HR k q Hk Hq) as [r [Hr _]]. congruence. }
    rewrite Hcs. auto.
Qed.

Definition evq (w : Z) (batch : list entry) (q : nat) (cl : cell) : cell :=
  match lowest batch q with Some p => ev1 w q p cl | None => cl end.

Lemma evq_formula : forall w batch q cl,
  evq w batch q cl = mkCell (c_pos cl) (filter (fun x => negb (Nat.eqb x q && Spec.evicted w batch q (c_pos cl))) (c_seqs cl)).
Proof.
  intros w batch q [ps sq]. unfold evq, Spec.evicted, ev1. change (Spec.lowest batch q) with (lowest batch q). simpl. destruct (lowest batch q) as [p|].
  - destruct (ps <? p - w) eqn:E.
    + rewrite andb_true_r.
      replace (if has q (mkCell ps sq) then del q (mkCell ps sq) else mkCell ps sq) with (del q (mkCell ps sq))
        by (destruct (has q (mkCell ps sq)) eqn:Hq; [reflexivity|apply has_false_del; exact Hq]).
      unfold del. simpl. f_equal. apply filter_ext_in. intros x _. rewrite andb_true_r. reflexivity.
    + rewrite andb_false_r. f_equal. symmetry. rewrite <- (filter_ext_in (fun _ => true)); [|intros; rewrite andb_false_r; reflexivity].
      clear. induction sq; simpl; congruence.
  - f_equal. symmetry. rewrite <- (filter_ext_in (fun _ => true)); [|intros; rewrite andb_false_r; reflexivity].
    clear. induction sq; simpl; congruence.
Qed.

Lemma fold_evq : forall w batch qs cl,
  fold_left (fun cl q => evq w batch q cl) qs cl =
  mkCell (c_pos cl) (filter (fun x => negb (existsb (fun q => Nat.eqb x q && Spec.evicted w batch q (c_pos cl)) qs)) (c_seqs cl)).
Proof.
  intros w batch qs. induction qs as [|q t IH]; intros cl; simpl.
  - destruct cl as [ps sq]. simpl. f_equal. clear. induction sq; simpl; congruence.
  - rewrite IH. rewrite evq_formula. simpl. f_equal. rewrite filter_filter. apply filter_ext_in.
    intros x _. rewrite negb_orb. reflexivity.
Qed.

Lemma batch_seqs_complete : forall batch seen q, lowest batch q <> None -> ~ In q seen -> In q (batch_seqs batch seen).
Proof.
  intros batch. induction batch as [|[[q' p] t] r IH]; intros seen q Hl Hs; simpl in *; [congruence|].
  destruct (existsb (Nat.eqb q') seen) eqn:Es.
  - destruct (Nat.eqb_spec q' q) as [->|Hne].
    + exfalso. apply existsb_exists in Es. destruct Es as [x [Hx Hxe]]. apply Nat.eqb_eq in Hxe. subst. contradiction.
    + apply IH; assumption.
  - destruct (Nat.eqb_spec q' q) as [->|Hne]; [left; reflexivity|].
    right. apply IH; [assumption|]. intros [H|H]; [congruence|contradiction].
Qed.

Definition evict_cell' (w : Z) (batch : list entry) (cl : cell) : cell :=
  mkCell (c_pos cl) (filter (fun x => negb (Spec.evicted w batch x (c_pos cl))) (c_seqs cl)).

Lemma fold_evq_all : forall w batch cl,
  fold_left (fun cl q => evq w batch q cl) (batch_seqs batch []) cl = evict_cell' w batch cl.
Proof.
  intros. rewrite fold_evq. unfold evict_cell'. f_equal. apply filter_ext_in. intros x _. f_equal.
  destruct (Spec.evicted w batch x (c_pos cl)) eqn:E.
  - apply existsb_exists. exists x. split; [|rewrite Nat.eqb_refl; exact E].
    apply batch_seqs_complete; [|intros []]. unfold Spec.evicted in E. change (Spec.lowest batch x) with (lowest batch x) in E. destruct (lowest batch x); discriminate.
  - destruct (existsb _ _) eqn:Ex; auto. apply existsb_exists in Ex. destruct Ex as [y [_ Hy]].
    apply andb_true_iff in Hy. destruct Hy as [H1 H2]. apply Nat.eqb_eq in H1. subst. congruence.
Qed.

Lemma fold_map_cells : forall (F : nat -> cell -> cell) qs cs,
  fold_left (fun cs q => map (F q) cs) qs cs = map (fun cl => fold_left (fun cl q => F q cl) qs cl) cs.
Proof.
  intros F qs. induction qs as [|q t IH]; intros cs; simpl.
  - symmetry. apply map_id.
  - rewrite IH, map_map. reflexivity.
Qed.

Lemma update_window_fold : forall w batch qs cs rs, RI cs rs -> RP rs ->
  let st := fold_left (fun st q => match lowest batch q with
                                   | Some p => evict_seq w (fst st) (snd st) q p
                                   | None => st end) qs (cs, rs) in
  fst st = fold_left (fun cs q => map (evq w batch q) cs) qs cs /\ RI (fst st) (snd st) /\ RP (snd st).
Proof.
  intros w batch qs. induction qs as [|q t IH]; intros cs rs HR HP; simpl; auto.
  destruct (lowest batch q) as [p|] eqn:El.
  - destruct (evict_seq_spec w cs rs q p HR HP) as [H1 [H2 H3]].
    destruct (evict_seq w cs rs q p) as [cs1 rs1] eqn:E. simpl in *.
    destruct (IH cs1 rs1 H2 H3) as [I1 I2]. split; [|exact I2]. rewrite I1. subst cs1.
    f_equal. apply map_ext. intros cl. unfold evq. rewrite El. reflexivity.
  - destruct (IH cs rs HR HP) as [I1 I2]. split; [|exact I2]. rewrite I1. f_equal.
    symmetry. rewrite <- (map_id cs) at 2. apply map_ext. intros cl. unfold evq. rewrite El. reflexivity.
Qed.

Lemma lowest_spec : forall batch q, Spec.lowest batch q = lowest batch q.
Proof.
  intros batch q. induction batch as [|[[q' p] t] r IH]; simpl; auto.
Qed.

Lemma evict_cell_spec : forall w batch p,
  Spec.evict_cell w batch (to_acell p) = to_acell (on_cell (evict_cell' w batch) p).
Proof.
  intros w batch [cl d]. reflexivity.
Qed.

Lemma evict_cell_dead : forall w batch cl, live cl = false -> live (evict_cell' w batch cl) = false.
Proof. intros w batch cl H. unfold evict_cell', live. simpl. rewrite (live_false_seqs _ H). reflexivity. Qed.

Theorem update_window_correct : forall c batch, Inv c ->
  Inv (update_window c batch) /\
  abs (update_window c batch) = Spec.with_cells (abs c) (Spec.evict (window c) batch (abs_cells (cells c) (phys c))).
Proof.
  intros c batch HI. unfold update_window. destruct (window c) as [w|] eqn:Ew.
  - pose proof (update_window_fold w batch (batch_seqs batch []) (cells c) (ranges c) (inv_rng c HI) (inv_rpos c HI)) as HF.
    cbv zeta in HF. destruct (fold_left _ (batch_seqs batch []) (cells c, ranges c)) as [cs rs]. simpl in HF.
    destruct HF as [Hcs [HR HRP]]. rewrite fold_map_cells in Hcs.
    assert (Hcs' : cs = map (evict_cell' w batch) (cells c)).
    { rewrite Hcs. apply map_ext. intros cl. apply fold_evq_all. }
    clear Hcs. subst cs. split.
    + constructor; simpl.
      * rewrite map_length. apply (inv_len c HI).
      * rewrite map_length. apply (inv_size c HI).
      * apply good_map; [apply evict_cell_dead|reflexivity|apply (inv_data c HI)].
      * exact HR.
      * apply (inv_pad c HI).
      * exact HRP.
    + unfold abs, Spec.with_cells, Spec.evict. simpl. rewrite map_length, Ew. f_equal.
      apply abs_cells_map; [apply evict_cell_dead|apply evict_cell_spec].
  - split; [exact HI|]. unfold abs, Spec.with_cells. simpl. rewrite Ew. reflexivity.
Qed.

Lemma find_start_from_sound : forall l i start count n loc,
  find_start_from l i start count n = Some loc -> (start + count = i)%nat -> (1 <= n)%nat ->
  (start <= loc)%nat /\ (loc + n <= i + length l)%nat /\
  (forall k, (i <= k)%nat -> (loc <= k < loc + n)%nat -> live (nth (k - i) l empty_cell) = false).
Proof.
  intros l. induction l as [|cl t IH]; intros i start count n loc H Hs Hn; simpl in H; [discriminate|].
  destruct (live cl) eqn:El.
  - destruct (IH (S i) (S i) 0%nat n loc H ltac:(lia) Hn) as [I1 [I2 I3]]. simpl. repeat split; try lia.
    intros k Hk1 Hk2. replace (k - i)%nat with (S (k - S i)) by lia. simpl. apply I3; lia.
  - destruct (Nat.leb_spec n (S count)).
    + injection H as <-. simpl. repeat split; try lia.
      intros k Hk1 Hk2. replace (k - i)%nat with 0%nat by lia. exact El.
    + destruct (IH (S i) start (S count) n loc H ltac:(lia) Hn) as [I1 [I2 I3]]. simpl. repeat split; try lia.
      intros k Hk1 Hk2. destruct (Nat.eq_dec k i) as [->|Hne].
      * rewrite Nat.sub_diag. exact El.
      * replace (k - i)%nat with (S (k - S i)) by lia. simpl. apply I3; lia.
Qed.

Lemma find_start_sound : forall l n loc, find_start l n = Some loc -> (1 <= n)%nat ->
  (loc + n <= length l)%nat /\ forall k, (loc <= k < loc + n)%nat -> live (cell_at l k) = false.
Proof.
  intros l n loc H Hn. destruct (find_start_from_sound l 0 0 0 n loc H eq_refl Hn) as [_ [H2 H3]].
  split; [lia|]. intros k Hk. specialize (H3 k ltac:(lia) Hk). rewrite Nat.sub_0_r in H3. exact H3.
Qed.

Lemma find_start_live_prefix : forall L D n i, Forall (fun cl => live cl = true) L ->
  find_start_from (L ++ D) i i 0 n = find_start_from D (i + length L) (i + length L) 0 n.
Proof.
  intros L D n. induction L as [|cl t IH]; intros i H; simpl.
  - rewrite Nat.add_0_r. reflexivity.
  - inversion H as [|? ? Hc Ht]; subst. rewrite Hc, (IH (S i) Ht). f_equal; lia.
Qed.

Lemma find_start_dead : forall D n i s c, Forall (fun cl => live cl = false) D -> (c < n)%nat ->
  find_start_from D i s c n = if (n <=? c + length D)%nat then Some s else None.
Proof.
  intros D n. induction D as [|cl t IH]; intros i s c H Hc; simpl.
  - destruct (Nat.leb_spec n (c + 0)); [lia|reflexivity].
  - inversion H as [|? ? Hd Ht]; subst. rewrite Hd. destruct (Nat.leb_spec n (S c)).
    + destruct (Nat.leb_spec n (c + S (length t))); [reflexivity|lia].
    + rewrite (IH (S i) s (S c) Ht) by lia.
      destruct (Nat.leb_spec n (S c + length t)); destruct (Nat.leb_spec n (c + S (length t))); auto; lia.
Qed.

Lemma compact_split : forall l, compact l ->
  exists k, (k <= length l)%nat /\ Forall (fun cl => live cl = true) (firstn k l) /\ Forall (fun cl => live cl = false) (skipn k l).
Proof.
  intros l. induction l as [|cl t IH]; intros Hc.
  - exists 0%nat. simpl. auto.
  - destruct (live cl) eqn:El.
    + destruct IH as [k [Hk [H1 H2]]].
      { intros i j Hij Hj. apply (Hc (S i) (S j)); [lia|exact Hj]. }
      exists (S k). simpl. repeat split; auto; lia.
    + exists 0%nat. simpl. repeat split; auto; [lia|]. constructor; [exact El|].
      apply Forall_forall. intros x Hin. destruct (live x) eqn:Ex; auto. exfalso.
      apply (In_nth _ _ empty_cell) in Hin. destruct Hin as [j [Hj Hn]].
      assert (H : live (cell_at (cl :: t) 0) = true).
      { apply (Hc 0%nat (S j)); [lia|]. unfold cell_at. simpl. rewrite Hn. exact Ex. }
      unfold cell_at in H. simpl in H. congruence.
Qed.

Definition nlive (l : list cell) : nat := length (filter live l).

Lemma nlive_le : forall l, (nlive l <= length l)%nat.
Proof. intros. unfold nlive. induction l as [|a t IH]; simpl; auto. destruct (live a); simpl; lia. Qed.

Lemma nlive_app : forall a b, nlive (a ++ b) = (nlive a + nlive b)%nat.
Proof. intros. unfold nlive. rewrite filter_app, app_length. reflexivity. Qed.

Lemma nlive_all : forall l, Forall (fun cl => live cl = true) l -> nlive l = length l.
Proof. intros l H. unfold nlive. induction H; simpl; auto. rewrite H. simpl. auto. Qed.

Lemma nlive_none : forall l, Forall (fun cl => live cl = false) l -> nlive l = 0%nat.
Proof. intros l H. unfold nlive. induction H; simpl; auto. rewrite H. auto. Qed.

Lemma find_start_compact : forall l n, compact l -> (1 <= n)%nat ->
  (find_start l n = None <-> (length l - nlive l < n)%nat).
Proof.
  intros l n Hc Hn. destruct (compact_split l Hc) as [k [Hk [H1 H2]]].
  assert (Hl : l = firstn k l ++ skipn k l) by (symmetry; apply firstn_skipn).
  assert (Hnl : nlive l = k).
  { rewrite Hl, nlive_app, (nlive_all _ H1), (nlive_none _ H2), firstn_length. lia. }
  unfold find_start. rewrite Hl at 1. rewrite (find_start_live_prefix _ _ n 0 H1).
  assert (Hfs : forall s, find_start_from (skipn k l) (0 + length (firstn k l)) s 0 n =
                          if (n <=? 0 + length (skipn k l))%nat then Some s else None).
  { intros s. apply find_start_dead; [exact H2|lia]. }
  rewrite skipn_length in Hfs.
  (* the search fails iff the dead suffix is shorter than [n] *)
  rewrite Hfs. destruct (Nat.leb_spec n (0 + (length l - k))); split; intros; try discriminate; try lia; reflexivity.
Qed.

Lemma find_start_free : forall l n loc, find_start l n = Some loc -> (1 <= n)%nat -> (n <= length l - nlive l)%nat.
Proof.
  intros l n loc H Hn. destruct (find_start_sound l n loc H Hn) as [H1 H2].
  assert (Hl : l = firstn loc l ++ firstn n (skipn loc l) ++ skipn n (skipn loc l)).
  { rewrite firstn_skipn, firstn_skipn. reflexivity. }
  assert (Hd : nlive (firstn n (skipn loc l)) = 0%nat).
  { apply nlive_none. apply Forall_forall. intros x Hin. apply (In_nth _ _ empty_cell) in Hin. destruct Hin as [j [Hj Hx]].
    rewrite firstn_length, skipn_length in Hj. rewrite nth_firstn', nth_skipn' in Hx.
    destruct (Nat.ltb_spec j n); [|lia]. rewrite <- Hx. apply (H2 (loc + j)%nat). lia. }
  rewrite Hl at 2. rewrite !nlive_app, Hd.
  pose proof (nlive_le (firstn loc l)) as P1. pose proof (nlive_le (skipn n (skipn loc l))) as P2.
  rewrite firstn_length in P1. rewrite !skipn_length in P2. lia.
Qed.

Definition new_cell (e : entry) : cell := let '(q, p, _) := e in mkCell p [q].
Definition new_datum (e : entry) : option datum := let '(_, p, t) := e in Some (mkDatum t p).
Definition new_pair (e : entry) : cell * option datum := (new_cell e, new_datum e).

Lemma combine_app' : forall A B (a b : list A) (a' b' : list B), length a = length a' ->
  combine (a ++ b) (a' ++ b') = combine a a' ++ combine b b'.
Proof.
  intros A B a. induction a as [|x t IH]; intros b [|y t'] b' H; simpl in *; try lia; auto. f_equal. apply IH. lia.
Qed.

Lemma live_pairs_set_nth : forall cs ps loc x d, (loc < length cs)%nat -> length ps = length cs ->
  live (cell_at cs loc) = false -> live x = true ->
  Permutation (live_pairs (set_nth loc x cs) (set_nth loc d ps)) ((x, d) :: live_pairs cs ps).
Proof.
  intros cs ps loc x d Hl Hlen Hd Hx. unfold live_pairs.
  rewrite (set_nth_split _ cs loc x Hl), (set_nth_split _ ps loc d) by lia.
  rewrite (list_split_nth _ cs loc empty_cell Hl) at 3. rewrite (list_split_nth _ ps loc None) at 3 by lia.
  remember (skipn (S loc) cs) as tc. remember (skipn (S loc) ps) as tp.
  rewrite !combine_app' by (rewrite !firstn_length; lia). simpl. rewrite !filter_app. simpl.
  replace (livep (nth loc cs empty_cell, nth loc ps None)) with false
    by (unfold livep; simpl; fold (cell_at cs loc); congruence).
  replace (livep (x, d)) with true by (unfold livep; simpl; congruence).
  apply Permutation_sym, Permutation_middle.
Qed.

Definition place_cells cs rs cur loc batch := fst (fst (place cs rs cur loc batch)).
Definition place_rs cs rs cur loc batch := snd (fst (place cs rs cur loc batch)).
Definition place_cur cs rs cur loc batch := snd (place cs rs cur loc batch).

(** one batch token: the range of its sequence is widened by the location, [curCellRange] by that range *)
Definition hull (a b : rng) : rng := (Z.min (fst a) (fst b), Z.max (snd a) (snd b)).
Definition range_or_new (rs : list (nat * rng)) (q : nat) : rng := match lookup rs q with Some r => r | None => new_range end.

Lemma ltb_max : forall a b, (if a <? b then b else a) = Z.max a b.
Proof. intros. destruct (Z.ltb_spec a b); lia. Qed.

Lemma ltb_min : forall a b, (if a <? b then a else b) = Z.min a b.
Proof. intros. destruct (Z.ltb_spec a b); lia. Qed.

Lemma place_cons : forall cs rs cur loc q p t rest,
  place cs rs cur loc ((q, p, t) :: rest) =
  place (set_nth loc (mkCell p [q]) cs) (update rs q (widen (range_or_new rs q) loc))
        (hull (widen (range_or_new rs q) loc) cur) (S loc) rest.
Proof.
  intros. cbn [place]. fold (range_or_new rs q). cbn [fst snd]. rewrite !ltb_max, !ltb_min.
  unfold widen, hull. cbn [fst snd]. rewrite (Z.min_comm (Z.of_nat loc)), (Z.max_comm (snd cur)). reflexivity.
Qed.

Lemma put_length : forall batch ps loc, length (put ps loc batch) = length ps.
Proof. induction batch as [|[[q p] t] r IH]; intros; simpl; auto. rewrite IH. apply set_nth_length. Qed.

Lemma place_cells_length : forall batch cs rs cur loc, length (place_cells cs rs cur loc batch) = length cs.
Proof.
  induction batch as [|[[q p] t] r IH]; intros; unfold place_cells in *; simpl; auto. rewrite IH. apply set_nth_length.
Qed.

Lemma place_put_perm : forall batch cs ps rs cur loc,
  length ps = length cs -> (loc + length batch <= length cs)%nat ->
  (forall k, (loc <= k < loc + length batch)%nat -> live (cell_at cs k) = false) ->
  Permutation (live_pairs (place_cells cs rs cur loc batch) (put ps loc batch)) (map new_pair batch ++ live_pairs cs ps).
Proof.
  intros batch. induction batch as [|[[q p] t] r IH]; intros cs ps rs cur loc Hlen Hfit Hdead; unfold place_cells in *.
  - reflexivity.
  - rewrite place_cons. simpl in Hfit, Hdead |- *. eapply Permutation_trans; [apply IH|].
    + rewrite !set_nth_length. exact Hlen.
    + rewrite set_nth_length. lia.
    + intros k Hk. unfold cell_at. rewrite nth_set_nth_neq by lia. apply Hdead. lia.
    + eapply Permutation_trans; [apply Permutation_app_head, live_pairs_set_nth; [lia|exact Hlen|apply Hdead; lia|reflexivity]|].
      apply Permutation_sym, Permutation_middle.
Qed.

Lemma range_or_new_nonneg : forall rs q, RP rs -> 0 <= fst (range_or_new rs q).
Proof.
  intros rs q HR. unfold range_or_new. destruct (lookup rs q) eqn:E; [eapply HR; eauto|unfold new_range, MaxInt; simpl; lia].
Qed.

Definition rsub (r cur : rng) : Prop := fst cur <= fst r /\ snd r <= snd cur.

(** [Sq]: the sequences already placed; their ranges lie inside [cur], which is what the padded mask range has to cover *)
Lemma place_ranges : forall batch cs rs cur loc Sq,
  RI cs rs -> RP rs -> 0 <= fst cur -> (loc + length batch <= length cs)%nat ->
  (forall q, In q Sq -> forall r, lookup rs q = Some r -> rsub r cur) ->
  RI (place_cells cs rs cur loc batch) (place_rs cs rs cur loc batch) /\
  (forall q, In q (Sq ++ map (fun e : entry => fst (fst e)) batch) ->
     forall r, lookup (place_rs cs rs cur loc batch) q = Some r -> rsub r (place_cur cs rs cur loc batch)) /\
  rsub cur (place_cur cs rs cur loc batch) /\
  RP (place_rs cs rs cur loc batch) /\ 0 <= fst (place_cur cs rs cur loc batch).
Proof.
  intros batch. induction batch as [|[[q p] t] rest IH]; intros cs rs cur loc Sq HR HP Hc Hfit HC;
    unfold place_cells, place_rs, place_cur in *.
  - simpl. rewrite app_nil_r. split; [exact HR|split; [exact HC|split; [unfold rsub; lia|auto]]].
  - rewrite place_cons. simpl in Hfit |- *.
    set (r := widen (range_or_new rs q) loc). set (cs1 := set_nth loc (mkCell p [q]) cs).
    assert (L1 : length cs1 = length cs) by (unfold cs1; apply set_nth_length).
    assert (Hsub : rsub r (hull r cur)) by (unfold rsub, hull; simpl; lia).
    assert (Hcur : rsub cur (hull r cur)) by (unfold rsub, hull; simpl; lia).
    pose proof (range_or_new_nonneg rs q HP) as Hr0.
    destruct (IH cs1 (update rs q r) (hull r cur) (S loc) (Sq ++ [q])) as [I1 [I2 [I3 I4]]].
    +       intros i q' Hi Hq'. rewrite L1 in Hi. unfold cs1, cell_at in Hq'. rewrite nth_set_nth in Hq'.
      destruct (Nat.eqb_spec i loc) as [->|Hne]; simpl in Hq'.
      * destruct (Nat.ltb_spec loc (length cs)); [|lia]. unfold has in Hq'. simpl in Hq'. rewrite orb_false_r in Hq'.
        apply Nat.eqb_eq in Hq'. subst q'. rewrite lookup_update_same. exists r. split; [reflexivity|apply widen_self].
      * destruct (HR i q' Hi Hq') as [r' [Hr Hin]]. destruct (Nat.eq_dec q' q) as [->|Hq].
        -- rewrite lookup_update_same. exists r. split; [reflexivity|]. apply widen_in. unfold range_or_new. rewrite Hr. exact Hin.
        -- rewrite lookup_update_other by assumption. eauto.
    + apply rpos_update; [exact HP|]. unfold r. simpl. lia.
    + unfold r. simpl. lia.
    + rewrite L1. lia.
    + intros q' Hin r' Hr. apply in_app_or in Hin. destruct (Nat.eq_dec q' q) as [->|Hq].
      * rewrite lookup_update_same in Hr. injection Hr as <-. exact Hsub.
      * rewrite lookup_update_other in Hr by assumption. destruct Hin as [Hin|[Hin|[]]]; [|congruence].
        destruct (HC q' Hin r' Hr) as [A B]. destruct Hcur as [C D]. unfold rsub. lia.
    + split; [exact I1|]. split.
      * intros q' Hin. apply I2. rewrite <- app_assoc. simpl. exact Hin.
      * split; [|exact I4]. destruct I3 as [A B]. destruct Hcur as [C D]. unfold rsub. lia.
Qed.

Lemma seqZ_nat : forall n lo, 0 <= lo -> map Z.to_nat (seqZ lo n) = seq (Z.to_nat lo) n.
Proof.
  induction n as [|n IH]; intros lo H; simpl; auto. f_equal. rewrite IH by lia. f_equal. lia.
Qed.

Lemma filter_seq_window : forall (V : nat -> bool) lo len M,
  (forall j, V j = true -> (lo <= j < lo + len)%nat) -> (lo + len <= M)%nat ->
  filter V (seq 0 M) = filter V (seq lo len).
Proof.
  intros V lo len M HV HM.
  replace M with (lo + (len + (M - lo - len)))%nat by lia.
  rewrite seq_app, seq_app, !filter_app. simpl.
  rewrite (filter_none _ V (seq 0 lo)), (filter_none _ V (seq (lo + len) (M - lo - len))).
  - rewrite app_nil_r. reflexivity.
  - intros x Hx. apply in_seq in Hx. destruct (V x) eqn:E; auto. apply HV in E. lia.
  - intros x Hx. apply in_seq in Hx. destruct (V x) eqn:E; auto. apply HV in E. lia.
Qed.

Definition pair_at (cs : list cell) (ps : list (option datum)) (j : nat) : cell * option datum := (cell_at cs j, nth j ps None).

Lemma combine_as_map : forall cs ps, length ps = length cs -> combine cs ps = map (pair_at cs ps) (seq 0 (length cs)).
Proof.
  intros cs ps Hl. apply (nth_ext _ _ (empty_cell, None) (pair_at cs ps 0)).
  - rewrite combine_length, map_length, seq_length. lia.
  - intros k Hk. rewrite combine_length, Hl, Nat.min_id in Hk. rewrite map_nth, seq_nth by assumption.
    rewrite nth_combine by assumption. reflexivity.
Qed.

Lemma visible_has : forall w cl q p, visible_at w cl q p = true -> has q cl = true.
Proof. intros w cl q p H. unfold visible_at in H. apply andb_true_iff in H. destruct H as [H _]. apply andb_true_iff in H. tauto. Qed.

Theorem mask_exact : forall cs ps w q p pr, length ps = length cs -> 0 <= fst pr ->
  (forall j, (j < length cs)%nat -> has q (cell_at cs j) = true -> fst pr <= Z.of_nat j <= snd pr) ->
  map (pair_at cs ps) (mask_row w cs pr q p) = filter (fun x => visible_at w (fst x) q p) (live_pairs cs ps).
Proof.
  intros cs ps w q p [pmin pmax] Hl Hmin Hcov. simpl in *. unfold mask_row, live_pairs. simpl.
  rewrite seqZ_nat by assumption.
  rewrite (combine_as_map cs ps Hl), !filter_map_comm. f_equal.
  rewrite filter_filter.
  set (V := fun j => visible_at w (cell_at cs j) q p).
  rewrite (filter_ext_in (fun x => livep (pair_at cs ps x) && visible_at w (fst (pair_at cs ps x)) q p) V).
  2:{ intros x _. unfold V, livep, pair_at. simpl. destruct (visible_at w (cell_at cs x) q p) eqn:E; [|apply andb_false_r].
      rewrite (has_live q _ (visible_has _ _ _ _ E)). reflexivity. }
  set (a := Z.to_nat pmin). set (cnt := Z.to_nat (pmax - pmin + 1)).
  assert (HV1 : forall j, V j = true -> (j < length cs)%nat).
  { intros j Hj. destruct (Nat.lt_ge_cases j (length cs)); auto. unfold V in Hj. rewrite cell_at_oob in Hj by assumption.
    apply visible_has in Hj. discriminate. }
  assert (HV2 : forall j, V j = true -> (a <= j < a + cnt)%nat).
  { intros j Hj. pose proof (HV1 j Hj) as H1. specialize (Hcov j H1 (visible_has _ _ _ _ Hj)). unfold a, cnt. lia. }
  rewrite <- (filter_seq_window V a cnt (Nat.max (length cs) (a + cnt)) HV2 ltac:(lia)).
  rewrite <- (filter_seq_window V 0 (length cs) (Nat.max (length cs) (a + cnt))); [reflexivity| |lia].
  intros j Hj. specialize (HV1 j Hj). lia.
Qed.

Lemma visible_at_spec : forall w cl q p, 0 <= c_pos cl -> p < MaxInt32 ->
  visible_at w cl q p = has q cl && Spec.in_window w (c_pos cl) p.
Proof.
  intros w cl q p Hc Hp. unfold visible_at, Spec.in_window. rewrite <- andb_assoc. f_equal.
  destruct w as [w|].
  - destruct (Z.ltb_spec p (c_pos cl)); destruct (Z.ltb_spec (c_pos cl) (p - w));
      destruct (Z.leb_spec (c_pos cl) p); destruct (Z.leb_spec (p - w) (c_pos cl)); simpl; auto; lia.
  - destruct (Z.ltb_spec p (c_pos cl)); destruct (Z.ltb_spec (c_pos cl) (p - MaxInt32));
      destruct (Z.leb_spec (c_pos cl) p); simpl; auto; lia.
Qed.

(** what a location holds, as the attention kernel sees it: the position baked into K and the token *)
Definition kt (ps : list (option datum)) (j : nat) : Z * N :=
  match nth j ps None with Some x => (d_kpos x, d_tok x) | None => (0, 0%N) end.

Theorem mask_visible : forall c q p pr, Inv c -> 0 <= p < MaxInt32 -> 0 <= fst pr ->
  (forall j, (j < length (cells c))%nat -> has q (cell_at (cells c) j) = true -> fst pr <= Z.of_nat j <= snd pr) ->
  map (kt (phys c)) (mask_row (window c) (cells c) pr q p) = Spec.visible_raw (abs c) q p.
Proof.
  intros c q p pr HI Hp Hmin Hcov.
  unfold Spec.visible_raw, abs. simpl. unfold abs_cells. rewrite filter_map_comm, map_map.
  rewrite (filter_ext_in (fun x => Spec.has q (to_acell x) && Spec.in_window (window c) (Spec.a_pos (to_acell x)) p)
             (fun x => visible_at (window c) (fst x) q p)).
  2:{ intros x Hx. pose proof (inv_data c HI) as HD. rewrite Forall_forall in HD.
      destruct (HD x Hx) as [y [_ [_ Hb]]]. rewrite visible_at_spec by lia. reflexivity. }
  rewrite <- (mask_exact (cells c) (phys c) (window c) q p pr (inv_len c HI) Hmin Hcov).
  rewrite map_map. apply map_ext_in. intros j Hj.
  unfold mask_row in Hj. apply filter_In in Hj. destruct Hj as [_ Hv].
  assert (Hlive : live (cell_at (cells c) j) = true) by (eapply has_live; eapply visible_has; eauto).
  assert (Hj : (j < length (cells c))%nat).
  { destruct (Nat.lt_ge_cases j (length (cells c))); auto. rewrite cell_at_oob in Hlive by assumption. discriminate. }
  destruct (proj1 (data_nth _ _ (inv_len c HI)) (inv_data c HI) j Hj Hlive) as [x [Hx [Hk _]]]. simpl in Hx, Hk.
  unfold kt, pair_at, Spec.pt, to_acell. simpl. rewrite Hx. simpl. rewrite Hk. reflexivity.
Qed.

Definition e_seq (e : entry) : nat := fst (fst e).
Definition e_pos (e : entry) : Z := snd (fst e).
Definition valid_batch (batch : list entry) : Prop :=
  batch <> [] /\ Forall (fun e : entry => 0 <= e_pos e < MaxInt32) batch.

Lemma round_down_le : forall x pad, (1 <= pad)%nat -> 0 <= x -> 0 <= round_downZ x pad <= x.
Proof.
  intros x pad Hp Hx. unfold round_downZ. assert (0 < Z.of_nat pad) by lia.
  pose proof (Z.mul_div_le x (Z.of_nat pad) H). pose proof (Z.div_pos x (Z.of_nat pad) Hx H). nia.
Qed.

Lemma round_up_ge : forall y pad, (1 <= pad)%nat -> y <= round_upZ (y + 1) pad - 1.
Proof.
  intros y pad Hp. unfold round_upZ. assert (H : 0 < Z.of_nat pad) by lia.
  pose proof (Z.mod_pos_bound (y + 1 + Z.of_nat pad - 1) (Z.of_nat pad) H) as Hm.
  pose proof (Z.div_mod (y + 1 + Z.of_nat pad - 1) (Z.of_nat pad) ltac:(lia)) as Hd. nia.
Qed.

Lemma length_abs : forall cs ps, length ps = length cs -> length (abs_cells cs ps) = nlive cs.
Proof.
  intros cs ps Hl. unfold abs_cells, live_pairs, nlive. rewrite map_length.
  rewrite <- (map_fst_combine cs ps Hl) at 2. rewrite (filter_map_comm _ _ fst live), map_length. reflexivity.
Qed.

Lemma new_pair_spec : forall e, to_acell (new_pair e) = Spec.entry_cell e.
Proof. intros [[q p] t]. reflexivity. Qed.

Lemma new_pair_good : forall e, 0 <= e_pos e < MaxInt32 -> good_pair (new_pair e).
Proof. intros [[q p] t] H. unfold good_pair, new_pair, e_pos in *. simpl in *. eexists. repeat split; eauto; lia. Qed.

Definition fwd_vis_ok (c' : cache) (batch : list entry) (f : fwd_out) : Prop :=
  forall i e, nth_error batch i = Some e ->
  exists vis, nth_error (f_vis f) i = Some vis /\ map (kt (phys c')) vis = Spec.visible_raw (abs c') (e_seq e) (e_pos e).

Theorem place_correct : forall c loc batch, Inv c -> valid_batch batch ->
  (loc + length batch <= length (cells c))%nat ->
  (forall k, (loc <= k < loc + length batch)%nat -> live (cell_at (cells c) k) = false) ->
  let r := meta_place c loc batch in
  let c' := put_batch (fst r) loc batch in
  Inv c' /\ R c' (Spec.with_cells (abs c) (abs_cells (cells c) (phys c) ++ map Spec.entry_cell batch)) /\
  exists f, snd r = OFwd f /\ f_loc f = loc /\ fwd_vis_ok c' batch f.
Proof.
  intros c loc batch HI [Hne Hval] Hfit Hdead. cbv zeta. unfold meta_place.
  pose proof (place_put_perm batch (cells c) (phys c) (ranges c) new_range loc (inv_len c HI) Hfit Hdead) as HP.
  pose proof (place_cells_length batch (cells c) (ranges c) new_range loc) as L1. pose proof (put_length batch (phys c) loc) as L2.
  pose proof (place_ranges batch (cells c) (ranges c) new_range loc [] (inv_rng c HI) (inv_rpos c HI)
                ltac:(unfold new_range, MaxInt; simpl; lia) Hfit ltac:(intros q [])) as [HRI [Hcur [_ [HRP Hcn]]]].
  unfold place_cells, place_rs, place_cur in *.
  destruct (place (cells c) (ranges c) new_range loc batch) as [[cs rs] cur]. simpl in *.
  assert (HI' : Inv (put_batch (with_cpr c cs (phys c) rs) loc batch)).
  { constructor; simpl.
    - rewrite L1, L2. apply (inv_len c HI).
    - rewrite L1. apply (inv_size c HI).
    - eapply Permutation_Forall; [apply Permutation_sym; exact HP|]. apply Forall_app. split.
      + apply Forall_forall. intros x Hx. apply in_map_iff in Hx. destruct Hx as [e [<- He]].
        apply new_pair_good. rewrite Forall_forall in Hval. auto.
      + apply (inv_data c HI).
    - exact HRI.
    - apply (inv_pad c HI).
    - exact HRP. }
  split; [exact HI'|]. split.
  - unfold R. simpl. split; [|auto]. unfold abs_cells. eapply Permutation_trans; [apply Permutation_map; exact HP|].
    rewrite map_app, map_map. rewrite (map_ext _ _ new_pair_spec). apply Permutation_app_comm.
  - eexists. split; [reflexivity|]. split; [reflexivity|].
    intros i e He. simpl. rewrite (map_nth_error _ _ _ He). eexists. split; [reflexivity|].
    destruct e as [[q p] t]. unfold e_seq, e_pos. simpl.
    assert (Hin : In (q, p, t) batch) by (eapply nth_error_In; eauto).
    assert (Hp : 0 <= p < MaxInt32) by (rewrite Forall_forall in Hval; apply (Hval _ Hin)).
    set (c' := put_batch (with_cpr c cs (phys c) rs) loc batch) in *.
    apply (mask_visible c' q p (pad_range (cpad c) cur) HI' Hp).
    + unfold pad_range. simpl. apply round_down_le; [apply (inv_pad c HI)|exact Hcn].
    + intros j Hj Hq. simpl in Hj, Hq. destruct (HRI j q Hj Hq) as [r [Hr Hrj]].
      assert (Hs : rsub r cur).
      { apply (Hcur q); [|exact Hr]. simpl. apply in_map_iff. exists (q, p, t). split; [reflexivity|exact Hin]. }
      destruct Hs as [S1 S2]. unfold in_rng in Hrj. apply andb_true_iff in Hrj. destruct Hrj as [R1 R2].
      apply Z.leb_le in R1, R2. unfold pad_range. simpl.
      pose proof (round_down_le (fst cur) (cpad c) (inv_pad c HI) Hcn).
      pose proof (round_up_ge (snd cur) (cpad c) (inv_pad c HI)). lia.
Qed.

Definition fwd_result_ok (batch : list entry) (r : cache * out) (sr : Spec.sstate * option Spec.serr) : Prop :=
  Inv (fst r) /\ R (fst r) (fst sr) /\
  ((snd r = OErr EFull /\ snd sr = Some Spec.EFull) \/
   (exists f, snd r = OFwd f /\ snd sr = None /\ fwd_vis_ok (fst r) batch f)).

Lemma start_forward_eq : forall fx c batch,
  start_forward fx c batch =
  match snd (start_forward_meta fx c batch) with
  | OFwd f => (put_batch (fst (start_forward_meta fx c batch)) (f_loc f) batch, OFwd f)
  | r => (fst (start_forward_meta fx c batch), r)
  end.
Proof. intros. unfold start_forward. destruct (start_forward_meta fx c batch) as [c' [f|e| |b|]]; reflexivity. Qed.

Theorem forward_correct : forall c batch, Inv c -> valid_batch batch ->
  fwd_result_ok batch (start_forward true c batch) (Spec.spec_forward (abs c) batch).
Proof.
  intros c batch HI Hvb. pose proof Hvb as [Hne Hval].
  assert (Hn : (1 <= length batch)%nat) by (destruct batch; [congruence|simpl; lia]).
  destruct (update_window_correct c batch HI) as [HI1 Ha1].
  unfold start_forward, start_forward_meta. set (c1 := update_window c batch) in *.
  (* the specification, in terms of the state [c1] after the eviction *)
  assert (Hs : Spec.spec_forward (abs c) batch =
               if (length (cells c1) - nlive (cells c1) <? length batch)%nat then (abs c1, Some Spec.EFull)
               else (Spec.with_cells (abs c1) (abs_cells (cells c1) (phys c1) ++ map Spec.entry_cell batch), None)).
  { rewrite <- (length_abs _ _ (inv_len c1 HI1)).
    change (abs_cells (cells c1) (phys c1)) with (Spec.s_cells (abs c1)). change (length (cells c1)) with (Spec.s_cap (abs c1)).
    rewrite Ha1. unfold Spec.spec_forward. rewrite (Nat.max_r 1 (@length Spec.entry batch) Hn). reflexivity. }
  rewrite Hs. clear Hs Ha1.
  (* placing the batch in a state [ck] that holds the same entries as [c1] *)
  assert (Hplace : forall ck loc, Inv ck -> find_start (cells ck) (length batch) = Some loc -> R ck (abs c1) ->
            fwd_result_ok batch
              (let '(c', r) := meta_place ck loc batch in
               match r with OFwd f => (put_batch c' (f_loc f) batch, r) | _ => (c', r) end)
              (Spec.with_cells (abs c1) (abs_cells (cells c1) (phys c1) ++ map Spec.entry_cell batch), None)).
  { intros ck loc HIk Hfs [P2 [W2 [C2 S2]]]. destruct (find_start_sound _ _ _ Hfs Hn) as [Hfit Hdead].
    pose proof (place_correct ck loc batch HIk Hvb Hfit Hdead) as HPc. cbv zeta in HPc.
    destruct (meta_place ck loc batch) as [c' r]. simpl in HPc.
    destruct HPc as [HI' [[P1 [W1 [C1 S1]]] [f [Hr [Hloc Hvis]]]]]. subst r. rewrite Hloc.
    split; [exact HI'|]. split; [|right; exists f; auto].
    unfold R, Spec.with_cells. simpl in *. repeat split; try congruence.
    eapply Permutation_trans; [exact P1|]. apply Permutation_app_tail. exact P2. }
  destruct (find_start (cells c1) (length batch)) as [loc|] eqn:Hfs.
  - pose proof (find_start_free _ _ _ Hfs Hn) as Hfree.
    destruct (Nat.ltb_spec (length (cells c1) - nlive (cells c1)) (length batch)); [lia|].
    apply Hplace; auto using R_abs.
  - assert (Hd : exists c2, defrag true c1 = Some c2) by (eexists; reflexivity). destruct Hd as [c2 Hd]. rewrite Hd.
    destruct (defrag_correct c1 c2 HI1 Hd) as [HI2 [_ [Hcomp HR2]]]. pose proof HR2 as [P2 [_ [C2 _]]]. simpl in P2, C2.
    assert (Hnl : nlive (cells c2) = nlive (cells c1)).
    { rewrite <- (length_abs _ _ (inv_len c2 HI2)), <- (length_abs _ _ (inv_len c1 HI1)). apply Permutation_length. exact P2. }
    destruct (find_start (cells c2) (length batch)) as [loc|] eqn:Hfs2.
    + pose proof (find_start_free _ _ _ Hfs2 Hn) as Hfree.
      destruct (Nat.ltb_spec (length (cells c1) - nlive (cells c1)) (length batch)); [lia|].
      apply Hplace; auto.
    + pose proof (proj1 (find_start_compact _ _ Hcomp Hn) Hfs2) as Hfull.
      destruct (Nat.ltb_spec (length (cells c1) - nlive (cells c1)) (length batch)); [|lia].
      split; [exact HI2|]. split; [exact HR2|left; auto].
Qed.

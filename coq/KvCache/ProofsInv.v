(** KvCache/ProofsInv.v - the representation invariant of the cache model, the abstraction function into
    KvCache/Spec.v, and general facts about cells, ranges and permutations used by the per-operation proofs. *)
From Coq Require Import List ZArith NArith Bool Arith Lia Permutation.
From V Require Import KvCache.Model KvCache.ProofsList.
From V Require KvCache.Spec.
Import ListNotations.
Open Scope Z_scope.

Notation pair := (cell * option datum)%type (only parsing).
Definition livep (p : pair) : bool := live (fst p).
Definition tok_of (d : option datum) : N := match d with Some x => d_tok x | None => 0%N end.
Definition to_acell (p : pair) : Spec.acell := Spec.mkA (c_pos (fst p)) (tok_of (snd p)) (c_seqs (fst p)).
Definition live_pairs (cs : list cell) (ps : list (option datum)) : list pair := filter livep (combine cs ps).
Definition abs_cells (cs : list cell) (ps : list (option datum)) : list Spec.acell := map to_acell (live_pairs cs ps).
Definition abs (c : cache) : Spec.sstate :=
  Spec.mkS (abs_cells (cells c) (phys c)) (window c) (length (cells c)) (can_shift c).

(** a live pair is well-formed: data present, the position baked into K is the position of the metadata,
    and the position is a valid int32 position *)
Definition good_pair (p : pair) : Prop :=
  exists x, snd p = Some x /\ d_kpos x = c_pos (fst p) /\ 0 <= c_pos (fst p) < MaxInt32.

(** [inv_size]: [MaxInt] is the sentinel of [new_range] and must not be a location ([range_of_new_iff]);
    [inv_rpos]: the mask converts the start of a range with [Z.to_nat] ([mask_row]) *)
Record Inv (c : cache) : Prop := mkInv {
  inv_len : length (phys c) = length (cells c);
  inv_size : Z.of_nat (length (cells c)) < MaxInt;
  inv_data : Forall good_pair (live_pairs (cells c) (phys c));
  inv_rng : forall i q, (i < length (cells c))%nat -> has q (cell_at (cells c) i) = true ->
            exists r, lookup (ranges c) q = Some r /\ in_rng r i = true;
  inv_pad : (1 <= cpad c)%nat;
  inv_rpos : forall q r, lookup (ranges c) q = Some r -> 0 <= fst r
}.

Definition R (c : cache) (s : Spec.sstate) : Prop :=
  Permutation (abs_cells (cells c) (phys c)) (Spec.s_cells s) /\
  Spec.s_window s = window c /\ Spec.s_cap s = length (cells c) /\ Spec.s_shift s = can_shift c.

Lemma abs_with_cpr : forall c cs ps rs, length cs = length (cells c) ->
  abs (with_cpr c cs ps rs) = Spec.with_cells (abs c) (abs_cells cs ps).
Proof. intros c cs ps rs H. unfold abs, Spec.with_cells. simpl. rewrite H. reflexivity. Qed.

Lemma R_abs : forall c, R c (abs c).
Proof. intros c. unfold R, abs. simpl. auto. Qed.

Lemma has_spec : forall q p, Spec.has q (to_acell p) = has q (fst p).
Proof. reflexivity. Qed.
Lemma others_spec : forall q p, Spec.others q (to_acell p) = others q (fst p).
Proof. reflexivity. Qed.
Lemma live_spec : forall p, Spec.live (to_acell p) = livep p.
Proof. intros [[ps sq] d]. destruct sq; reflexivity. Qed.

(** owners of a specification cell under its operations; the model's cells have the same owners, through [to_acell] *)
Lemma has_drop_same : forall q a, Spec.has q (Spec.drop_seq q a) = false.
Proof.
  intros q [p t sq]. unfold Spec.has, Spec.drop_seq. simpl. induction sq as [|x r IH]; simpl; auto.
  destruct (Nat.eqb_spec x q); simpl; auto. destruct (Nat.eqb_spec q x); [lia|]. exact IH.
Qed.

Lemma has_drop_other : forall q q' a, q <> q' -> Spec.has q (Spec.drop_seq q' a) = Spec.has q a.
Proof.
  intros q q' [p t sq] H. unfold Spec.has, Spec.drop_seq. simpl. induction sq as [|x r IH]; simpl; auto.
  destruct (Nat.eqb_spec x q'); simpl.
  - subst. destruct (Nat.eqb_spec q q'); [lia|]. exact IH.
  - rewrite IH. reflexivity.
Qed.

Lemma has_add_seq : forall q q' a, Spec.has q (Spec.add_seq q' a) = Spec.has q a || Nat.eqb q q'.
Proof. intros q q' [p t sq]. unfold Spec.has, Spec.add_seq. simpl. rewrite existsb_app. simpl. rewrite orb_false_r. reflexivity. Qed.

Lemma copy_cell_has : forall src dst len a q,
  Spec.has q (Spec.copy_cell src dst len a) =
  if Nat.eqb q dst then Spec.has src (Spec.drop_seq dst a) && (Spec.a_pos a <? len) else Spec.has q a.
Proof.
  intros src dst len a q. unfold Spec.copy_cell.
  destruct (Spec.has src (Spec.drop_seq dst a) && (Spec.a_pos a <? len)); rewrite ?has_add_seq;
    (destruct (Nat.eqb_spec q dst) as [->|Hq]; [rewrite ?has_drop_same|rewrite has_drop_other by exact Hq]);
    rewrite ?orb_true_r, ?orb_false_r; reflexivity.
Qed.

Lemma has_del_same : forall q cl, has q (del q cl) = false.
Proof. intros q cl. exact (has_drop_same q (to_acell (cl, None))). Qed.

Lemma has_del_other : forall q q' cl, q <> q' -> has q (del q' cl) = has q cl.
Proof. intros q q' cl H. exact (has_drop_other q q' (to_acell (cl, None)) H). Qed.

Lemma has_false_del : forall q cl, has q cl = false -> del q cl = cl.
Proof.
  intros q [p sq] H. unfold del, has in *. simpl in *. f_equal.
  induction sq as [|x t IH]; simpl in *; auto. apply orb_false_iff in H. destruct H as [H1 H2].
  destruct (Nat.eqb_spec x q); simpl.
  - subst. rewrite Nat.eqb_refl in H1. discriminate.
  - f_equal. auto.
Qed.

Lemma live_false_seqs : forall cl, live cl = false -> c_seqs cl = [].
Proof. intros [p [|x t]]; simpl; intros; [reflexivity|discriminate]. Qed.

Lemma has_dead : forall q cl, live cl = false -> has q cl = false.
Proof. intros q cl H. unfold has. rewrite (live_false_seqs _ H). reflexivity. Qed.

Lemma has_live_spec : forall q a, Spec.has q a = true -> Spec.live a = true.
Proof. intros q [p t [|x sq]] H; simpl in *; [discriminate|reflexivity]. Qed.

Lemma has_live : forall q cl, has q cl = true -> live cl = true.
Proof. intros q cl H. exact (has_live_spec q (to_acell (cl, None)) H). Qed.

Lemma cell_at_oob : forall l i, (length l <= i)%nat -> cell_at l i = empty_cell.
Proof. intros. unfold cell_at. apply nth_overflow. assumption. Qed.

Lemma has_empty : forall q, has q empty_cell = false.
Proof. reflexivity. Qed.

Lemma Permutation_filter' : forall A (f : A -> bool) l l', Permutation l l' -> Permutation (filter f l) (filter f l').
Proof.
  intros A f l l' H. induction H; simpl.
  - constructor.
  - destruct (f x); auto.
  - destruct (f x); destruct (f y); auto. constructor.
  - eapply Permutation_trans; eauto.
Qed.

Lemma Permutation_existsb : forall A (f : A -> bool) l l', Permutation l l' -> existsb f l = existsb f l'.
Proof.
  intros A f l l' H. induction H; simpl; auto.
  - rewrite IHPermutation. reflexivity.
  - destruct (f x); destruct (f y); reflexivity.
  - congruence.
Qed.

Lemma filter_map_comm : forall A B (g : A -> B) (f : B -> bool) l, filter f (map g l) = map g (filter (fun x => f (g x)) l).
Proof. intros. induction l; simpl; auto. destruct (f (g a)); simpl; rewrite IHl; reflexivity. Qed.

Lemma filter_filter : forall A (f g : A -> bool) l, filter f (filter g l) = filter (fun x => g x && f x) l.
Proof. intros. induction l; simpl; auto. destruct (g a); simpl; [destruct (f a)|]; rewrite IHl; reflexivity. Qed.

Lemma filter_none : forall A (V : A -> bool) l, (forall x, In x l -> V x = false) -> filter V l = [].
Proof. intros A V l H. induction l as [|a t IH]; simpl; auto. rewrite (H a) by (left; reflexivity). apply IH. intros; apply H; right; assumption. Qed.

Lemma In_seqZ : forall n lo x, In x (seqZ lo n) <-> lo <= x < lo + Z.of_nat n.
Proof.
  induction n as [|n IH]; intros lo x; simpl.
  - split; [tauto|lia].
  - rewrite IH. lia.
Qed.

Lemma seqZ_length : forall n lo, length (seqZ lo n) = n.
Proof. induction n; intros; simpl; auto. Qed.

(** pigeonhole: as many distinct keys in [lo, hi) as the interval is long - every one of them is there *)
Lemma all_present : forall A (k : A -> Z) (l : list A) lo hi, NoDup (map k l) ->
  Z.of_nat (length (filter (fun x => (lo <=? k x) && (k x <? hi)) l)) = hi - lo ->
  forall y, lo <= y < hi -> exists x, In x l /\ k x = y.
Proof.
  intros A k l lo hi Hnd Hc y Hy.
  set (L := map k (filter (fun x => (lo <=? k x) && (k x <? hi)) l)).
  assert (HL : length L = Z.to_nat (hi - lo)) by (unfold L; rewrite map_length; lia).
  assert (HN : NoDup L).
  { unfold L. rewrite <- (filter_map_comm _ _ k (fun z => (lo <=? z) && (z <? hi))). apply NoDup_filter. exact Hnd. }
  assert (Hincl : incl L (seqZ lo (Z.to_nat (hi - lo)))).
  { intros z Hz. unfold L in Hz. apply in_map_iff in Hz. destruct Hz as [x [<- Hx]]. apply filter_In in Hx.
    destruct Hx as [_ Hc']. apply andb_true_iff in Hc'. destruct Hc' as [H1 H2]. apply Z.leb_le in H1. apply Z.ltb_lt in H2.
    apply In_seqZ. lia. }
  assert (Hin : In y L).
  { apply (NoDup_length_incl HN (l' := seqZ lo (Z.to_nat (hi - lo)))); [rewrite seqZ_length, HL; lia|exact Hincl|]. apply In_seqZ. lia. }
  unfold L in Hin. apply in_map_iff in Hin. destruct Hin as [x [Hx Hf]]. apply filter_In in Hf. exists x. tauto.
Qed.

Definition on_cell (f : cell -> cell) (p : pair) : pair := (f (fst p), snd p).

Lemma combine_map_l : forall (f : cell -> cell) cs (ps : list (option datum)),
  combine (map f cs) ps = map (on_cell f) (combine cs ps).
Proof. intros f cs. induction cs as [|c t IH]; intros [|p ps]; simpl; auto. rewrite IH. reflexivity. Qed.

Lemma live_pairs_map : forall (f : cell -> cell) cs ps,
  (forall cl, live cl = false -> live (f cl) = false) ->
  live_pairs (map f cs) ps = filter livep (map (on_cell f) (live_pairs cs ps)).
Proof.
  intros f cs ps H. unfold live_pairs. rewrite combine_map_l.
  induction (combine cs ps) as [|p t IH]; simpl; auto.
  destruct (livep p) eqn:E; simpl.
  - destruct (livep (on_cell f p)); rewrite IH; reflexivity.
  - unfold livep in E. unfold livep at 1. simpl. rewrite (H _ E). exact IH.
Qed.

Lemma lookup_update_same : forall m q r, lookup (update m q r) q = Some r.
Proof.
  intros m q r. induction m as [|[k r0] t IH]; simpl.
  - rewrite Nat.eqb_refl. reflexivity.
  - destruct (Nat.eqb_spec k q); simpl.
    + subst. rewrite Nat.eqb_refl. reflexivity.
    + destruct (Nat.eqb_spec k q); [lia|]. exact IH.
Qed.

Lemma lookup_update_other : forall m q q' r, q <> q' -> lookup (update m q' r) q = lookup m q.
Proof.
  intros m q q' r H. induction m as [|[k r0] t IH]; simpl.
  - destruct (Nat.eqb_spec q' q); [lia|reflexivity].
  - destruct (Nat.eqb_spec k q'); simpl.
    + subst. destruct (Nat.eqb_spec q' q); [lia|reflexivity].
    + destruct (Nat.eqb_spec k q); [reflexivity|exact IH].
Qed.

Lemma lookup_delete_other : forall m q q', q <> q' -> lookup (delete m q') q = lookup m q.
Proof.
  intros m q q' H. induction m as [|[k r0] t IH]; simpl; auto.
  destruct (Nat.eqb_spec k q'); simpl.
  - subst. destruct (Nat.eqb_spec q' q); [lia|exact IH].
  - destruct (Nat.eqb_spec k q); [reflexivity|exact IH].
Qed.

Lemma widen_in : forall r i j, in_rng r j = true -> in_rng (widen r i) j = true.
Proof.
  intros [a b] i j H. unfold in_rng, widen in *. simpl in *. apply andb_true_iff in H. destruct H as [H1 H2].
  apply andb_true_iff. split; apply Z.leb_le; apply Z.leb_le in H1, H2; lia.
Qed.

Lemma widen_self : forall r i, in_rng (widen r i) i = true.
Proof. intros [a b] i. unfold in_rng, widen. simpl. apply andb_true_iff. split; apply Z.leb_le; lia. Qed.

Lemma range_from_mono : forall f l i r j, in_rng r j = true -> in_rng (range_from i f l r) j = true.
Proof.
  intros f l. induction l as [|cl t IH]; intros i r j H; simpl; auto.
  apply IH. destruct (f i cl); [apply widen_in|]; assumption.
Qed.

Lemma range_from_covers : forall f l i r k, (k < length l)%nat -> f (i + k)%nat (nth k l empty_cell) = true ->
  in_rng (range_from i f l r) (i + k) = true.
Proof.
  intros f l. induction l as [|cl t IH]; intros i r k Hk Hf; simpl in *; [lia|].
  destruct k as [|k].
  - rewrite Nat.add_0_r in *. rewrite Hf. apply range_from_mono. apply widen_self.
  - replace (i + S k)%nat with (S i + k)%nat in * by lia. apply IH; [lia|assumption].
Qed.

Lemma range_of_covers : forall f l k, (k < length l)%nat -> f k (cell_at l k) = true -> in_rng (range_of f l) k = true.
Proof. intros. unfold range_of. apply (range_from_covers f l 0 new_range k); assumption. Qed.

(** a range computed over fewer than MaxInt locations is [new_range] exactly when nothing matched *)
Lemma range_from_fst_le : forall f l i r, fst (range_from i f l r) <= fst r.
Proof.
  intros f l. induction l as [|cl t IH]; intros i r; simpl; [lia|].
  etransitivity; [apply IH|]. destruct (f i cl); simpl; lia.
Qed.

Lemma range_from_none : forall f l i r, (forall k, (k < length l)%nat -> f (i + k)%nat (nth k l empty_cell) = false) ->
  range_from i f l r = r.
Proof.
  intros f l. induction l as [|cl t IH]; intros i r H; simpl; auto.
  pose proof (H 0%nat) as H0. simpl in H0. rewrite Nat.add_0_r in H0. rewrite H0 by lia.
  apply IH. intros k Hk. replace (S i + k)%nat with (i + S k)%nat by lia. apply (H (S k)). simpl. lia.
Qed.

Lemma range_from_some : forall f l i r k, (k < length l)%nat -> f (i + k)%nat (nth k l empty_cell) = true ->
  fst (range_from i f l r) <= Z.of_nat (i + k).
Proof.
  intros f l. induction l as [|cl t IH]; intros i r k Hk Hf; simpl in *; [lia|].
  destruct k as [|k].
  - rewrite Nat.add_0_r in *. rewrite Hf. etransitivity; [apply range_from_fst_le|]. simpl. lia.
  - replace (i + S k)%nat with (S i + k)%nat in * by lia. apply IH; [lia|assumption].
Qed.

Lemma range_of_new_iff : forall f l, Z.of_nat (length l) < MaxInt ->
  ((fst (range_of f l) =? MaxInt) && (snd (range_of f l) =? 0) = true <->
   forall k, (k < length l)%nat -> f k (cell_at l k) = false).
Proof.
  intros f l Hl. split.
  - intros H k Hk. destruct (f k (cell_at l k)) eqn:E; auto. exfalso.
    apply andb_true_iff in H. destruct H as [H _]. apply Z.eqb_eq in H.
    pose proof (range_from_some f l 0 new_range k Hk E) as H1. unfold range_of in H. simpl in H1. lia.
  - intros H. unfold range_of. rewrite range_from_none; [reflexivity|]. intros k Hk. apply H. assumption.
Qed.

Definition RP (m : list (nat * rng)) : Prop := forall q r, lookup m q = Some r -> 0 <= fst r.

Lemma range_from_fst_nonneg : forall f l i r, 0 <= fst r -> 0 <= fst (range_from i f l r).
Proof.
  intros f l. induction l as [|cl t IH]; intros i r H; simpl; auto.
  apply IH. destruct (f i cl); simpl; lia.
Qed.

Lemma range_of_fst_nonneg : forall f l, 0 <= fst (range_of f l).
Proof. intros. unfold range_of. apply range_from_fst_nonneg. unfold new_range, MaxInt. simpl. lia. Qed.

Lemma lookup_delete_same : forall m q, lookup (delete m q) q = None.
Proof.
  intros m q. induction m as [|[k r0] t IH]; simpl; auto.
  destruct (Nat.eqb_spec k q); simpl; auto. destruct (Nat.eqb_spec k q); [lia|exact IH].
Qed.

Lemma rpos_update : forall m q0 r0, RP m -> 0 <= fst r0 -> RP (update m q0 r0).
Proof.
  intros m q0 r0 H H0 q r Hr. destruct (Nat.eq_dec q q0) as [->|Hne].
  - rewrite lookup_update_same in Hr. injection Hr as <-. exact H0.
  - rewrite lookup_update_other in Hr by assumption. eapply H; eauto.
Qed.

Lemma rpos_delete : forall m q0, RP m -> RP (delete m q0).
Proof.
  intros m q0 H q r Hr. destruct (Nat.eq_dec q q0) as [->|Hne].
  - rewrite lookup_delete_same in Hr. discriminate.
  - rewrite lookup_delete_other in Hr by assumption. eapply H; eauto.
Qed.

Lemma nth_combine : forall (cs : list cell) (ps : list (option datum)) i,
  length ps = length cs -> (i < length cs)%nat ->
  nth i (combine cs ps) (empty_cell, None) = (cell_at cs i, nth i ps None).
Proof. intros. unfold cell_at. apply combine_nth. auto. Qed.

Lemma In_live_pairs : forall cs ps p, length ps = length cs ->
  (In p (live_pairs cs ps) <-> exists i, (i < length cs)%nat /\ p = (cell_at cs i, nth i ps None) /\ live (cell_at cs i) = true).
Proof.
  intros cs ps p Hl. unfold live_pairs. rewrite filter_In. split.
  - intros [Hin Hlive]. apply (In_nth _ _ (empty_cell, None)) in Hin. destruct Hin as [i [Hi Hn]].
    rewrite combine_length, Hl, Nat.min_id in Hi. exists i. rewrite nth_combine in Hn by assumption.
    subst p. unfold livep in Hlive. simpl in Hlive. auto.
  - intros [i [Hi [Hp Hlive]]]. subst p. split; [|exact Hlive].
    rewrite <- nth_combine by assumption. apply nth_In. rewrite combine_length, Hl, Nat.min_id. assumption.
Qed.

Lemma spec_remove_max : forall s q b, (forall a, In a (Spec.s_cells s) -> Spec.a_pos a < MaxInt32) ->
  Spec.spec_remove s q b MaxInt32 =
  (Spec.with_cells s (Spec.prune (map (Spec.rm_cell q b MaxInt32) (Spec.s_cells s))), None).
Proof.
  intros s q b Hp. unfold Spec.spec_remove.
  assert (Hb : existsb (Spec.rm_blocked q b MaxInt32) (Spec.s_cells s) = false).
  { destruct (existsb _ _) eqn:E; auto. apply existsb_exists in E. destruct E as [a [Ha Hb]]. specialize (Hp a Ha).
    unfold Spec.rm_blocked in Hb. change Spec.MaxInt32 with MaxInt32 in *.
    destruct (Z.leb_spec MaxInt32 (Spec.a_pos a)); [lia|]. rewrite andb_false_r in Hb. discriminate. }
  rewrite Hb. destruct (negb _); [reflexivity|]. change Spec.MaxInt32 with MaxInt32. rewrite Z.eqb_refl. reflexivity.
Qed.

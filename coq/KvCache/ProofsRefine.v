(** KvCache/ProofsRefine.v - the refinement of whole operation histories: every protocol-level operation of the
    cache model commutes with the operation of the specification (KvCache/Spec.v) up to the order of the entries,
    starting from the state built by Init. *)
From Coq Require Import List ZArith NArith Bool Arith Lia Permutation.
From V Require Import KvCache.Model KvCache.ProofsList KvCache.ProofsInv KvCache.ProofsDefrag KvCache.ProofsOps KvCache.ProofsFwd.
From V Require KvCache.Spec.
Import ListNotations.
Open Scope Z_scope.

Definition seqv (s s' : Spec.sstate) : Prop :=
  Permutation (Spec.s_cells s) (Spec.s_cells s') /\ Spec.s_window s = Spec.s_window s' /\
  Spec.s_cap s = Spec.s_cap s' /\ Spec.s_shift s = Spec.s_shift s'.

Lemma seqv_refl : forall s, seqv s s.
Proof. intros. unfold seqv. auto. Qed.

Lemma prune_perm : forall l l', Permutation l l' -> Permutation (Spec.prune l) (Spec.prune l').
Proof. intros. unfold Spec.prune. apply Permutation_filter'. assumption. Qed.

Lemma evict_perm : forall w batch l l', Permutation l l' -> Permutation (Spec.evict w batch l) (Spec.evict w batch l').
Proof. intros w batch l l' H. unfold Spec.evict. destruct w; auto. apply prune_perm, Permutation_map. assumption. Qed.

Lemma spec_forward_perm : forall s s' batch, seqv s s' ->
  seqv (fst (Spec.spec_forward s batch)) (fst (Spec.spec_forward s' batch)) /\
  snd (Spec.spec_forward s batch) = snd (Spec.spec_forward s' batch).
Proof.
  intros s s' batch [HP [Hw [Hc Hs]]]. unfold Spec.spec_forward. rewrite <- Hw, <- Hc.
  pose proof (evict_perm (Spec.s_window s) batch _ _ HP) as HE.
  rewrite <- (Permutation_length HE).
  destruct (_ <? _)%nat; simpl; unfold seqv; simpl; repeat split; auto.
  apply Permutation_app_tail. assumption.
Qed.

Lemma spec_copy_perm : forall s s' src dst len, seqv s s' -> seqv (Spec.spec_copy s src dst len) (Spec.spec_copy s' src dst len).
Proof.
  intros s s' src dst len [HP [Hw [Hc Hs]]]. unfold Spec.spec_copy, seqv. simpl. repeat split; auto.
  apply prune_perm, Permutation_map. assumption.
Qed.

Lemma spec_remove_perm : forall s s' q b e, seqv s s' ->
  seqv (fst (Spec.spec_remove s q b e)) (fst (Spec.spec_remove s' q b e)) /\
  snd (Spec.spec_remove s q b e) = snd (Spec.spec_remove s' q b e).
Proof.
  intros s s' q b e Hv. pose proof Hv as [HP [Hw [Hc Hs]]]. unfold Spec.spec_remove.
  rewrite <- (Permutation_existsb _ _ _ _ HP). destruct (existsb (Spec.rm_blocked q b e) (Spec.s_cells s)); simpl; [auto|].
  assert (HL : Permutation (Spec.prune (map (Spec.rm_cell q b e) (Spec.s_cells s))) (Spec.prune (map (Spec.rm_cell q b e) (Spec.s_cells s'))))
    by (apply prune_perm, Permutation_map; assumption).
  rewrite <- (Permutation_existsb _ _ _ _ HL), <- Hs.
  assert (HW : seqv (Spec.with_cells s (Spec.prune (map (Spec.rm_cell q b e) (Spec.s_cells s))))
                    (Spec.with_cells s' (Spec.prune (map (Spec.rm_cell q b e) (Spec.s_cells s')))))
    by (unfold seqv; simpl; auto).
  destruct (negb _); simpl; [auto|]. destruct (e =? Spec.MaxInt32); simpl; [auto|].
  destruct (Spec.s_shift s); simpl; auto.
Qed.

Lemma spec_remove_c_perm : forall s s' q b e, seqv s s' ->
  seqv (fst (Spec.spec_remove_c s q b e)) (fst (Spec.spec_remove_c s' q b e)) /\
  snd (Spec.spec_remove_c s q b e) = snd (Spec.spec_remove_c s' q b e).
Proof.
  intros s s' q b e Hv. unfold Spec.spec_remove_c.
  destruct (spec_remove_perm s s' q b e Hv) as [H1 H2]. destruct (spec_remove_perm s s' q 0 Spec.MaxInt32 Hv) as [H3 _].
  destruct (Spec.spec_remove s q b e) as [s1 [er|]]; destruct (Spec.spec_remove s' q b e) as [s1' [er'|]]; simpl in *; try discriminate; auto.
Qed.

Lemma fold_max_perm : forall l l' a, Permutation l l' -> fold_right Z.max a l = fold_right Z.max a l'.
Proof. intros l l' a H. induction H; simpl; auto; try lia. Qed.

Lemma spec_can_resume_perm : forall s s' q p, seqv s s' -> Spec.spec_can_resume s q p = Spec.spec_can_resume s' q p.
Proof.
  intros s s' q p [HP [Hw [Hc Hs]]]. unfold Spec.spec_can_resume. rewrite <- Hw. destruct (Spec.s_window s) as [w|]; auto.
  assert (HL : Spec.last_pos s q = Spec.last_pos s' q).
  { unfold Spec.last_pos. apply fold_max_perm, Permutation_map, Permutation_filter'. assumption. }
  assert (HC : forall lo hi, Spec.count_pos s q lo hi = Spec.count_pos s' q lo hi).
  { intros. unfold Spec.count_pos. f_equal. apply Permutation_length, Permutation_filter'. assumption. }
  rewrite HL, HC. reflexivity.
Qed.

Lemma visible_raw_perm : forall s s' q p, seqv s s' -> Permutation (Spec.visible_raw s q p) (Spec.visible_raw s' q p).
Proof.
  intros s s' q p [HP [Hw _]]. unfold Spec.visible_raw. rewrite <- Hw. apply Permutation_map, Permutation_filter'. assumption.
Qed.

Definition op_ok (o : op) : Prop :=
  match o with
  | Forward batch => valid_batch batch
  | Remove _ b e => 0 <= b <= e
  | _ => True
  end.

Definition to_sop (o : op) : Spec.sop :=
  match o with
  | Forward batch => Spec.SForward batch
  | Copy s d len => Spec.SCopy s d len
  | Remove q b e => Spec.SRemove q b e
  | CanResume q p => Spec.SCanResume q p
  end.

Definition out_agree (o : out) (so : Spec.sout) : Prop :=
  match o, so with
  | OFwd _, Spec.OErr None => True
  | OErr er, Spec.OErr (Some ser) => err_match er ser
  | OOk, Spec.OErr None => True
  | OOk, Spec.OUnit => True
  | OBool b, Spec.OBool b' => b = b'
  | _, _ => False
  end.

Lemma R_seqv : forall c s, R c s <-> seqv (abs c) s.
Proof. intros. unfold R, seqv, abs. simpl. split; intros [A [B [C D]]]; repeat split; auto. Qed.

Lemma seqv_trans : forall a b c, seqv a b -> seqv b c -> seqv a c.
Proof.
  intros a b c [P1 [W1 [C1 S1]]] [P2 [W2 [C2 S2]]]. unfold seqv. repeat split; try congruence.
  eapply Permutation_trans; eauto.
Qed.

Lemma R_trans : forall c a b, R c a -> seqv a b -> R c b.
Proof. intros c a b H1 H2. apply R_seqv. eapply seqv_trans; [apply R_seqv; exact H1|exact H2]. Qed.

Lemma clear_half_removed : forall c c' s q, Inv c -> R c s -> half_removed c c' q ->
  snd (remove c' q 0 MaxInt32) = OOk /\ Inv (fst (remove c' q 0 MaxInt32)) /\ R (fst (remove c' q 0 MaxInt32)) (fst (Spec.spec_remove s q 0 MaxInt32)).
Proof.
  intros c c' s q HI HR Hh. destruct (clear_correct c c' q HI Hh) as [c2 [Hc2 [HI2 Ha]]]. rewrite Hc2.
  split; [reflexivity|]. split; [exact HI2|]. apply R_seqv. simpl. rewrite Ha. apply spec_remove_perm, R_seqv, HR.
Qed.

(** one Remove, by its outcome: it succeeds where the specification does, and where it gives up the clean-up repairs it *)
Lemma remove_refines : forall c s q b e, Inv c -> R c s -> 0 <= b <= e ->
  match snd (remove c q b e), snd (Spec.spec_remove s q b e) with
  | OOk, None => Inv (fst (remove c q b e)) /\ R (fst (remove c q b e)) (fst (Spec.spec_remove s q b e))
  | OErr er, Some ser =>
      err_match er ser /\ snd (remove (fst (remove c q b e)) q 0 MaxInt32) = OOk /\
      Inv (fst (remove (fst (remove c q b e)) q 0 MaxInt32)) /\ R (fst (remove (fst (remove c q b e)) q 0 MaxInt32)) (fst (Spec.spec_remove s q 0 MaxInt32))
  | _, _ => False
  end.
Proof.
  intros c s q b e HI HR Hbe. destruct (spec_remove_perm (abs c) s q b e (proj1 (R_seqv c s) HR)) as [Hv Ho]. rewrite <- Ho.
  destruct (remove c q b e) as [c' r] eqn:E.
  destruct (remove_out_shape c q b e) as [Hsh|[er Hsh]]; rewrite E in Hsh; simpl in Hsh |- *; subst r.
  - destruct (remove_ok c q b e c' HI Hbe E) as [HI' Hs]. rewrite Hs in Hv |- *. split; [exact HI'|apply R_seqv; exact Hv].
  - destruct (remove_err c q b e c' er HI Hbe E) as [[ser [Hs Hm]] Hh]. rewrite Hs. simpl.
    split; [exact Hm|exact (clear_half_removed c c' s q HI HR Hh)].
Qed.

(** StartForward + Put against any related specification state; the rows behind the mask are the specification's visible history *)
Theorem forward_refines : forall c s batch, Inv c -> R c s -> valid_batch batch ->
  let r := start_forward true c batch in let sr := Spec.spec_forward s batch in
  Inv (fst r) /\ R (fst r) (fst sr) /\
  ((snd r = OErr EFull /\ snd sr = Some Spec.EFull) \/
   (exists f, snd r = OFwd f /\ snd sr = None /\
      forall i e, nth_error batch i = Some e -> exists vis, nth_error (f_vis f) i = Some vis /\
        Permutation (map (kt (phys (fst r))) vis) (Spec.visible_raw (fst sr) (e_seq e) (e_pos e)))).
Proof.
  intros c s batch HI HR Hvb. cbv zeta. destruct (forward_correct c batch HI Hvb) as [HI' [HR' Hout]].
  destruct (spec_forward_perm (abs c) s batch (proj1 (R_seqv c s) HR)) as [Hv Ho]. rewrite <- Ho.
  pose proof (R_trans _ _ _ HR' Hv) as HR''.
  split; [exact HI'|]. split; [exact HR''|]. destruct Hout as [H|[f [H1 [H2 H3]]]]; [left; exact H|right].
  exists f. split; [exact H1|]. split; [exact H2|]. intros i e He. destruct (H3 i e He) as [vis [A B]]. exists vis. split; [exact A|].
  rewrite B. apply visible_raw_perm, R_seqv, HR''.
Qed.

Theorem step_refines : forall c s o, Inv c -> R c s -> op_ok o ->
  Inv (fst (pstep c o)) /\ R (fst (pstep c o)) (fst (Spec.spec_pstep s (to_sop o))) /\
  out_agree (snd (pstep c o)) (snd (Spec.spec_pstep s (to_sop o))).
Proof.
  intros c s o HI HR Hok. destruct o as [batch|src dst len|q b e|q p]; simpl in *.
  - destruct (forward_refines c s batch HI HR Hok) as [A [B C]].
    destruct (Spec.spec_forward s batch) as [s' so]. simpl in *. split; [exact A|]. split; [exact B|].
    destruct C as [[-> ->]|[f [-> [-> _]]]]; simpl; auto.
  - destruct (copy_prefix_correct c src dst len HI) as [HI' Ha]. split; [exact HI'|]. split; [|exact I].
    apply R_seqv. rewrite Ha. apply spec_copy_perm, R_seqv, HR.
  - (* Remove, cleared on failure *)
    unfold remove_c, Spec.spec_remove_c. pose proof (remove_refines c s q b e HI HR Hok) as P.
    destruct (remove c q b e) as [c' r]. destruct (Spec.spec_remove s q b e) as [s' so]. simpl in P.
    destruct r as [|er| | |]; try contradiction; destruct so as [ser|]; try contradiction; simpl.
    + destruct P as [Hm [_ [A B]]]. auto.
    + destruct P as [A B]. auto.
  - split; [exact HI|]. split; [exact HR|].
    rewrite (can_resume_correct c q p HI). apply spec_can_resume_perm, R_seqv, HR.
Qed.

Theorem prun_refines : forall ops c s, Inv c -> R c s -> Forall op_ok ops ->
  Inv (prun c ops) /\ R (prun c ops) (Spec.spec_prun s (map to_sop ops)).
Proof.
  induction ops as [|o t IH]; intros c s HI HR Hok; simpl; auto.
  inversion Hok as [|? ? Ho Ht]; subst.
  destruct (step_refines c s o HI HR Ho) as [HI' [HR' _]]. apply IH; assumption.
Qed.

Lemma live_pairs_init : forall n, live_pairs (repeat empty_cell n) (repeat None n) = [].
Proof. induction n; simpl; auto. Qed.

Lemma cell_at_repeat : forall n i, cell_at (repeat empty_cell n) i = empty_cell.
Proof.
  intros n i. unfold cell_at. destruct (Nat.lt_ge_cases i n).
  - apply nth_repeat.
  - apply nth_overflow. rewrite repeat_length. assumption.
Qed.

Theorem init_inv : forall w ms cap mb cp bp sh,
  Z.of_nat (cache_size w ms cap mb (norm_pad cp)) < MaxInt ->
  Inv (init w ms cap mb cp bp sh) /\
  R (init w ms cap mb cp bp sh) (Spec.spec_init (cache_size w ms cap mb (norm_pad cp)) w sh).
Proof.
  intros w ms cap mb cp bp sh Hsz. unfold init. split.
  - constructor; simpl.
    + rewrite !repeat_length. reflexivity.
    + rewrite repeat_length. exact Hsz.
    + rewrite live_pairs_init. constructor.
    + intros i q _ Hq. rewrite cell_at_repeat in Hq. discriminate.
    + unfold norm_pad. destruct cp; lia.
    + intros q r Hr. discriminate.
  - unfold R, abs_cells. simpl. rewrite live_pairs_init, repeat_length. simpl. auto.
Qed.

(** C08 — proofs about histories of cache operations (Blob/Model.v [step]/[run]): the case-insensitive lookup
    [manifest_path]; copyNamedFile as a run of a single writer; the invariant of the blob store; Put/Link/Resolve. *)
From Coq Require Import List NArith Bool Arith Lia.
From V Require Import Common.Bytes Blob.Model Blob.Proofs.
Import ListNotations.

Lemma path_eqb_spec p q : path_eqb p q = true <-> p = q.
Proof.
  revert q. induction p as [|a p IH]; intros [|b q]; cbn; split; intro Hx; try congruence; try reflexivity.
  - apply andb_true_iff in Hx as [H1 H2]. apply eqb_str_spec in H1. apply IH in H2. congruence.
  - inversion Hx; subst. apply andb_true_iff. split; [apply eqb_str_spec; reflexivity | apply IH; reflexivity].
Qed.

Lemma path_eqb_refl p : path_eqb p p = true.
Proof. apply path_eqb_spec. reflexivity. Qed.

Lemma fold_eq_spec p q : fold_eq p q = true <-> map (map lower) p = map (map lower) q.
Proof.
  revert q. induction p as [|a p IH]; intros [|b q]; cbn; split; intro Hx; try congruence; try reflexivity.
  - apply andb_true_iff in Hx as [H1 H2]. unfold fold_eq_str in H1. apply eqb_str_spec in H1. apply IH in H2. congruence.
  - inversion Hx as [[H1 H2]]. apply andb_true_iff. split; [unfold fold_eq_str; apply eqb_str_spec; exact H1 | apply IH; exact H2].
Qed.

Lemma fold_eq_refl p : fold_eq p p = true.
Proof. apply fold_eq_spec. reflexivity. Qed.

Lemma fold_eq_cong p p' q : fold_eq p' p = true -> fold_eq q p' = fold_eq q p.
Proof.
  intros Hpp. apply fold_eq_spec in Hpp.
  destruct (fold_eq q p') eqn:E1, (fold_eq q p) eqn:E2; try reflexivity.
  - apply fold_eq_spec in E1. assert (fold_eq q p = true) by (apply fold_eq_spec; congruence). congruence.
  - apply fold_eq_spec in E2. assert (fold_eq q p' = true) by (apply fold_eq_spec; congruence). congruence.
Qed.

Lemma mp_aux_cong ls p p' : fold_eq p' p = true ->
  forall best, manifest_path_aux ls p' best = manifest_path_aux ls p best.
Proof.
  intros Hpp. induction ls as [|[q f] ls IH]; intros best; cbn; [reflexivity|].
  rewrite (fold_eq_cong p p' q Hpp). apply IH.
Qed.

Lemma mp_aux_best_some ls p : forall b, exists q, manifest_path_aux ls p (Some b) = Some q.
Proof.
  induction ls as [|[q f] ls IH]; intros b; cbn; [eauto|].
  destruct (fold_eq q p); [|apply IH]. destruct (path_ltb q b); apply IH.
Qed.

Lemma mp_aux_none ls p : manifest_path_aux ls p None = None -> forall q f, In (q, f) ls -> fold_eq q p = false.
Proof.
  induction ls as [|[q0 f0] ls IH]; cbn; intros Hn q f Hin; [contradiction|].
  destruct (fold_eq q0 p) eqn:E.
  - destruct (mp_aux_best_some ls p q0) as [x Hx]. congruence.
  - destruct Hin as [Heq | Hin]; [inversion Heq; subst; exact E | eapply IH; eauto].
Qed.

Lemma link_get_in ls k : link_get ls k <> None <-> exists f, In (k, f) ls.
Proof.
  induction ls as [|[q f] ls IH]; cbn.
  - split; [congruence | intros [f []]].
  - destruct (path_eqb q k) eqn:E.
    + apply path_eqb_spec in E. subst q. split; [intros _; eauto | congruence].
    + rewrite IH. split.
      * intros [f' Hf']. eauto.
      * intros [f' [Heq | Hin]]; [inversion Heq; subst; rewrite path_eqb_refl in E; discriminate | eauto].
Qed.

Lemma mp_aux_in ls p : forall best q,
  manifest_path_aux ls p best = Some q -> best = Some q \/ (exists f, In (q, f) ls).
Proof.
  induction ls as [|[q0 f0] ls IH]; cbn; intros best q Hq; [left; exact Hq|].
  destruct (fold_eq q0 p).
  - destruct best as [b|].
    + destruct (path_ltb q0 b).
      * apply IH in Hq as [Hq | [f Hf]]; [inversion Hq; subst; right; eauto | right; eauto].
      * apply IH in Hq as [Hq | [f Hf]]; [left; exact Hq | right; eauto].
    + apply IH in Hq as [Hq | [f Hf]]; [inversion Hq; subst; right; eauto | right; eauto].
  - apply IH in Hq as [Hq | [f Hf]]; [left; exact Hq | right; eauto].
Qed.

Lemma mp_aux_put_same ls k f p : link_get ls k <> None ->
  forall best, manifest_path_aux (link_put ls k f) p best = manifest_path_aux ls p best.
Proof.
  induction ls as [|[q f0] ls IH]; cbn; intros Hk best; [congruence|].
  destruct (path_eqb q k) eqn:E; cbn; [reflexivity|]. rewrite IH by exact Hk. reflexivity.
Qed.

Lemma link_put_new ls k f : link_get ls k = None -> link_put ls k f = ls ++ [(k, f)].
Proof.
  induction ls as [|[q f0] ls IH]; cbn; intros Hk; [reflexivity|].
  destruct (path_eqb q k); [discriminate|]. rewrite IH by exact Hk. reflexivity.
Qed.

Lemma mp_aux_app ls ls' p : forall best,
  manifest_path_aux (ls ++ ls') p best = manifest_path_aux ls' p (manifest_path_aux ls p best).
Proof.
  induction ls as [|[q f] ls IH]; intros best; cbn; [reflexivity|]. apply IH.
Qed.

Lemma link_get_put_same ls k f : link_get (link_put ls k f) k = Some f.
Proof.
  induction ls as [|[q f0] ls IH]; cbn.
  - rewrite path_eqb_refl. reflexivity.
  - destruct (path_eqb q k) eqn:E; cbn; rewrite E; [reflexivity | exact IH].
Qed.

(** after writing the manifest file found by [manifest_path], every case variant of the name finds that file *)
Lemma manifest_path_after_put ls p p' f :
  fold_eq p' p = true ->
  manifest_path (link_put ls (manifest_path ls p) f) p' = manifest_path ls p.
Proof.
  intros Hpp. unfold manifest_path at 1. rewrite (mp_aux_cong _ p p' Hpp).
  unfold manifest_path. destruct (manifest_path_aux ls p None) as [q|] eqn:E.
  - destruct (mp_aux_in ls p None q E) as [Hx | [f0 Hin]]; [discriminate|].
    rewrite mp_aux_put_same by (apply link_get_in; eauto). rewrite E. reflexivity.
  - assert (Hnk : link_get ls p = None).
    { destruct (link_get ls p) eqn:G; [|reflexivity].
      assert (Hk : link_get ls p <> None) by congruence. apply link_get_in in Hk as [f0 Hin].
      pose proof (mp_aux_none ls p E p f0 Hin) as Hf. rewrite fold_eq_refl in Hf. discriminate. }
    rewrite link_put_new by exact Hnk. rewrite mp_aux_app, E. cbn. rewrite fold_eq_refl. reflexivity.
Qed.

Section Hist.
  Variable D : Type.
  Variable deq : D -> D -> bool.
  Variable H : list N -> D.
  Hypothesis deq_spec : forall a b, deq a b = true <-> a = b.

  Notation writer := (writer D).
  Notation w_step := (w_step D deq H).
  Notation w_exec := (w_exec D deq H).
  Notation copy_named_file := (copy_named_file D deq H).
  Notation Inv := (Inv D H).

  (** what a bytes.Reader over [data] delivers: one read, nothing when empty *)
  Local Notation bytes_src data :=
    (match data return list (list N * rstat) with [] => [] | _ :: _ => [(data, RMore)] end).

  Lemma deq_refl d : deq d d = true.
  Proof. apply deq_spec. reflexivity. Qed.

  Lemma w_steps_exec k : forall w fo, w_steps D deq H k w fo = w_exec (repeat AStep k) w fo.
  Proof.
    unfold Proofs.w_exec. induction k as [|k IH]; intros w fo; cbn; [reflexivity|].
    destruct (w_step AStep w fo) as [fo' w']. apply IH.
  Qed.

  Lemma w_run_exec fuel : forall w fo, exists k, w_run D deq H fuel w fo = w_exec (repeat AStep k) w fo.
  Proof.
    induction fuel as [|fuel IH]; intros w fo; cbn; [exists 0; reflexivity|].
    destruct (w_stage w); try (exists 0; reflexivity);
      destruct (w_step AStep w fo) as [fo' w'] eqn:E; destruct (IH w' fo') as [k Hk];
      exists (S k); unfold Proofs.w_exec in *; cbn; rewrite E; exact Hk.
  Qed.

  Lemma w_exec_app a b w fo :
    w_exec (a ++ b) w fo = w_exec b (snd (w_exec a w fo)) (fst (w_exec a w fo)).
  Proof.
    unfold Proofs.w_exec. rewrite fold_left_app. destruct (fold_left _ a (fo, w)); reflexivity.
  Qed.

  Lemma copy_named_file_exec fo d size src cr :
    exists acts,
      fst (copy_named_file fo d size src cr) = fst (w_exec acts (new_writer D d size src) fo) /\
      (forall r, snd (copy_named_file fo d size src cr) = WDone r ->
                 w_stage (snd (w_exec acts (new_writer D d size src) fo)) = WDone r).
  Proof.
    unfold Model.copy_named_file. destruct cr as [[k part]|].
    - (* a writer that has returned ignores further steps, so the step of the crash point can always be appended *)
      exists (repeat AStep k ++ match part with Some j => [APartial j] | None => [] end).
      rewrite w_exec_app, <- w_steps_exec. destruct (w_steps D deq H k (new_writer D d size src) fo) as [fo1 w1].
      unfold Proofs.w_exec. cbn [fst snd].
      assert (Hdone : forall r j, w_stage w1 = WDone r -> w_step (APartial j) w1 fo1 = (fo1, w1))
        by (intros r j E; unfold Model.w_step; rewrite E; reflexivity).
      destruct (w_stage w1) eqn:Hst, part as [j|]; cbn [fold_left fst snd];
        try rewrite (Hdone _ j eq_refl); try destruct (w_step _ w1 fo1);
        (split; [reflexivity | cbn; congruence]).
    - destruct (w_run_exec (length src + 2) (new_writer D d size src) fo) as [k ->].
      exists (repeat AStep k). destruct (w_exec (repeat AStep k) (new_writer D d size src) fo). auto.
  Qed.

  Theorem copy_named_file_inv fo d size src cr :
    Inv d size fo -> Inv d size (fst (copy_named_file fo d size src cr)).
  Proof.
    intros HI. destruct (copy_named_file_exec fo d size src cr) as (acts & -> & _).
    apply single_writer_inv; assumption.
  Qed.

  Theorem copy_named_file_ok fo d size src cr :
    Inv d size fo -> snd (copy_named_file fo d size src cr) = WDone ROk -> 0 < size ->
    exists f, fst (copy_named_file fo d size src cr) = Some f /\ length f = size /\ H f = d.
  Proof.
    intros HI Hok Hpos. destruct (copy_named_file_exec fo d size src cr) as (acts & -> & Hst).
    apply (single_writer D deq H deq_spec d size src fo acts HI); [apply Hst, Hok | exact Hpos].
  Qed.

  Lemma blob_get_put bs d f d' :
    blob_get D deq (blob_put D deq bs d f) d' = if deq d d' then Some f else blob_get D deq bs d'.
  Proof.
    induction bs as [|[k v] bs IH]; cbn.
    - reflexivity.
    - destruct (deq k d) eqn:Ekd.
      + apply deq_spec in Ekd. subst k. cbn. destruct (deq d d'); reflexivity.
      + cbn. destruct (deq k d') eqn:Ekd'.
        * apply deq_spec in Ekd'. subst k.
          destruct (deq d d') eqn:E; [|reflexivity].
          apply deq_spec in E. subst d'. rewrite deq_refl in Ekd. discriminate.
        * exact IH.
  Qed.

  Lemma blob_get_set bs d fo d' :
    blob_get D deq (blob_set D deq bs d fo) d' =
      match fo with Some f => if deq d d' then Some f else blob_get D deq bs d' | None => blob_get D deq bs d' end.
  Proof. destruct fo; [apply blob_get_put | reflexivity]. Qed.

  (** PutBytes(c, H data, data): after Stat/OpenFile ([one_read_start]) nothing is left to do, or one read delivers
      everything and the next finds the end ([one_read_copy]) *)
  Lemma one_read_copy f' b t :
    let data := b :: t in
    length f' < length data ->
    w_run D deq H 2 (mkW (H data) (length data) 0 [] [(data, RMore)] WCopy) (Some f')
    = (Some data, mkW (H data) (length data) (length data) data [] (WDone ROk)).
  Proof.
    intros data Hl.
    assert (Hc : cw_check D deq H (mkW (H data) (length data) 0 [] [(data, RMore)] WCopy) data = None).
    { unfold cw_check. cbn [w_n w_size w_acc w_d app Nat.add]. rewrite Nat.eqb_refl, deq_refl. reflexivity. }
    assert (Hw : write_at f' 0 data = data).
    { rewrite write_at_inside by lia. cbn [firstn app Nat.add]. rewrite skipn_all2 by lia. apply app_nil_r. }
    unfold w_run. cbn [w_stage]. unfold Model.w_step at 1. cbn [w_stage file_of]. rewrite w_read_eq. cbn [w_src].
    unfold data at 1. fold data. rewrite Hc. cbn [w_after w_at w_d w_size w_n w_acc w_stage Nat.add app]. rewrite Hw.
    unfold Model.w_step. cbn [w_stage file_of]. rewrite w_read_eq. cbn [w_src]. unfold w_eof. cbn [w_n w_size].
    rewrite Nat.ltb_irrefl. reflexivity.
  Qed.

  Lemma one_read_start fo b t :
    let data := b :: t in
    let w0 := new_writer D (H data) (length data) [(data, RMore)] in
    w_start D w0 fo = (fo, set_stage D w0 (WDone ROk)) \/
    exists f', w_start D w0 fo = (Some f', set_stage D w0 WCopy) /\ length f' < length data.
  Proof.
    intros data w0. unfold w_start. cbn [w_size w0 new_writer].
    change (length data =? 0) with false.
    destruct fo as [f|]; [|right; exists []; split; [reflexivity | cbn; lia]].
    destruct (Nat.eqb_spec (length f) (length data)) as [E|E]; [left; reflexivity | right].
    destruct (Nat.ltb_spec (length data) (length f)).
    - exists []. split; [reflexivity | cbn; lia].
    - exists f. split; [reflexivity | lia].
  Qed.

  Lemma put_bytes_run fo data :
    exists fo',
      copy_named_file fo (H data) (length data) (bytes_src data) None
      = (fo', WDone ROk) /\ (fo' = fo \/ fo' = Some data).
  Proof.
    unfold Model.copy_named_file. destruct data as [|b t].
    - cbn. unfold Model.w_step, w_start, new_writer, set_stage; cbn.
      destruct fo as [[|x f]|]; cbn; eauto.
    - set (data := b :: t).
      (* the first of the three steps is w_start, the other two are one_read_copy *)
      change (w_run D deq H (length [(data, RMore)] + 2) (new_writer D (H data) (length data) [(data, RMore)]) fo)
        with (let '(fo', w') := w_start D (new_writer D (H data) (length data) [(data, RMore)]) fo in w_run D deq H 2 w' fo').
      destruct (one_read_start fo b t) as [Hs | (f' & Hs & Hl)]; fold data in Hs; rewrite Hs.
      + cbn. eauto.
      + unfold set_stage, new_writer. cbn [w_d w_size w_n w_acc w_src].
        pose proof (one_read_copy f' b t Hl) as Hc. fold data in Hc. rewrite Hc. cbn. eauto.
  Qed.

  Variable bufsz : nat.
  Variable fixed : bool.
  Notation step := (step D deq H bufsz fixed).
  Notation run := (run D deq H bufsz fixed).
  Notation cache := (cache D).

  (** [sz d] = the size blob d is stored under *)
  Variable sz : D -> nat.

  Definition BInv (c : cache) : Prop :=
    forall d f, blob_get D deq (blobs c) d = Some f -> length f = sz d -> 0 < sz d -> H f = d.

  Definition op_wf (o : op D) : Prop :=
    match o with
    | OPut d size _ _ => size = sz d
    | _ => True
    end.

  Lemma BInv_set c d fo ls :
    BInv c -> Inv d (sz d) fo -> BInv (mkC (blob_set D deq (blobs c) d fo) ls).
  Proof.
    intros HB HI. destruct fo as [f|]; [|exact HB].
    intros d' f' Hg Hl Hpos. cbn in Hg. rewrite blob_get_put in Hg. destruct (deq d d') eqn:E.
    - apply deq_spec in E. subst d'. inversion Hg; subst f'. apply HI; auto.
    - apply (HB d' f'); assumption.
  Qed.

  Lemma BInv_put_bytes c data ls :
    BInv c ->
    BInv (mkC (blob_set D deq (blobs c) (H data)
                 (fst (copy_named_file (blob_get D deq (blobs c) (H data)) (H data) (length data)
                         (bytes_src data) None))) ls).
  Proof.
    intros HB. destruct (put_bytes_run (blob_get D deq (blobs c) (H data)) data) as (fo' & -> & Hfo).
    apply BInv_set; [exact HB|]. intros f Hf Hl Hpos.
    destruct Hfo as [-> | ->]; [apply (HB _ f Hf Hl Hpos) | inversion Hf; reflexivity].
  Qed.

  Theorem step_BInv c o : BInv c -> op_wf o -> BInv (fst (step c o)).
  Proof.
    intros HB Hwf. destruct o as [d size src cr | src size | d | np d | np | np | od | p data];
      unfold Model.step; cbv beta iota.
    - cbn in Hwf. subst size.
      pose proof (copy_named_file_inv _ d (sz d) src cr (HB d)) as HI.
      destruct (copy_named_file (blob_get D deq (blobs c) d) d (sz d) src cr) as [fo st].
      apply BInv_set; assumption.
    - destruct (src_all src) as [data ok]. destruct ok; cbn; [|exact HB].
      destruct (length data =? size); cbn; [|exact HB].
      apply (BInv_set c (H data) (Some data)); [exact HB|]. intros f Hf _ _. inversion Hf; reflexivity.
    - destruct (get D deq c d); exact HB.
    - destruct np as [p|]; [|exact HB]. unfold do_link.
      destruct (blob_get D deq (blobs c) d) as [bf|]; [|exact HB].
      destruct (Model.copy_named_file _ _ _ _ d (length bf) (file_reads bufsz bf) None) as [fo st]. exact HB.
    - destruct np as [p|]; [|exact HB].
      destruct (link_get (links c) (manifest_path (links c) p)); exact HB.
    - destruct np as [p|]; [|exact HB].
      destruct (link_get (links c) (manifest_path (links c) p)) as [data|]; [|exact HB].
      cbv zeta. pose proof (BInv_put_bytes c data (links c) HB) as HB'.
      destruct (copy_named_file (blob_get D deq (blobs c) (H data)) (H data) (length data) _ None) as [fo st].
      destruct st as [| |[|e]|]; exact HB'.
    - destruct od; exact HB.
    - exact HB.
  Qed.

  Theorem run_BInv ops : forall c, BInv c -> Forall op_wf ops -> BInv (run c ops).
  Proof.
    induction ops as [|o ops IH]; intros c HB Hwf; cbn; [exact HB|].
    inversion Hwf; subst. apply IH; [apply step_BInv; assumption | assumption].
  Qed.

  Lemma BInv_empty : BInv (empty_cache D).
  Proof. intros d f Hg. cbn in Hg. discriminate. Qed.

  Lemma BInv_get c d f :
    BInv c -> get D deq c d = Some (sz d) -> blob_get D deq (blobs c) d = Some f -> H f = d.
  Proof.
    intros HB Hg Hb. unfold get in Hg. rewrite Hb in Hg.
    destruct (Nat.eqb_spec (length f) 0) as [E0|E0]; [discriminate|]. inversion Hg. apply (HB d f Hb); lia.
  Qed.

  Theorem history_inv ops :
    Forall op_wf ops ->
    forall d n f,
      let c := run (empty_cache D) ops in
      get D deq c d = Some n -> n = sz d -> blob_get D deq (blobs c) d = Some f -> H f = d.
  Proof.
    intros Hwf d n f c Hg -> Hb. exact (BInv_get c d f (run_BInv ops _ BInv_empty Hwf) Hg Hb).
  Qed.

  Lemma out_of_stage_ok st : out_of_stage D st = OutOk -> st = WDone ROk.
  Proof. destruct st as [| |[|e]|]; cbn; congruence. Qed.

  Theorem put_then_get c d size src cr c' :
    BInv c -> size = sz d -> 0 < size ->
    step c (OPut d size src cr) = (c', OutOk) ->
    get D deq c' d = Some size /\
    exists f, blob_get D deq (blobs c') d = Some f /\ length f = size /\ H f = d.
  Proof.
    intros HB -> Hpos Hstep. unfold Model.step in Hstep.
    pose proof (copy_named_file_ok _ d (sz d) src cr (HB d)) as Hok.
    destruct (copy_named_file (blob_get D deq (blobs c) d) d (sz d) src cr) as [fo st].
    inversion Hstep as [[Hc Hout]]. apply out_of_stage_ok in Hout. subst st. cbn [fst snd] in Hok.
    destruct (Hok eq_refl Hpos) as (f & -> & Hl & Hh).
    unfold get. cbn. rewrite blob_get_put, deq_refl. split; [|eauto].
    destruct (Nat.eqb_spec (length f) 0); [lia | congruence].
  Qed.

  Theorem link_requires_blob c p d c' :
    step c (OLink (Some p) d) = (c', OutOk) ->
    exists bf, blob_get D deq (blobs c) d = Some bf.
  Proof.
    unfold Model.step, do_link. destruct (blob_get D deq (blobs c) d) as [bf|]; [eauto | discriminate].
  Qed.

  Theorem link_requires_present_partial (c : cache) p d c' :
    step c (OLink (Some p) d) = (c', OutOk) ->
    (forall bf, blob_get D deq (blobs c) d = Some bf -> 0 < length bf) ->
    get D deq c d <> None.
  Proof.
    intros Hstep Hne. destruct (link_requires_blob c p d c' Hstep) as [bf Hbf].
    unfold get. rewrite Hbf. specialize (Hne bf Hbf).
    destruct (Nat.eqb_spec (length bf) 0); [lia | discriminate].
  Qed.

  Theorem link_then_resolve c p p' d c' bf :
    fold_eq p' p = true ->
    blob_get D deq (blobs c) d = Some bf -> 0 < length bf ->
    Model.step D deq H bufsz true c (OLink (Some p) d) = (c', OutOk) ->
    snd (Model.step D deq H bufsz true c' (OResolve (Some p'))) = OutDigest d /\
    exists m, link_get (links c') (manifest_path (links c') p') = Some m /\ H m = d /\ length m = length bf.
  Proof.
    intros Hpp Hbf Hpos Hstep. unfold Model.step, do_link in Hstep. rewrite Hbf in Hstep.
    set (mp := manifest_path (links c) p) in *.
    set (cur := match link_get (links c) mp with
                | Some m => if (true && negb (deq (H (firstn (length bf + 1) m)) d))%bool then None else Some m
                | None => None end) in *.
    (* what the repaired Link leaves in place is a file whose first size+1 bytes hash to d *)
    assert (HI : Inv d (length bf) cur).
    { intros m Hm Hl _. unfold cur in Hm. destruct (link_get (links c) mp) as [m0|]; [|discriminate].
      cbn [andb] in Hm. destruct (deq (H (firstn (length bf + 1) m0)) d) eqn:Ed; cbn in Hm; [|discriminate].
      inversion Hm; subst m0. apply deq_spec in Ed. rewrite firstn_all2 in Ed by lia. exact Ed. }
    pose proof (copy_named_file_ok cur d (length bf) (file_reads bufsz bf) None HI) as Hok.
    destruct (copy_named_file cur d (length bf) (file_reads bufsz bf) None) as [fo st].
    inversion Hstep as [[Hc Hout]]. apply out_of_stage_ok in Hout. subst st. cbn [fst snd] in Hok.
    destruct (Hok eq_refl Hpos) as (f & -> & Hl & Hh).
    assert (Hmp : manifest_path (link_put (links c) mp f) p' = mp) by (apply manifest_path_after_put; exact Hpp).
    cbn [link_set links blobs]. rewrite Hmp, link_get_put_same.
    split; [|eauto].
    unfold Model.step. cbn [links blobs]. rewrite Hmp, link_get_put_same. cbv zeta.
    destruct (put_bytes_run (blob_get D deq (blobs c) (H f)) f) as (fo' & -> & _). rewrite Hh. reflexivity.
  Qed.

End Hist.

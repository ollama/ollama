(** C09 — "registry client: success means every layer verified; manifest committed last": exported theorems.
    Reading of every statement: notes/C09.md.  Model: Blob/Pull.v (tied to the code by props/c09.py).

    The registry is universally quantified: [a : attempt D] carries an arbitrary manifest response, for every layer an
    arbitrary chunk plan (any items, any order, cut short or not) and for every request an arbitrary response (error
    status, or body pieces that may be short, long, corrupted, followed by a read error), plus an arbitrary completion
    order of the downloads.  [pull_seq] runs any list of earlier attempts.  The third argument [true] of
    [pull_attempt] selects Chunker/Pull as repaired by fixes/C09-chunked-commit.patch. *)
From Coq Require Import List NArith Bool Arith Lia.
From V Require Import Common.Bytes Blob.Model Blob.Proofs Blob.ProofsHist Blob.Corr Blob.Pull Blob.PullProofs Blob.PullCorr Blob.PullWitness.
Import ListNotations.

(** ** success => every layer is in the cache with the manifest's size and digest, after any earlier attempts *)
Theorem C09_pull_success_layers_intact :
  forall (D : Type) (deq : D -> D -> bool) (H : list N -> D),
    (forall a b, deq a b = true <-> a = b) ->
    forall (mkey : D -> D -> nat -> nat -> list N) (bufsz : nat) (fixed_link : bool) (sz : D -> nat)
           (thr : nat) (np : path) (c0 : pcache D) (earlier : list (attempt D)) (a : attempt D)
           (ls : list (layer D)) (data : list N),
      LInv D deq H sz (p_blobs c0) ->
      a_manifest a = MOk ls data ->
      let c := pull_seq D deq H mkey bufsz fixed_link thr np c0 earlier in
      snd (fst (pull_attempt D deq H mkey bufsz true fixed_link thr np c a)) = POk ->
      (forall l, In l ls -> l_size l = sz (l_d l)) ->
      (forall l, In l ls -> H data <> l_d l) ->
      (forall l ld cd s n, In l ls -> H (mkey ld cd s n) <> l_d l) ->
      forall l, In l ls -> 0 < l_size l ->
        Good D deq H l (p_blobs (fst (fst (pull_attempt D deq H mkey bufsz true fixed_link thr np c a)))).
Proof.
  intros D deq H Hs mkey bufsz fl sz thr np c0 earlier a ls data HL Hm c Hok Hsz Hsep1 Hsep2 l Hin Hpos.
  apply (attempt_success D deq H Hs mkey bufsz fl sz thr np c a ls data Hm Hok); auto.
  apply pull_seq_LInv; assumption.
Qed.
Print Assumptions C09_pull_success_layers_intact.

(** the invariant the theorem starts from is re-established by every attempt, successful or not *)
Theorem C09_attempt_preserves_store_invariant :
  forall (D : Type) (deq : D -> D -> bool) (H : list N -> D),
    (forall a b, deq a b = true <-> a = b) ->
    forall mkey bufsz fixed_link (sz : D -> nat) thr np (c : pcache D) (a : attempt D),
      LInv D deq H sz (p_blobs c) ->
      LInv D deq H sz (p_blobs (fst (fst (pull_attempt D deq H mkey bufsz true fixed_link thr np c a)))).
Proof. exact attempt_LInv. Qed.
Print Assumptions C09_attempt_preserves_store_invariant.

(** non-vacuity: the repaired model on the witness environment of the defect (attempt 1 fails after the chunk holding
    the last byte arrived; attempt 2 succeeds after fetching exactly the missing chunk) *)
Example C09_pull_success_ex :
  LInv Dg eqb_str Hid (@length N) (p_blobs w_empty) /\
  snd (fst (cpull_attempt true true 4 w_np (w_after1 true) (w_att (CBody [[97;98;99]%N] None)))) = POk /\
  snd (cpull_attempt true true 4 w_np (w_after1 true) (w_att (CBody [[97;98;99]%N] None))) = (1, 1).
Proof. destruct repaired_witness as (_ & H1 & H2 & _). split; [intros d f Hg; discriminate | split; assumption]. Qed.

(** ** a failed attempt never changes the links *)
Theorem C09_failed_pull_no_link :
  forall (D : Type) (deq : D -> D -> bool) (H : list N -> D),
    (forall a b, deq a b = true <-> a = b) ->
    forall mkey bufsz fixed_link thr np (c : pcache D) (a : attempt D) es,
    snd (fst (pull_attempt D deq H mkey bufsz true fixed_link thr np c a)) = PErr es ->
    p_links (fst (fst (pull_attempt D deq H mkey bufsz true fixed_link thr np c a))) = p_links c.
Proof. exact attempt_fail_links. Qed.
Print Assumptions C09_failed_pull_no_link.

(** ** the name is linked only by an attempt that succeeds (hence, by the first theorem, only together with intact layers) *)
Theorem C09_link_after_layers :
  forall (D : Type) (deq : D -> D -> bool) (H : list N -> D),
    (forall a b, deq a b = true <-> a = b) ->
    forall mkey bufsz fixed_link thr np (c : pcache D) (a : attempt D),
    p_links (fst (fst (pull_attempt D deq H mkey bufsz true fixed_link thr np c a))) <> p_links c ->
    snd (fst (pull_attempt D deq H mkey bufsz true fixed_link thr np c a)) = POk.
Proof.
  intros D deq H Hs mkey bufsz fl thr np c a Hne.
  destruct (snd (fst (pull_attempt D deq H mkey bufsz true fl thr np c a))) as [|es] eqn:E; [reflexivity|].
  destruct Hne. exact (attempt_fail_links D deq H Hs mkey bufsz fl thr np c a es E).
Qed.
Print Assumptions C09_link_after_layers.

(** ** the retry loop of handlePull: store invariant kept; links untouched unless an attempt succeeded *)
Theorem C09_retry_loop :
  forall (D : Type) (deq : D -> D -> bool) (H : list N -> D),
    (forall a b, deq a b = true <-> a = b) ->
    forall mkey bufsz fixed_link (sz : D -> nat) thr np (c : pcache D) (atts : list (attempt D * perr)),
      (LInv D deq H sz (p_blobs c) ->
       LInv D deq H sz (p_blobs (fst (pull_loop D deq H mkey bufsz true fixed_link thr np c atts)))) /\
      (Forall (fun r => r <> POk) (snd (pull_loop D deq H mkey bufsz true fixed_link thr np c atts)) ->
       p_links (fst (pull_loop D deq H mkey bufsz true fixed_link thr np c atts)) = p_links c).
Proof.
  intros D deq H Hs mkey bufsz fl sz thr np c atts.
  split; [apply pull_loop_LInv; exact Hs | apply pull_loop_links; exact Hs].
Qed.
Print Assumptions C09_retry_loop.

(** ** the code as found does not have the property: the witness the harness replays on the real client *)
Definition C09_unrepaired_full : Prop :=
  forall (c0 : cpcache) (earlier : list cattempt) (a : cattempt) ls data,
    a_manifest a = MOk ls data ->
    let c := fold_left (fun c a => fst (fst (cpull_attempt false true 4 w_np c a))) earlier c0 in
    snd (fst (cpull_attempt false true 4 w_np c a)) = POk ->
    forall l, In l ls -> 0 < l_size l ->
      Good Dg eqb_str Hid l (p_blobs (fst (fst (cpull_attempt false true 4 w_np c a)))).

Theorem C09_unrepaired_refuted : ~ C09_unrepaired_full.
Proof.
  intros F. destruct unrepaired_witness as (_ & _ & Hok & Hblob & _).
  specialize (F w_empty [w_att (CStatus PTemp)] (w_att (CBody [[97;98;99]%N] None)) [w_layer] [123;125]%N eq_refl).
  cbv zeta in F. change (fold_left _ [w_att (CStatus PTemp)] w_empty) with (w_after1 false) in F.
  specialize (F Hok w_layer (or_introl eq_refl) ltac:(cbn; lia)).
  destruct F as (f & Hg & Hl & Hh). change (l_d w_layer) with [97;98;99;100;101;102]%N in *.
  rewrite Hblob in Hg. inversion Hg; subst f. discriminate.
Qed.
Print Assumptions C09_unrepaired_refuted.

(** ** push: the manifest PUT exists only in traces where every layer upload was accepted, and it is the last event.
    [push_new]: Registry.Push (uploads in an errgroup, any completion order); [push_legacy]: server.PushModel. *)
Theorem C09_push_manifest_last :
  (forall results : list (nat * bool),
      In EvManifest (push_new results) ->
      forallb snd results = true /\
      exists pre, push_new results = pre ++ [EvManifest] /\ ~ In EvManifest pre /\
                  pre = map (fun '(i, ok) => EvBlob i ok) results) /\
  (forall (results : list bool) (i : nat),
      In EvManifest (push_legacy i results) ->
      forallb (fun b => b) results = true /\
      exists pre, push_legacy i results = pre ++ [EvManifest] /\ ~ In EvManifest pre /\ length pre = length results).
Proof. split; [exact push_new_manifest_last | exact push_legacy_manifest_last]. Qed.
Print Assumptions C09_push_manifest_last.

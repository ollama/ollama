(** C08 — concurrent writers of one blob: honest writers preserve "right size => right content" under every
    interleaving (and every crash). *)
From Coq Require Import List NArith Bool Arith Lia.
From V Require Import Common.Bytes Blob.Model Blob.Proofs.
Import ListNotations.

(** the reader delivers exactly [rest] (any chunking, empty reads allowed, optional EOF flag on the last read) *)
Fixpoint src_honest (src : list rd) (rest : list N) : Prop :=
  match src with
  | [] => rest = []
  | (p, RMore) :: t => exists r', rest = p ++ r' /\ src_honest t r'
  | (p, REof) :: _ => rest = p
  | (p, RErr) :: _ => False
  end.

Lemma src_honest_cons p st t rest :
  src_honest ((p, st) :: t) rest ->
  exists r, rest = p ++ r /\ match st with RMore => src_honest t r | REof => r = [] | RErr => False end.
Proof.
  destruct st; cbn; [intros (r & -> & Hr); eauto | intros ->; exists []; rewrite app_nil_r; auto | intros []].
Qed.

Lemma nth_error_firstn' {A} (l : list A) n i : i < n -> nth_error (firstn n l) i = nth_error l i.
Proof.
  revert n i. induction l as [|x l IH]; intros n i Hi.
  - rewrite firstn_nil. reflexivity.
  - destruct n; [lia|]. destruct i; cbn; [reflexivity|]. apply IH. lia.
Qed.

Lemma nth_error_skipn' {A} (l : list A) n i : nth_error (skipn n l) i = nth_error l (n + i).
Proof.
  revert l. induction n as [|n IH]; intros l; cbn; [reflexivity|].
  destruct l; cbn; [destruct i; reflexivity|]. apply IH.
Qed.

Lemma nth_error_write_at (f : list N) off p i :
  off <= length f ->
  nth_error (write_at f off p) i =
    if i <? off then nth_error f i
    else if i <? off + length p then nth_error p (i - off)
    else nth_error f i.
Proof.
  intros Hle. rewrite write_at_inside by exact Hle.
  destruct (Nat.ltb_spec i off) as [E1|E1].
  - rewrite nth_error_app1 by (rewrite firstn_length; lia). apply nth_error_firstn'. exact E1.
  - rewrite nth_error_app2 by (rewrite firstn_length; lia).
    rewrite firstn_length. replace (Nat.min off (length f)) with off by lia.
    destruct (Nat.ltb_spec i (off + length p)) as [E2|E2].
    + rewrite nth_error_app1 by lia. reflexivity.
    + rewrite nth_error_app2 by lia. rewrite nth_error_skipn'. f_equal. lia.
Qed.

Lemma list_eq_nth_error {A} (a b : list A) :
  length a = length b -> (forall i, i < length a -> nth_error a i = nth_error b i) -> a = b.
Proof.
  revert b. induction a as [|x a IH]; intros [|y b] Hl Hn; cbn in *; try discriminate; try reflexivity.
  f_equal.
  - specialize (Hn 0 ltac:(lia)). cbn in Hn. congruence.
  - apply IH; [lia|]. intros i Hi. apply (Hn (S i)). lia.
Qed.

Lemma Forall_upd_nth {A} (P : A -> Prop) i x (l : list A) :
  Forall P l -> P x -> Forall P (upd_nth i x l).
Proof.
  revert i. induction l as [|h t IH]; intros i Hl Hx; destruct i; cbn; try constructor;
    inversion Hl; subst; auto.
Qed.

Lemma Forall_nth_error {A} (P : A -> Prop) (l : list A) i x : Forall P l -> nth_error l i = Some x -> P x.
Proof. intros Hl Hn. rewrite Forall_forall in Hl. apply Hl. eapply nth_error_In; eauto. Qed.

(** a write cut short before its first byte *)
Lemma write_at_nil (f : list N) n : n <= length f -> write_at f n [] = f.
Proof.
  intros Hn. rewrite write_at_inside by exact Hn. cbn. rewrite Nat.add_0_r. apply firstn_skipn.
Qed.

Section Conc.
  Variable D : Type.
  Variable deq : D -> D -> bool.
  Variable H : list N -> D.
  Hypothesis deq_spec : forall a b, deq a b = true <-> a = b.

  Notation writer := (writer D).
  Notation w_step := (w_step D deq H).
  Notation cstep := (cstep D deq H).
  Notation crun := (crun D deq H).
  Notation w_at := (w_at D).
  Notation w_after := (w_after D).

  Variable c : list N.     (* the content every honest writer carries *)

  Definition agree (M : nat) (f : list N) : Prop := forall i, i < M -> nth_error f i = nth_error c i.

  (** the file is a consistent partial copy: it agrees with c up to the high-water mark M of the running writers
      (beyond it there may be what an earlier file held), and it has the full size only when it is c *)
  Definition FOK (f : list N) (M : nat) : Prop :=
    (length f < length c \/ f = c) /\ M <= length f /\ M <= length c /\ agree M f.

  Lemma honest_write (f a p r : list N) M :
    FOK f M -> c = a ++ p ++ r -> length a <= M ->
    FOK (write_at f (length a) p) (Nat.max M (length a + length p)).
  Proof.
    intros (Hfc & HMf & HMc & Hag) Hc HnM.
    set (f1 := write_at f (length a) p). set (M' := Nat.max M (length a + length p)).
    assert (Hlc : length c = length a + length p + length r) by (rewrite Hc, !app_length; lia).
    assert (Hlen1 : length f1 = Nat.max (length f) (length a + length p)) by (apply write_at_length; lia).
    (* f1 agrees with c wherever f does, and on the bytes written *)
    assert (Hnth : forall i, (i < M \/ f = c) \/ length a <= i < length a + length p ->
                             nth_error f1 i = nth_error c i).
    { intros i Hi. unfold f1. rewrite nth_error_write_at by lia.
      destruct (Nat.ltb_spec i (length a)); [|destruct (Nat.ltb_spec i (length a + length p))].
      - destruct Hi as [[Hi | ->] | Hi]; [apply Hag, Hi | reflexivity | lia].
      - rewrite Hc, nth_error_app2, nth_error_app1 by lia. reflexivity.
      - destruct Hi as [[Hi | ->] | Hi]; [apply Hag, Hi | reflexivity | lia]. }
    clearbody f1. clear Hag Hc. split; [|split; [unfold M'; lia|]; split; [unfold M'; lia|]].
    - destruct Hfc as [Hfl | Hfeq].
      + destruct (Nat.eq_dec (length a + length p) (length c)) as [He | Hne]; [right | left; lia].
        apply list_eq_nth_error; [lia|]. intros i Hi. apply Hnth. lia.
      + right. apply list_eq_nth_error; [rewrite Hfeq in *; lia|]. intros i _. apply Hnth. auto.
    - intros i Hi. apply Hnth. unfold M' in Hi. lia.
  Qed.

  (** a writer that is still running has hashed a prefix of c and its reader delivers the rest *)
  Definition HW (w : writer) : Prop :=
    w_d w = H c /\ w_size w = length c /\
    match w_stage w with
    | WNew | WCopy => exists rest, c = w_acc w ++ rest /\ length (w_acc w) = w_n w /\ src_honest (w_src w) rest
    | _ => True
    end.

  (** M is at least what any running writer has written, so that a write never starts beyond the part that agrees *)
  Definition bounded (M : nat) (w : writer) : Prop :=
    match w_stage w with WNew | WCopy => w_n w <= M | _ => True end.

  Definition step_ok (M : nat) (s : option (list N) * writer) : Prop :=
    HW (snd s) /\ exists M', M <= M' /\ FOK (file_of (fst s)) M' /\ bounded M' (snd s).

  Lemma stopped_ok M M' fo (w : writer) :
    w_d w = H c -> w_size w = length c -> (exists r, w_stage w = WDone r) \/ w_stage w = WDead ->
    M <= M' -> FOK (file_of fo) M' -> step_ok M (fo, w).
  Proof.
    intros Hd Hs Hst Hle HF. unfold step_ok, HW, bounded. cbn [fst snd].
    destruct Hst as [[r ->] | ->]; (split; [auto | exists M'; auto]).
  Qed.

  Definition hcopying (w : writer) (r : list N) : Prop :=
    w_stage w = WCopy /\ w_d w = H c /\ w_size w = length c /\ c = w_acc w ++ r /\ length (w_acc w) = w_n w.

  Lemma cw_honest (w : writer) p r : hcopying w (p ++ r) -> cw_check D deq H w p = None.
  Proof.
    intros (_ & Hd & Hs & Hc & Hlen). unfold cw_check. rewrite Hs, Hd.
    assert (Hl : length c = w_n w + length p + length r) by (rewrite Hc, !app_length; lia).
    destruct (Nat.eqb_spec (w_n w + length p) (length c)) as [E|E].
    - destruct r; [|cbn in Hl; lia]. rewrite app_nil_r in Hc. rewrite <- Hc.
      rewrite (proj2 (deq_spec _ _) eq_refl). reflexivity.
    - destruct (Nat.ltb_spec (length c) (w_n w + length p)); [lia | reflexivity].
  Qed.

  Lemma hcopying_write (w : writer) p r t :
    hcopying w (p ++ r) -> hcopying (w_at w (w_n w + length p) (w_acc w ++ p) t) r.
  Proof.
    intros (Hst & Hd & Hs & Hc & Hlen). unfold hcopying; cbn.
    rewrite <- app_assoc, app_length, Hlen. repeat split; assumption.
  Qed.

  Lemma honest_eof M M' (w : writer) f :
    hcopying w [] -> M <= M' -> FOK f M' -> step_ok M (w_eof D w f).
  Proof.
    intros (_ & Hd & Hs & Hc & Hlen) Hle HF. rewrite app_nil_r in Hc.
    unfold w_eof. rewrite Hs, <- Hlen, <- Hc, Nat.ltb_irrefl.
    apply (stopped_ok M M'); cbn; eauto.
  Qed.

  (** after the read that brought the writer to [w] and the file to [f], with [r] still to come *)
  Lemma honest_after st M M' (w : writer) f r :
    hcopying w r ->
    match st with RMore => src_honest (w_src w) r | REof => r = [] | RErr => False end ->
    M <= M' -> w_n w <= M' -> FOK f M' -> step_ok M (w_after st w f).
  Proof.
    intros HC Hr Hle Hn HF. destruct st; cbn [Proofs.w_after]; [| |contradiction].
    - destruct HC as (Hst & Hd & Hs & Hc & Hlen).
      unfold step_ok, HW, bounded. cbn [fst snd file_of]. rewrite Hst.
      split; [split; [exact Hd|]; split; [exact Hs|]; exists r; auto|]. exists M'. auto.
    - subst r. apply (honest_eof M M'); assumption.
  Qed.

  Lemma honest_step a (w : writer) fo M :
    HW w -> FOK (file_of fo) M -> bounded M w -> step_ok M (w_step a w fo).
  Proof.
    intros HWw HF HB. pose proof HWw as (Hd & Hs & Hrun). pose proof HF as (Hfc & _).
    unfold bounded in HB. unfold Model.w_step. destruct (w_stage w) eqn:Hstage.
    - destruct a; [|apply (stopped_ok M M); cbn; auto].
      (* Stat / OpenFile: the file is no longer than c, so it is not truncated *)
      assert (Hcopy : forall fo', file_of fo' = file_of fo -> step_ok M (fo', set_stage D w WCopy)).
      { intros fo' Hfo. unfold step_ok, HW, bounded. cbn [fst snd set_stage w_d w_size w_stage w_n w_acc w_src].
        rewrite Hfo. split; [auto|]. exists M. auto. }
      assert (Hdone : forall fo', file_of fo' = file_of fo -> step_ok M (fo', set_stage D w (WDone ROk))).
      { intros fo' Hfo. apply (stopped_ok M M); cbn; eauto. rewrite Hfo. exact HF. }
      unfold w_start. rewrite Hs. destruct fo as [f|]; cbn [file_of] in *.
      + destruct (Nat.eqb_spec (length f) (length c)); [apply Hdone; reflexivity|].
        assert (Hnt : (length c <? length f) = false) by (apply Nat.ltb_ge; destruct Hfc as [Hlt | ->]; lia).
        rewrite Hnt. destruct (length c =? 0); [apply Hdone | apply Hcopy]; reflexivity.
      + destruct (length c =? 0); [apply Hdone | apply Hcopy]; reflexivity.
    - destruct Hrun as (rest & Hc & Hlen & Hsrc).
      assert (HC : hcopying w rest) by (unfold hcopying; auto).
      destruct a.
      + rewrite w_read_eq. destruct (w_src w) as [|[p st] t].
        * cbn in Hsrc. subst rest. apply (honest_eof M M); auto.
        * destruct (src_honest_cons _ _ _ _ Hsrc) as (r & -> & Hr). destruct p as [|b p].
          -- apply (honest_after st M M (w_at w (w_n w) (w_acc w) t) _ r HC Hr); auto.
          -- rewrite (cw_honest w (b :: p) r HC).
             pose proof (honest_write (file_of fo) (w_acc w) (b :: p) r M HF Hc ltac:(lia)) as HF1.
             rewrite Hlen in HF1.
             apply (honest_after st M (Nat.max M (w_n w + length (b :: p))) _ _ r (hcopying_write w _ r t HC) Hr);
               [lia | cbn [Proofs.w_at w_n]; lia | exact HF1].
      + destruct (w_src w) as [|[[|b p] st] t]; [apply (stopped_ok M M); cbn; auto ..|].
        destruct (cw_check D deq H w (b :: p)); [apply (stopped_ok M M); cbn; auto|].
        destruct (src_honest_cons _ _ _ _ Hsrc) as (r & -> & _).
        rewrite <- (firstn_skipn j (b :: p)), <- app_assoc in Hc.
        pose proof (honest_write (file_of fo) (w_acc w) _ _ M HF Hc ltac:(lia)) as HF1. rewrite Hlen in HF1.
        apply (stopped_ok M (Nat.max M (w_n w + length (firstn j (b :: p))))); cbn [file_of]; auto. lia.
    - apply (stopped_ok M M); eauto.
    - apply (stopped_ok M M); auto.
  Qed.

  Definition G (s : cstate D) : Prop :=
    Forall HW (snd s) /\ exists M, FOK (file_of (fst s)) M /\ Forall (bounded M) (snd s).

  Lemma bounded_mono M M' w : M <= M' -> bounded M w -> bounded M' w.
  Proof. unfold bounded. intros Hle Hb. destruct (w_stage w); auto; lia. Qed.

  Theorem G_step s l : G s -> G (cstep s l).
  Proof.
    destruct s as [fo ws]. destruct l as [i a]. intros (HWs & M & HF & HBs). unfold Model.cstep.
    destruct (nth_error ws i) as [w|] eqn:Ei; [|unfold G; eauto].
    pose proof (honest_step a w fo M (Forall_nth_error _ _ _ _ HWs Ei) HF (Forall_nth_error _ _ _ _ HBs Ei)) as Hstep.
    destruct (w_step a w fo) as [fo' w']. destruct Hstep as (HW' & M' & Hle & HF' & HB').
    split; [apply Forall_upd_nth; assumption|].
    exists M'. split; [exact HF'|]. apply Forall_upd_nth; [|exact HB'].
    eapply Forall_impl; [|exact HBs]. intros w0. apply bounded_mono. exact Hle.
  Qed.

  Theorem G_run ls s : G s -> G (crun s ls).
  Proof. apply fold_left_inv. intros s' l. apply G_step. Qed.

  Lemma G_Inv s : G s -> Inv D H (H c) (length c) (fst s).
  Proof.
    intros (_ & M & (Hfc & _) & _) f Hfo Hl _. rewrite Hfo in Hfc. cbn [file_of] in Hfc.
    destruct Hfc as [Hlt | ->]; [lia | reflexivity].
  Qed.

  Definition honest_new (w : writer) : Prop :=
    exists src, w = new_writer D (H c) (length c) src /\ src_honest src c.

  Lemma G_init fo0 ws :
    (length (file_of fo0) < length c \/ file_of fo0 = c) -> Forall honest_new ws -> G (fo0, ws).
  Proof.
    intros Hf Hws. split; [|exists 0; split].
    - eapply Forall_impl; [|exact Hws]. intros w (src & -> & Hsrc). unfold HW, new_writer; cbn.
      split; [reflexivity|]. split; [reflexivity|]. exists c. auto.
    - unfold FOK. repeat split; auto; try lia. intros i Hi. lia.
    - eapply Forall_impl; [|exact Hws]. intros w (src & -> & _). unfold bounded; cbn. lia.
  Qed.

  Theorem honest_any s sched : G s -> Inv D H (H c) (length c) (fst (crun s sched)).
  Proof. intros HG. apply G_Inv, G_run, HG. Qed.

  Theorem honest_concurrent fo0 ws sched :
    (length (file_of fo0) < length c \/ file_of fo0 = c) -> Forall honest_new ws ->
    Inv D H (H c) (length c) (fst (crun (fo0, ws) sched)).
  Proof. intros Hf Hws. apply honest_any, G_init; assumption. Qed.

  Definition acts_of (ls : list (nat * action)) : list action :=
    map snd (filter (fun l => Nat.eqb (fst l) 0) ls).

  Lemma crun_single ls : forall fo (w : writer),
    crun (fo, [w]) ls =
      (fst (w_exec D deq H (acts_of ls) w fo), [snd (w_exec D deq H (acts_of ls) w fo)]).
  Proof.
    unfold Model.crun, Proofs.w_exec, acts_of. induction ls as [|[i a] ls IH]; intros fo w; cbn [fold_left filter map fst snd].
    - reflexivity.
    - destruct i as [|i]; cbn [Nat.eqb fst snd map].
      + unfold Model.cstep at 2. cbn [nth_error]. destruct (w_step a w fo) as [fo' w'] eqn:E. cbn [upd_nth fold_left fst snd].
        rewrite E. apply IH.
      + assert (Hn : cstep (fo, [w]) (S i, a) = (fo, [w])).
        { unfold Model.cstep. cbn [nth_error]. destruct i; reflexivity. }
        rewrite Hn. apply IH.
  Qed.

  Lemma crun_nil ls fo : crun (fo, []) ls = (fo, []).
  Proof.
    apply (fold_left_inv _ (fun s => s = (fo, []))); [|reflexivity].
    intros s [i a] ->. unfold Model.cstep. destruct i; reflexivity.
  Qed.

  Theorem concurrent_partial fo0 (srcs : list (list rd)) sched :
    Inv D H (H c) (length c) fo0 ->
    (length srcs <= 1 \/
     ((length (file_of fo0) < length c \/ file_of fo0 = c) /\ Forall (fun s => src_honest s c) srcs)) ->
    Inv D H (H c) (length c) (fst (crun (fo0, map (new_writer D (H c) (length c)) srcs) sched)).
  Proof.
    intros HI [Hone | [Hf Hh]].
    - destruct srcs as [|s [|s' t]]; cbn in Hone; try lia.
      + cbn [map]. rewrite crun_nil. exact HI.
      + cbn [map]. rewrite crun_single. cbn [fst]. apply single_writer_inv; assumption.
    - apply honest_concurrent; [exact Hf |].
      rewrite Forall_forall in *. intros w Hw. apply in_map_iff in Hw as (s & <- & Hin).
      exists s. split; [reflexivity | apply Hh; exact Hin].
  Qed.

End Conc.

(** C09 — concrete witnesses in the instance used by the correspondence check. *)
From Coq Require Import List NArith Bool Arith Lia.
From V Require Import Common.Bytes Blob.Model Blob.Corr Blob.Pull Blob.PullProofs Blob.PullCorr.
Import ListNotations.

(** one layer "abcdef", chunking threshold 4, plan 0-2 / 3-5.  Attempt 1: chunk 0-2 -> 503, chunk 3-5 arrives.
    Attempt 2: everything would be served correctly. *)
Definition w_layer : clayer := mkL [97;98;99;100;101;102]%N 6.
Definition w_plan (r0 : cresp) : list (citem Dg * cresp) :=
  [(([97;98;99]%N, 0, 3), r0); (([100;101;102]%N, 3, 3), CBody [[100;101]%N; [102]%N] None)].
Definition w_att (r0 : cresp) : cattempt :=
  mkA (MOk [w_layer] [123;125]%N) [mkLE (CStatus PPerm) false (w_plan r0) false] [].
Definition w_np : path := [[114]%N; [110]%N; [109]%N; [116]%N].
Definition w_empty : cpcache := mkP [] [] [].

Definition w_after1 (fixed : bool) : cpcache :=
  fst (fst (cpull_attempt fixed true 4 w_np w_empty (w_att (CStatus PTemp)))).

(** the code as found: the second attempt succeeds without a single blob request and links a layer with a hole *)
Lemma unrepaired_witness :
  snd (fst (cpull_attempt false true 4 w_np w_empty (w_att (CStatus PTemp)))) = PErr [PTemp] /\
  snd (cpull_attempt false true 4 w_np (w_after1 false) (w_att (CBody [[97;98;99]%N] None))) = (0, 0) /\
  snd (fst (cpull_attempt false true 4 w_np (w_after1 false) (w_att (CBody [[97;98;99]%N] None)))) = POk /\
  blob_get Dg eqb_str (p_blobs (fst (fst (cpull_attempt false true 4 w_np (w_after1 false) (w_att (CBody [[97;98;99]%N] None))))))
           [97;98;99;100;101;102]%N = Some [0;0;0;100;101;102]%N /\
  p_links (fst (fst (cpull_attempt false true 4 w_np (w_after1 false) (w_att (CBody [[97;98;99]%N] None))))) <> [].
Proof. vm_compute. repeat split; try reflexivity. discriminate. Qed.

(** the repaired code on the same environment: the second attempt fetches the missing chunk and the layer is intact *)
Lemma repaired_witness :
  snd (fst (cpull_attempt true true 4 w_np w_empty (w_att (CStatus PTemp)))) = PErr [PTemp] /\
  snd (cpull_attempt true true 4 w_np (w_after1 true) (w_att (CBody [[97;98;99]%N] None))) = (1, 1) /\
  snd (fst (cpull_attempt true true 4 w_np (w_after1 true) (w_att (CBody [[97;98;99]%N] None)))) = POk /\
  blob_get Dg eqb_str (p_blobs (fst (fst (cpull_attempt true true 4 w_np (w_after1 true) (w_att (CBody [[97;98;99]%N] None))))))
           [97;98;99;100;101;102]%N = Some [97;98;99;100;101;102]%N.
Proof. vm_compute. repeat split; reflexivity. Qed.

(** C08 — one writer of Blob/Model.v: termination of copyNamedFile, crash points inside a write, the single-writer
    invariant of copyNamedFile/checkWriter. *)
From Coq Require Import List NArith Bool Arith Lia.
From V Require Import Common.Bytes Blob.Model.
Import ListNotations.

Lemma fold_left_inv {A B} (f : A -> B -> A) (P : A -> Prop) :
  (forall s x, P s -> P (f s x)) -> forall l s, P s -> P (fold_left f l s).
Proof. intros Hf l. induction l as [|x l IH]; intros s Hs; cbn; [exact Hs | apply IH, Hf, Hs]. Qed.

Lemma write_at_inside (f : list N) off p :
  off <= length f -> write_at f off p = firstn off f ++ p ++ skipn (off + length p) f.
Proof.
  intros Hle. unfold write_at. replace (off - length f) with 0 by lia. reflexivity.
Qed.

Lemma write_at_length (f : list N) off p :
  off <= length f -> length (write_at f off p) = Nat.max (length f) (off + length p).
Proof.
  intros Hle. rewrite write_at_inside by exact Hle.
  rewrite !app_length, firstn_length, skipn_length. lia.
Qed.

(** no hypothesis on [deq] in this section: termination and the crash-point lemma hold for every [deq] *)
Section Steps.
  Variable D : Type.
  Variable deq : D -> D -> bool.
  Variable H : list N -> D.

  Notation writer := (writer D).
  Notation w_step := (w_step D deq H).
  Notation w_read := (w_read D deq H).
  Notation w_run := (w_run D deq H).
  Notation cw_check := (cw_check D deq H).

  Lemma cw_check_bound (w : writer) p :
    cw_check w p = None -> w_n w + length p <= w_size w.
  Proof.
    unfold Model.cw_check. intros Hc.
    destruct (Nat.eqb_spec (w_n w + length p) (w_size w)); [lia|].
    destruct (Nat.ltb_spec (w_size w) (w_n w + length p)); [discriminate | assumption].
  Qed.

  Lemma cw_check_shorter (w w' : writer) p q :
    cw_check w p = None -> w_n w' = w_n w -> w_size w' = w_size w -> length q < length p ->
    cw_check w' q = None.
  Proof.
    intros Hc Hn Hs Hl. apply cw_check_bound in Hc. unfold Model.cw_check. rewrite Hn, Hs.
    destruct (Nat.eqb_spec (w_n w + length q) (w_size w)); [lia|].
    destruct (Nat.ltb_spec (w_size w) (w_n w + length q)); [lia | reflexivity].
  Qed.

  Definition w_at (w : writer) (n : nat) (acc : list N) (src : list rd) : writer :=
    mkW (w_d w) (w_size w) n acc src (w_stage w).

  (** what follows the write inside one iteration of io.Copy: the error that came with the read *)
  Definition w_after (st : rstat) (w : writer) (f : list N) : option (list N) * writer :=
    match st with
    | RMore => (Some f, w)
    | REof => w_eof D w f
    | RErr => w_fail D w ESource
    end.

  Lemma w_read_eq (w : writer) f :
    w_read w f =
      match w_src w with
      | [] => w_eof D w f
      | ([], st) :: rest => w_after st (w_at w (w_n w) (w_acc w) rest) f
      | (p, st) :: rest =>
          match cw_check w p with
          | Some e => w_fail D (w_at w (w_n w) (w_acc w ++ p) rest) e
          | None => w_after st (w_at w (w_n w + length p) (w_acc w ++ p) rest) (write_at f (w_n w) p)
          end
      end.
  Proof. reflexivity. Qed.

  Definition is_done (w : writer) : Prop := exists r, w_stage w = WDone r.

  Lemma w_eof_done (w : writer) f : is_done (snd (w_eof D w f)).
  Proof. unfold w_eof, w_fail. destruct (w_n w <? w_size w); cbn; eexists; reflexivity. Qed.

  Lemma w_after_progress st (w : writer) f :
    is_done (snd (w_after st w f)) \/ snd (w_after st w f) = w.
  Proof. destruct st; cbn; [right; reflexivity | left; apply w_eof_done | left; eexists; reflexivity]. Qed.

  Lemma w_read_progress (w : writer) f :
    w_stage w = WCopy ->
    is_done (snd (w_read w f)) \/
    (w_stage (snd (w_read w f)) = WCopy /\ length (w_src (snd (w_read w f))) < length (w_src w)).
  Proof.
    intros Hst. rewrite w_read_eq. destruct (w_src w) as [|[[|b p] st] rest].
    - left. apply w_eof_done.
    - destruct (w_after_progress st (w_at w (w_n w) (w_acc w) rest) f) as [Hd | ->]; [left; exact Hd | right].
      cbn. split; [exact Hst | lia].
    - destruct (cw_check w (b :: p)); [left; eexists; reflexivity|].
      destruct (w_after_progress st (w_at w (w_n w + length (b :: p)) (w_acc w ++ b :: p) rest)
                  (write_at f (w_n w) (b :: p))) as [Hd | ->]; [left; exact Hd | right].
      cbn. split; [exact Hst | lia].
  Qed.

  Lemma w_run_done_stays fuel (w : writer) fo : is_done w -> w_run fuel w fo = (fo, w).
  Proof. intros [r Hst]. destruct fuel; cbn; [reflexivity|]. rewrite Hst. reflexivity. Qed.

  Lemma w_run_copy_done fuel : forall (w : writer) fo,
    w_stage w = WCopy -> length (w_src w) < fuel -> is_done (snd (w_run fuel w fo)).
  Proof.
    induction fuel as [|fuel IH]; intros w fo Hst Hlt; [lia|].
    cbn. rewrite Hst. unfold Model.w_step. rewrite Hst.
    destruct (w_read_progress w (file_of fo) Hst) as [Hd | [Hc Hl]];
      destruct (w_read w (file_of fo)) as [fo' w']; cbn [snd] in *.
    - rewrite w_run_done_stays by exact Hd. exact Hd.
    - apply IH; [exact Hc | lia].
  Qed.

  Lemma w_start_stage (w : writer) fo :
    w_stage (snd (w_start D w fo)) = WDone ROk \/
    (w_stage (snd (w_start D w fo)) = WCopy /\ w_src (snd (w_start D w fo)) = w_src w).
  Proof.
    unfold w_start, set_stage. destruct fo as [f|].
    - destruct (length f =? w_size w); [left; reflexivity|].
      destruct (w_size w =? 0); [left; reflexivity | right; split; reflexivity].
    - destruct (w_size w =? 0); [left; reflexivity | right; split; reflexivity].
  Qed.

  Lemma w_run_new_done fuel (w : writer) fo :
    w_stage w = WNew -> length (w_src w) + 1 < fuel -> is_done (snd (w_run fuel w fo)).
  Proof.
    intros Hst Hlt. destruct fuel as [|fuel]; [lia|]. cbn [Model.w_run]. rewrite Hst.
    unfold Model.w_step. rewrite Hst.
    destruct (w_start_stage w fo) as [Hd | [Hc Hs]]; destruct (w_start D w fo) as [fo' w']; cbn [snd] in *.
    - assert (Hd' : is_done w') by (eexists; exact Hd). rewrite w_run_done_stays by exact Hd'. exact Hd'.
    - apply w_run_copy_done; [exact Hc | rewrite Hs; lia].
  Qed.

  Theorem copy_terminates fo d size src :
    exists r, snd (copy_named_file D deq H fo d size src None) = WDone r.
  Proof.
    unfold Model.copy_named_file.
    pose proof (w_run_new_done (length src + 2) (new_writer D d size src) fo eq_refl) as Hd.
    cbn [new_writer w_src] in Hd. specialize (Hd ltac:(lia)).
    destruct (w_run (length src + 2) (new_writer D d size src) fo) as [fo' w']. exact Hd.
  Qed.

  Theorem partial_crash_is_boundary_crash (w : writer) f p st rest j :
    w_stage w = WCopy -> w_src w = (p, st) :: rest -> cw_check w p = None -> 0 < j ->
    let w' := mkW (w_d w) (w_size w) (w_n w) (w_acc w) ((firstn j p, RMore) :: (skipn j p, st) :: rest) WCopy in
    fst (w_step (APartial j) w (Some f)) = fst (w_step AStep w' (Some f)).
  Proof.
    intros Hst Hsrc Hc Hj0 w'.
    unfold Model.w_step. rewrite Hst. cbn [w_stage w' file_of]. rewrite Hsrc, w_read_eq. cbn [w_src w'].
    destruct p as [|b p']; [rewrite firstn_nil; reflexivity|]. rewrite Hc.
    destruct (Nat.lt_ge_cases j (length (b :: p'))) as [Hjp|Hjp].
    - assert (Hlen : length (firstn j (b :: p')) = j) by (rewrite firstn_length; lia).
      destruct (firstn j (b :: p')) as [|x q]; [cbn in Hlen; lia|].
      rewrite (cw_check_shorter w w' (b :: p') (x :: q) Hc eq_refl eq_refl) by lia. reflexivity.
    - rewrite firstn_all2 by exact Hjp.
      change (cw_check w' (b :: p')) with (cw_check w (b :: p')). rewrite Hc. reflexivity.
  Qed.

End Steps.

Section Proofs.
  Variable D : Type.
  Variable deq : D -> D -> bool.
  Variable H : list N -> D.
  Hypothesis deq_spec : forall a b, deq a b = true <-> a = b.

  Notation writer := (writer D).
  Notation w_step := (w_step D deq H).
  Notation w_read := (w_read D deq H).
  Notation cw_check := (cw_check D deq H).
  Notation w_at := (w_at D).
  Notation w_after := (w_after D).

  Lemma cw_check_final (w : writer) p :
    cw_check w p = None -> w_n w + length p = w_size w -> H (w_acc w ++ p) = w_d w.
  Proof.
    unfold Model.cw_check. intros Hc Hn. rewrite Hn, Nat.eqb_refl in Hc.
    destruct (deq (H (w_acc w ++ p)) (w_d w)) eqn:E; [apply deq_spec; exact E | discriminate].
  Qed.

  (** "a file of the expected size has the expected content": the size is how the cache tells a complete blob *)
  Definition Inv (d : D) (size : nat) (fo : option (list N)) : Prop :=
    forall f, fo = Some f -> length f = size -> 0 < size -> H f = d.

  Lemma Inv_nil d size : Inv d size (Some []).
  Proof. intros f Heq Hl Hpos. inversion Heq as [Hf]. rewrite <- Hf in Hl. cbn in Hl. lia. Qed.

  (** a writer of blob [d] inside io.Copy that is alone on file [f]: the file starts with what was written, and
      reaches the expected size only with the last write, whose digest was checked *)
  Definition Copying (d : D) (size : nat) (w : writer) (f : list N) : Prop :=
    w_d w = d /\ w_size w = size /\
    0 < size /\ length (w_acc w) = w_n w /\ firstn (w_n w) f = w_acc w /\
    ((w_n w < size /\ length f < size) \/ (w_n w = size /\ f = w_acc w /\ H f = d)).

  Definition WI (d : D) (size : nat) (w : writer) (fo : option (list N)) : Prop :=
    match w_stage w with
    | WNew => w_d w = d /\ w_size w = size /\ Inv d size fo /\ w_n w = 0 /\ w_acc w = []
    | WCopy => exists f, fo = Some f /\ Copying d size w f
    | WDone r => Inv d size fo /\ (r = ROk -> 0 < size -> exists f, fo = Some f /\ length f = size)
    | WDead => Inv d size fo
    end.

  Lemma Copying_Inv d size w f : Copying d size w f -> Inv d size (Some f).
  Proof.
    intros (_ & _ & _ & _ & _ & [[_ Hl] | (_ & _ & Hh)]) f' Heq Hl' _; inversion Heq; subst f'; [lia | exact Hh].
  Qed.

  Lemma WI_Inv d size w fo : WI d size w fo -> Inv d size fo.
  Proof.
    unfold WI. destruct (w_stage w).
    - intros (_ & _ & HI & _). exact HI.
    - intros (f & -> & HC). apply Copying_Inv in HC. exact HC.
    - intros [HI _]. exact HI.
    - intros HI. exact HI.
  Qed.

  Lemma WI_fail d size w e : WI d size (snd (w_fail D w e)) (fst (w_fail D w e)).
  Proof. unfold w_fail, WI; cbn. split; [apply Inv_nil|]. intros Hr; discriminate. Qed.

  Lemma WI_eof d size w f : Copying d size w f -> WI d size (snd (w_eof D w f)) (fst (w_eof D w f)).
  Proof.
    intros HC. unfold w_eof. destruct (Nat.ltb_spec (w_n w) (w_size w)) as [E|E]; [apply WI_fail|].
    unfold WI; cbn. split; [apply Copying_Inv in HC; exact HC|]. intros _ _. exists f. split; [reflexivity|].
    destruct HC as (_ & Hs & _ & Hlen & _ & [[Hn _] | (Hn & -> & _)]); lia.
  Qed.

  Lemma WI_after d size st w f :
    w_stage w = WCopy -> Copying d size w f -> WI d size (snd (w_after st w f)) (fst (w_after st w f)).
  Proof.
    intros Hst HC. destruct st; cbn [Proofs.w_after].
    - unfold WI; cbn [fst snd]. rewrite Hst. eauto.
    - apply WI_eof, HC.
    - apply WI_fail.
  Qed.

  Lemma Copying_write d size w f p src' :
    Copying d size w f -> p <> [] -> cw_check w p = None ->
    Copying d size (w_at w (w_n w + length p) (w_acc w ++ p) src') (write_at f (w_n w) p).
  Proof.
    intros (Hd & Hs & Hpos & Hlen & Hfn & Hcase) Hp Hc. subst d size.
    pose proof (cw_check_bound _ _ _ _ _ Hc) as Hb.
    assert (Hpl : 0 < length p) by (destruct p; [congruence | cbn; lia]).
    destruct Hcase as [[Hn Hl] | (Hn & _)]; [|lia].
    assert (Hnf : w_n w <= length f) by (rewrite <- Hlen, <- Hfn, firstn_length; lia).
    assert (Hw : write_at f (w_n w) p = (w_acc w ++ p) ++ skipn (w_n w + length p) f).
    { rewrite write_at_inside, Hfn, app_assoc by exact Hnf. reflexivity. }
    unfold Copying; cbn. do 3 (split; [auto|]). split; [rewrite app_length; lia|]. split.
    - rewrite Hw, firstn_app.
      replace (w_n w + length p - length (w_acc w ++ p)) with 0 by (rewrite app_length; lia).
      cbn. rewrite app_nil_r. apply firstn_all2. rewrite app_length. lia.
    - destruct (Nat.eq_dec (w_n w + length p) (w_size w)) as [Heqn | Hne].
      + right. split; [exact Heqn|].
        rewrite Hw, skipn_all2, app_nil_r by lia. split; [reflexivity|].
        apply cw_check_final; assumption.
      + left. split; [lia|]. rewrite write_at_length by exact Hnf. lia.
  Qed.

  Lemma WI_read d size w f :
    w_stage w = WCopy -> Copying d size w f -> WI d size (snd (w_read w f)) (fst (w_read w f)).
  Proof.
    intros Hst HC. rewrite w_read_eq. destruct (w_src w) as [|[[|b p] st] rest].
    - apply WI_eof, HC.
    - apply WI_after; [exact Hst | exact HC].
    - destruct (cw_check w (b :: p)) eqn:Hc; [apply WI_fail|].
      apply WI_after; [exact Hst|]. apply Copying_write; [exact HC | discriminate | exact Hc].
  Qed.

  Lemma WI_start d size w fo :
    w_stage w = WNew -> WI d size w fo -> WI d size (snd (w_start D w fo)) (fst (w_start D w fo)).
  Proof.
    intros Hst HW. unfold WI in HW. rewrite Hst in HW. destruct HW as (Hd & Hs & HI & Hn & Hacc).
    assert (Hcopy : forall f, length f < size -> WI d size (set_stage D w WCopy) (Some f)).
    { intros f Hl. unfold WI, Copying; cbn. exists f. rewrite Hn, Hacc. cbn.
      split; [reflexivity|]. do 2 (split; [assumption|]). split; [lia|]. do 2 (split; [reflexivity|]). left. lia. }
    assert (Hzero : forall fo', size = 0 -> WI d size (set_stage D w (WDone ROk)) fo').
    { intros fo' E0. unfold WI; cbn. split; [intros f' _ _ Hpos | intros _ Hpos]; lia. }
    unfold w_start. rewrite Hs. destruct fo as [f|].
    - destruct (Nat.eqb_spec (length f) size) as [E1|E1].
      + unfold WI; cbn. split; [exact HI|]. intros _ _. exists f. auto.
      + destruct (Nat.eqb_spec size 0) as [E0|E0]; [apply Hzero, E0|].
        apply Hcopy. destruct (Nat.ltb_spec size (length f)); cbn; lia.
    - destruct (Nat.eqb_spec size 0) as [E0|E0]; [apply Hzero, E0|]. apply Hcopy. cbn. lia.
  Qed.

  Lemma WI_dead d size w fo : WI d size w fo -> WI d size (set_stage D w WDead) fo.
  Proof. intros HW. apply WI_Inv in HW. exact HW. Qed.

  Lemma Inv_partial d size w f p j :
    Copying d size w f -> p <> [] -> cw_check w p = None ->
    Inv d size (Some (write_at f (w_n w) (firstn j p))).
  Proof.
    intros HC Hp Hc. destruct (Nat.lt_ge_cases j (length p)) as [Hj|Hj].
    - destruct (firstn j p) as [|x q] eqn:Eq.
      + assert (Hnf : w_n w <= length f).
        { destruct HC as (_ & _ & _ & Hlen & Hfn & _). rewrite <- Hlen, <- Hfn, firstn_length. lia. }
        rewrite write_at_inside, Nat.add_0_r by exact Hnf. cbn. rewrite firstn_skipn. apply Copying_Inv in HC. exact HC.
      + (* the bytes written are a shorter write that checkWriter admits as well *)
        apply (Copying_Inv d size (w_at w (w_n w + length (x :: q)) (w_acc w ++ x :: q) [])).
        apply Copying_write; [exact HC | discriminate|].
        apply (cw_check_shorter D deq H w w p); auto. rewrite <- Eq, firstn_length. lia.
    - rewrite firstn_all2 by exact Hj.
      exact (Copying_Inv _ _ _ _ (Copying_write d size w f p [] HC Hp Hc)).
  Qed.

  Theorem WI_step d size a w fo :
    WI d size w fo -> WI d size (snd (w_step a w fo)) (fst (w_step a w fo)).
  Proof.
    intros HW. unfold Model.w_step. destruct (w_stage w) eqn:Hst; [| |exact HW|exact HW].
    - destruct a; [apply WI_start; assumption | apply WI_dead, HW].
    - pose proof HW as HW'. unfold WI in HW'. rewrite Hst in HW'. destruct HW' as (f & -> & HC).
      destruct a; [apply WI_read; assumption|].
      destruct (w_src w) as [|[[|b p] st] rest]; try (apply WI_dead, HW).
      destruct (cw_check w (b :: p)) eqn:Hc; [apply WI_dead, HW|].
      apply (Inv_partial d size w f (b :: p) j); [exact HC | discriminate | exact Hc].
  Qed.

  (** any sequence of scheduling steps of a single writer, i.e. every crash point of every source behaviour *)
  Definition w_exec (acts : list action) (w : writer) (fo : option (list N)) : option (list N) * writer :=
    fold_left (fun s a => w_step a (snd s) (fst s)) acts (fo, w).

  Lemma WI_exec d size acts w fo :
    WI d size w fo -> WI d size (snd (w_exec acts w fo)) (fst (w_exec acts w fo)).
  Proof.
    exact (fold_left_inv _ (fun s => WI d size (snd s) (fst s)) (fun s a => WI_step d size a _ _) acts (fo, w)).
  Qed.

  Theorem single_writer d size src fo acts :
    Inv d size fo ->
    Inv d size (fst (w_exec acts (new_writer D d size src) fo)) /\
    (w_stage (snd (w_exec acts (new_writer D d size src) fo)) = WDone ROk -> 0 < size ->
     exists f, fst (w_exec acts (new_writer D d size src) fo) = Some f /\ length f = size /\ H f = d).
  Proof.
    intros HI. assert (HW : WI d size (new_writer D d size src) fo) by (unfold WI; cbn; auto).
    apply (WI_exec d size acts) in HW. pose proof (WI_Inv _ _ _ _ HW) as HI'. split; [exact HI'|].
    intros Hst Hpos. unfold WI in HW. rewrite Hst in HW.
    destruct HW as [_ (f & Hf & Hl)]; [reflexivity | exact Hpos|].
    exists f. split; [exact Hf|]. split; [exact Hl|]. exact (HI' f Hf Hl Hpos).
  Qed.

  Theorem single_writer_inv d size src fo acts :
    Inv d size fo -> Inv d size (fst (w_exec acts (new_writer D d size src) fo)).
  Proof. intros HI. apply single_writer, HI. Qed.

End Proofs.

(** C08 — "blob cache entries of the right size always have the right content": exported theorems.
    Reading of every statement: notes/C08.md.  Model: Blob/Model.v (tied to server/internal/cache/blob by props/c08.py).

    [D], [deq], [H] are the digest type, its equality test and SHA-256; "content is intact" means [H content = d].
    [Inv D H d size fo]: if the file exists and has the size the blob is stored under (size > 0), its content hashes to d. *)
From Coq Require Import List NArith Bool Arith Lia.
From V Require Import Common.Bytes Blob.Model Blob.Proofs Blob.ProofsHist Blob.ProofsConc Blob.Corr.
Import ListNotations.

Lemma surjective_pairing_ok {A B} (x : A * B) (b : B) : snd x = b -> x = (fst x, b).
Proof. intros <-. apply surjective_pairing. Qed.

(** ** single writer: every source behaviour, every crash point (also inside one write), every prior file *)
Theorem C08_size_implies_content :
  forall (D : Type) (deq : D -> D -> bool) (H : list N -> D),
    (forall a b, deq a b = true <-> a = b) ->
    forall (d : D) (size : nat) (src : list rd) (fo : option (list N)) (acts : list action),
      Inv D H d size fo ->
      Inv D H d size (fst (w_exec D deq H acts (new_writer D d size src) fo)).
Proof. exact single_writer_inv. Qed.
Print Assumptions C08_size_implies_content.

(** the same for copyNamedFile as the cache calls it (run to completion or to the crash point [cr]) *)
Theorem C08_copy_named_file :
  forall (D : Type) (deq : D -> D -> bool) (H : list N -> D),
    (forall a b, deq a b = true <-> a = b) ->
    forall fo d size src (cr : crash),
      Inv D H d size fo -> Inv D H d size (fst (copy_named_file D deq H fo d size src cr)).
Proof. exact copy_named_file_inv. Qed.
Print Assumptions C08_copy_named_file.

(** non-vacuity: a prior file that is partial junk satisfies the hypothesis, and the run below really writes *)
Example C08_size_implies_content_ex :
  Inv Dg Hid [1;2;3]%N 3 (Some [9]%N) /\
  fst (w_exec Dg eqb_str Hid [AStep; AStep; APartial 1] (new_writer Dg [1;2;3]%N 3 [([1]%N, RMore); ([2;3]%N, RMore)]) (Some [9]%N))
  = Some [1;2]%N.
Proof. split; [intros f Hf Hl _; inversion Hf; subst; discriminate | vm_compute; reflexivity]. Qed.

(** the model's copyNamedFile always returns when the process does not die (the fuel of [w_run] suffices) *)
Theorem C08_copy_terminates :
  forall (D : Type) (deq : D -> D -> bool) (H : list N -> D) fo d size src,
    exists r, snd (copy_named_file D deq H fo d size src None) = WDone r.
Proof. exact copy_terminates. Qed.
Print Assumptions C08_copy_terminates.

(** a crash inside one write (after j of its bytes) leaves the file that a crash *between* writes leaves when the
    source delivers those j bytes as a read of their own: the crash points exercised on the implementation (the child
    process is killed when a Read begins) cover the partial-write crash points of C08_size_implies_content *)
Theorem C08_partial_crash_is_boundary_crash :
  forall (D : Type) (deq : D -> D -> bool) (H : list N -> D) (w : writer D) f p st rest j,
    w_stage w = WCopy -> w_src w = (p, st) :: rest -> cw_check D deq H w p = None ->
    0 < j -> j < length p -> w_n w <= length f ->
    let w' := mkW (w_d w) (w_size w) (w_n w) (w_acc w) ((firstn j p, RMore) :: (skipn j p, st) :: rest) WCopy in
    fst (w_step D deq H (APartial j) w (Some f)) = fst (w_step D deq H AStep w' (Some f)).
Proof. intros D deq H w f p st rest j Hst Hsrc Hc Hj _ _. apply partial_crash_is_boundary_crash; assumption. Qed.
Print Assumptions C08_partial_crash_is_boundary_crash.

Example C08_partial_crash_ex :
  let w := mkW [1;2;3;4]%N 4 1 [1]%N [([2;3;4]%N, RMore)] WCopy in
  cw_check Dg eqb_str Hid w [2;3;4]%N = None /\
  fst (w_step Dg eqb_str Hid (APartial 2) w (Some [1]%N)) = Some [1;2;3]%N.
Proof. vm_compute. split; reflexivity. Qed.

(** ** concurrent honest writers: any number, any interleaving, any crash pattern *)
Theorem C08_honest_concurrent :
  forall (D : Type) (deq : D -> D -> bool) (H : list N -> D),
    (forall a b, deq a b = true <-> a = b) ->
    forall (c : list N) (fo0 : option (list N)) (ws : list (writer D)) (sched : list (nat * action)),
      (length (file_of fo0) < length c \/ file_of fo0 = c) ->
      Forall (honest_new D H c) ws ->
      Inv D H (H c) (length c) (fst (crun D deq H (fo0, ws) sched)).
Proof. exact honest_concurrent. Qed.
Print Assumptions C08_honest_concurrent.

Example C08_honest_concurrent_ex :
  let c := [1;2;3]%N in
  let ws := [new_writer Dg c 3 [([1]%N, RMore); ([2;3]%N, RMore)]; new_writer Dg c 3 [([1;2;3]%N, REof)]] in
  Forall (honest_new Dg Hid c) ws /\
  fst (crun Dg eqb_str Hid (Some [7]%N, ws) [(0, AStep); (1, AStep); (0, AStep); (1, AStep); (0, AStep)]) = Some c.
Proof.
  cbv zeta. split.
  - repeat constructor.
    + eexists. split; [reflexivity|]. cbn. exists [2;3]%N. split; [reflexivity|]. exists []. split; reflexivity.
    + eexists. split; [reflexivity|]. reflexivity.
  - vm_compute. reflexivity.
Qed.

(** ** the product "misbehaving source x concurrent writer" is false of the faithful model *)
Definition C08_concurrent_full : Prop :=
  forall (D : Type) (deq : D -> D -> bool) (H : list N -> D),
    (forall a b, deq a b = true <-> a = b) ->
    forall (d : D) (size : nat) (fo0 : option (list N)) (srcs : list (list rd)) (sched : list (nat * action)),
      Inv D H d size fo0 ->
      Inv D H d size (fst (crun D deq H (fo0, map (new_writer D d size) srcs) sched)).

(** witness (the harness reproduces it on the real DiskCache, known finding C08-concurrent-misbehaving-writer):
    writer 0 carries the right content "hello" in two reads, writer 1's reader fails; schedule 0 0 1 1 0:
    open, write "he", (1) open, (1) source error -> Truncate(0), (0) write "llo" at offset 2 -> full size, zeros in front *)
Lemma conc_witness :
  fst (crun Dg eqb_str Hid (None, map (new_writer Dg [104;101;108;108;111]%N 5)
         [[([104;101]%N, RMore); ([108;108;111]%N, RMore)]; [([120;120]%N, RErr)]])
         [(0, AStep); (0, AStep); (1, AStep); (1, AStep); (0, AStep)]) = Some [0;0;108;108;111]%N.
Proof. vm_compute. reflexivity. Qed.

Theorem C08_concurrent_refuted : ~ C08_concurrent_full.
Proof.
  intros F.
  pose proof (fun srcs sched => F Dg eqb_str Hid eqb_str_spec [104;101;108;108;111]%N 5 None srcs sched ltac:(discriminate)) as HI.
  specialize (HI _ _ _ conc_witness eq_refl ltac:(lia)). discriminate.
Qed.
Print Assumptions C08_concurrent_refuted.

(** strongest partial: one writer at a time with arbitrary sources, or any number of honest writers *)
Theorem C08_concurrent_partial :
  forall (D : Type) (deq : D -> D -> bool) (H : list N -> D),
    (forall a b, deq a b = true <-> a = b) ->
    forall (c : list N) (fo0 : option (list N)) (srcs : list (list rd)) (sched : list (nat * action)),
      Inv D H (H c) (length c) fo0 ->
      (length srcs <= 1 \/
       ((length (file_of fo0) < length c \/ file_of fo0 = c) /\ Forall (fun s => src_honest s c) srcs)) ->
      Inv D H (H c) (length c) (fst (crun D deq H (fo0, map (new_writer D (H c) (length c)) srcs) sched)).
Proof. exact concurrent_partial. Qed.
Print Assumptions C08_concurrent_partial.

(** ** histories: every blob of the store, after any sequence of operations (sources and crash points arbitrary) *)
Theorem C08_history_inv :
  forall (D : Type) (deq : D -> D -> bool) (H : list N -> D),
    (forall a b, deq a b = true <-> a = b) ->
    forall (bufsz : nat) (fixed : bool) (sz : D -> nat) (ops : list (op D)),
      Forall (op_wf D sz) ops ->
      forall d n f,
        let c := run D deq H bufsz fixed (empty_cache D) ops in
        get D deq c d = Some n -> n = sz d -> blob_get D deq (blobs c) d = Some f -> H f = d.
Proof. exact history_inv. Qed.
Print Assumptions C08_history_inv.

(** non-vacuity: a history with a crashed Put, a junk Put, an Import, a Link and a Resolve is well-formed for
    [sz := length] (digests are their own preimages in this instance) and ends with the blob present and intact *)
Example C08_history_inv_ex :
  let ops : list cop :=
    [ OPut [1;2;3]%N 3 [([1]%N, RMore); ([2;3]%N, RMore)] (Some (2, None));
      OPut [1;2;3]%N 3 [([9;9]%N, RErr)] None;
      OPut [1;2;3]%N 3 [([1;2]%N, RMore); ([3]%N, REof)] None;
      @OImport Dg [([4;5]%N, REof)] 2;
      OLink (Some [[104]%N; [110]%N; [109]%N; [116]%N]) [1;2;3]%N;
      @OResolve Dg (Some [[72]%N; [110]%N; [109]%N; [116]%N]) ] in
  Forall (op_wf Dg (@length N)) ops /\
  get Dg eqb_str (run Dg eqb_str Hid bufsz32k true (empty_cache Dg) ops) [1;2;3]%N = Some 3.
Proof. cbv zeta. split; [repeat constructor | vm_compute; reflexivity]. Qed.

(** ** a successful store makes the blob retrievable (and, in a store satisfying the invariant, intact) *)
Theorem C08_put_then_get :
  forall (D : Type) (deq : D -> D -> bool) (H : list N -> D),
    (forall a b, deq a b = true <-> a = b) ->
    forall bufsz fixed (sz : D -> nat) (c : cache D) d size src cr c',
      BInv D deq H sz c -> size = sz d -> 0 < size ->
      step D deq H bufsz fixed c (OPut d size src cr) = (c', OutOk) ->
      get D deq c' d = Some size /\
      exists f, blob_get D deq (blobs c') d = Some f /\ length f = size /\ H f = d.
Proof. exact put_then_get. Qed.
Print Assumptions C08_put_then_get.

(** ** a name is linked only to a manifest blob whose file exists *)
Theorem C08_link_requires_blob :
  forall (D : Type) (deq : D -> D -> bool) (H : list N -> D) bufsz fixed (c : cache D) p d c',
    step D deq H bufsz fixed c (OLink (Some p) d) = (c', OutOk) ->
    exists bf, blob_get D deq (blobs c) d = Some bf.
Proof. exact link_requires_blob. Qed.
Print Assumptions C08_link_requires_blob.

(** "exists" in the sense of Get (a non-empty file) is false: known finding C08-link-empty-blob *)
Definition C08_link_requires_present_full : Prop :=
  forall (D : Type) (deq : D -> D -> bool) (H : list N -> D),
    (forall a b, deq a b = true <-> a = b) ->
    forall bufsz fixed (ops : list (op D)) p d c',
      step D deq H bufsz fixed (run D deq H bufsz fixed (empty_cache D) ops) (OLink (Some p) d) = (c', OutOk) ->
      get D deq (run D deq H bufsz fixed (empty_cache D) ops) d <> None.

(** Link to the empty file that a failed Put leaves: Link succeeds, Get reports the blob absent *)
Lemma link_empty_witness :
  let c := run Dg eqb_str Hid bufsz32k true (empty_cache Dg) [OPut [1;2;3]%N 3 [([9]%N, RErr)] None] in
  snd (step Dg eqb_str Hid bufsz32k true c (OLink (Some [[104]%N; [110]%N; [109]%N; [116]%N]) [1;2;3]%N)) = OutOk /\
  get Dg eqb_str c [1;2;3]%N = None.
Proof. vm_compute. split; reflexivity. Qed.

Theorem C08_link_requires_present_refuted : ~ C08_link_requires_present_full.
Proof.
  intros F. destruct link_empty_witness as [Hl Hg]. cbv zeta in Hl, Hg.
  refine (F Dg eqb_str Hid eqb_str_spec bufsz32k true _ _ _ _ _ Hg). apply surjective_pairing_ok. exact Hl.
Qed.
Print Assumptions C08_link_requires_present_refuted.

Theorem C08_link_requires_present_partial :
  forall (D : Type) (deq : D -> D -> bool) (H : list N -> D) bufsz fixed (c : cache D) p d c',
    step D deq H bufsz fixed c (OLink (Some p) d) = (c', OutOk) ->
    (forall bf, blob_get D deq (blobs c) d = Some bf -> 0 < length bf) ->
    get D deq c d <> None.
Proof. exact link_requires_present_partial. Qed.
Print Assumptions C08_link_requires_present_partial.

(** ** resolving a name returns the digest of exactly the bytes linked (Link as repaired by
    fixes/C08-link-size-shortcut.patch; any case variant [p'] of the name) *)
Theorem C08_resolve_digest_of_linked_bytes :
  forall (D : Type) (deq : D -> D -> bool) (H : list N -> D),
    (forall a b, deq a b = true <-> a = b) ->
    forall bufsz (c : cache D) p p' d c' bf,
      fold_eq p' p = true ->
      blob_get D deq (blobs c) d = Some bf -> 0 < length bf ->
      step D deq H bufsz true c (OLink (Some p) d) = (c', OutOk) ->
      snd (step D deq H bufsz true c' (OResolve (Some p'))) = OutDigest d /\
      exists m, link_get (links c') (manifest_path (links c') p') = Some m /\ H m = d /\ length m = length bf.
Proof. exact link_then_resolve. Qed.
Print Assumptions C08_resolve_digest_of_linked_bytes.

(** the unrepaired Link ([fixed = false]) does not have this property: two intact manifests of equal length, the
    second Link is a no-op *)
Lemma link_same_size_witness :
  let p := [[104]%N; [110]%N; [109]%N; [116]%N] in
  let c := run Dg eqb_str Hid bufsz32k false (empty_cache Dg)
             [OPut [1;1]%N 2 [([1;1]%N, RMore)] None; OPut [2;2]%N 2 [([2;2]%N, RMore)] None; OLink (Some p) [1;1]%N] in
  blob_get Dg eqb_str (blobs c) [2;2]%N = Some [2;2]%N /\
  snd (step Dg eqb_str Hid bufsz32k false c (OLink (Some p) [2;2]%N)) = OutOk /\
  snd (step Dg eqb_str Hid bufsz32k false (fst (step Dg eqb_str Hid bufsz32k false c (OLink (Some p) [2;2]%N))) (OResolve (Some p)))
    = OutDigest [1;1]%N.
Proof. vm_compute. repeat split; reflexivity. Qed.

Theorem C08_unrepaired_link_refuted :
  ~ (forall bufsz (c : cache Dg) p d c' bf,
       blob_get Dg eqb_str (blobs c) d = Some bf -> 0 < length bf ->
       step Dg eqb_str Hid bufsz false c (OLink (Some p) d) = (c', OutOk) ->
       snd (step Dg eqb_str Hid bufsz false c' (OResolve (Some p))) = OutDigest d).
Proof.
  intros F. destruct link_same_size_witness as (Hb & Hl & Hr). cbv zeta in Hb, Hl, Hr.
  pose proof (F bufsz32k _ _ _ _ _ Hb ltac:(cbn; lia) (surjective_pairing_ok _ _ Hl)) as F'.
  pose proof (eq_trans (eq_sym F') Hr) as E. discriminate E.
Qed.
Print Assumptions C08_unrepaired_link_refuted.

Example C08_resolve_ex :
  let p := [[104]%N; [110]%N; [109]%N; [116]%N] in
  let c := run Dg eqb_str Hid bufsz32k true (empty_cache Dg)
             [OPut [1;1]%N 2 [([1;1]%N, RMore)] None; OPut [2;2]%N 2 [([2;2]%N, RMore)] None; OLink (Some p) [1;1]%N] in
  snd (step Dg eqb_str Hid bufsz32k true c (OLink (Some p) [2;2]%N)) = OutOk /\
  snd (step Dg eqb_str Hid bufsz32k true (fst (step Dg eqb_str Hid bufsz32k true c (OLink (Some p) [2;2]%N)))
         (OResolve (Some [[72]%N; [78]%N; [109]%N; [116]%N]))) = OutDigest [2;2]%N.
Proof. vm_compute. split; reflexivity. Qed.

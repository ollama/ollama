(** C09 — proofs about Blob/Pull.v *)
From Coq Require Import List NArith Bool Arith Lia.
From V Require Import Common.Bytes Blob.Model Blob.Proofs Blob.ProofsHist Blob.Pull.
Import ListNotations.

Lemma push_new_manifest_last results :
  In EvManifest (push_new results) ->
  forallb snd results = true /\
  exists pre, push_new results = pre ++ [EvManifest] /\ ~ In EvManifest pre /\
              pre = map (fun '(i, ok) => EvBlob i ok) results.
Proof.
  unfold push_new. intros Hin.
  assert (Hno : ~ In EvManifest (map (fun '(i, ok) => EvBlob i ok) results)).
  { intros Hx. apply in_map_iff in Hx as ([i ok] & Hx & _). discriminate. }
  destruct (forallb snd results) eqn:E.
  - split; [reflexivity|]. eexists. split; [reflexivity|]. split; [exact Hno | reflexivity].
  - rewrite app_nil_r in Hin. contradiction.
Qed.

Lemma push_legacy_manifest_last results : forall i,
  In EvManifest (push_legacy i results) ->
  forallb (fun b => b) results = true /\
  exists pre, push_legacy i results = pre ++ [EvManifest] /\ ~ In EvManifest pre /\ length pre = length results.
Proof.
  induction results as [|b t IH]; intros i Hin; cbn in *.
  - split; [reflexivity|]. exists []. split; [reflexivity|]. split; [intros []| reflexivity].
  - destruct b; cbn in *.
    + destruct Hin as [Hx | Hin]; [discriminate|].
      destruct (IH (S i) Hin) as (Hall & pre & Heq & Hno & Hl). split; [exact Hall|].
      exists (EvBlob i true :: pre). rewrite Heq. split; [reflexivity|]. split.
      * intros [Hx | Hx]; [discriminate | contradiction].
      * cbn. lia.
    + destruct Hin as [Hx | []]. discriminate.
Qed.

Lemma In_combine_l {A B} (l : list A) (m : list B) x :
  length l = length m -> In x l -> exists y, In (x, y) (combine l m).
Proof.
  revert m. induction l as [|a l IH]; intros [|b m] Hlen Hin; try discriminate; [destruct Hin|].
  destruct Hin as [-> | Hin]; [exists b; left; reflexivity|].
  destruct (IH m ltac:(cbn in Hlen; lia) Hin) as [y Hy]. exists y. right. exact Hy.
Qed.

Section PullProofs.
  Variable D : Type.
  Variable deq : D -> D -> bool.
  Variable H : list N -> D.
  Hypothesis deq_spec : forall a b, deq a b = true <-> a = b.
  Variable mkey : D -> D -> nat -> nat -> list N.
  Variable bufsz : nat.
  Variable fixed_link : bool.

  Notation layer := (layer D).
  Notation pcache := (pcache D).
  Notation blob_get := (blob_get D deq).
  Notation blob_put := (blob_put D deq).
  Notation put_bytes := (put_bytes D deq H).
  Notation pull_attempt := (pull_attempt D deq H mkey bufsz true fixed_link).

  Lemma deq_false a b : a <> b -> deq a b = false.
  Proof. intros Hne. destruct (deq a b) eqn:E; [apply deq_spec in E; contradiction | reflexivity]. Qed.

  (** [sz d] = the size blob d is stored under; the store invariant of C08 on the blobs of the client's cache *)
  Variable sz : D -> nat.

  Definition LInv (bs : list (D * list N)) : Prop :=
    forall d f, blob_get bs d = Some f -> length f = sz d -> 0 < sz d -> H f = d.

  Lemma LInv_BInv bs ls : LInv bs <-> BInv D deq H sz (mkC bs ls).
  Proof. unfold LInv, BInv. cbn. tauto. Qed.

  (** [put_bytes] unfolds to the store of [BInv_put_bytes] *)
  Lemma put_bytes_LInv bs data : LInv bs -> LInv (put_bytes bs data).
  Proof. exact (BInv_put_bytes D deq H deq_spec sz (mkC bs []) data []). Qed.

  Lemma LInv_blob_put bs d f : H f = d -> LInv bs -> LInv (blob_put bs d f).
  Proof.
    intros Hh HL. apply (BInv_set D deq H deq_spec sz (mkC bs []) d (Some f) [] HL).
    intros f' Hf _ _. inversion Hf; subst f'. exact Hh.
  Qed.

  Lemma put_bytes_other bs data d : d <> H data -> blob_get (put_bytes bs data) d = blob_get bs d.
  Proof.
    intros Hne. unfold Pull.put_bytes. rewrite (blob_get_set D deq deq_spec).
    destruct (fst _); [rewrite deq_false by congruence|]; reflexivity.
  Qed.

  (** a layer is in the cache with the manifest's size and digest *)
  Definition Good (l : layer) (bs : list (D * list N)) : Prop :=
    exists f, blob_get bs (l_d l) = Some f /\ length f = l_size l /\ H f = l_d l.

  Lemma Good_put_bytes l bs data : H data <> l_d l -> Good l bs -> Good l (put_bytes bs data).
  Proof. intros Hne (f & Hg & Hl & Hh). exists f. rewrite put_bytes_other by congruence. auto. Qed.

  Lemma Good_blob_put l bs d f :
    (d = l_d l -> length f = l_size l /\ H f = l_d l) -> Good l bs -> Good l (blob_put bs d f).
  Proof.
    intros Hsame (f0 & Hg & Hl & Hh). unfold Good. rewrite (blob_get_put D deq deq_spec).
    destruct (deq d (l_d l)) eqn:E.
    - apply deq_spec in E. destruct (Hsame E) as [H1 H2]. exists f. auto.
    - exists f0. auto.
  Qed.

  Notation list_layer := (list_layer D deq H mkey true).
  Notation list_layers := (list_layers D deq H mkey true).
  Notation run_job := (run_job D deq H mkey true).
  Notation run_jobs_step := (run_jobs_step D deq H mkey true).
  Notation commit_layer := (commit_layer D deq H).
  Notation commits := (commits D deq H true).
  Notation schedule := (schedule D).
  Notation sum_bytes := (sum_bytes D).
  Notation sum_sizes := (sum_sizes D).

  (** what listing decides about a layer, in terms of the blobs before the attempt: "cached" means present with the
      manifest's size, and a pre-validated Chunker can only belong to an empty layer *)
  Definition listed (bs : list (D * list N)) (l : layer) (dc : ldec D) : Prop :=
    (ld_cached dc = true -> exists f, blob_get bs (l_d l) = Some f /\ length f = l_size l /\ 0 < length f) /\
    (ld_cached dc = false -> ld_preval dc = true -> l_size l = 0).

  Lemma list_layer_spec thr c l e :
    p_blobs (fst (list_layer thr c l e)) = p_blobs c /\ p_links (fst (list_layer thr c l e)) = p_links c /\
    listed (p_blobs c) l (snd (list_layer thr c l e)).
  Proof.
    destruct (list_layer thr c l e) as [c' dc] eqn:E. cbn [fst snd]. unfold Pull.list_layer, listed in *.
    destruct (match pget D deq c (l_d l) with Some n => n =? l_size l | None => false end) eqn:Ecached; cbv zeta in E.
    - inversion E; subst c' dc. cbn. split; [reflexivity|]. split; [reflexivity|]. split; [intros _ | discriminate].
      unfold pget in Ecached. destruct (blob_get (p_blobs c) (l_d l)) as [f|]; [|discriminate].
      destruct (Nat.eqb_spec (length f) 0); [discriminate|]. apply Nat.eqb_eq in Ecached.
      exists f. repeat split; auto; lia.
    - set (preval := match blob_get (p_blobs c) (l_d l) with Some f => length f =? l_size l | None => false end) in E.
      set (c1 := if preval then c else _) in E.
      assert (Hc1 : p_blobs c1 = p_blobs c /\ p_links c1 = p_links c).
      { unfold c1, target_get, target_set. destruct preval; [|destruct (blob_get (p_parts c) (l_d l))]; auto. }
      (* a file of the manifest's size that Get does not report is empty *)
      assert (Hpre : preval = true -> l_size l = 0).
      { unfold preval, pget in *. destruct (blob_get (p_blobs c) (l_d l)) as [f|]; [|discriminate].
        intros E'. apply Nat.eqb_eq in E'. destruct (Nat.eqb_spec (length f) 0); [lia|].
        rewrite <- E', Nat.eqb_refl in Ecached. discriminate. }
      clearbody c1 preval.
      destruct (layer_plan D thr l e) as [nreq [plan|]]; [destruct (plan_jobs _ _ _ _ _ _ _ _) as [b js]|];
        inversion E; subst c' dc; cbn [ld_cached ld_preval];
        (split; [apply Hc1|]; split; [apply Hc1|]; split; [discriminate | intros _; exact Hpre]).
  Qed.

  Lemma list_layers_spec thr ls : forall c es,
    p_blobs (fst (list_layers thr c ls es)) = p_blobs c /\ p_links (fst (list_layers thr c ls es)) = p_links c /\
    length (snd (list_layers thr c ls es)) = length ls /\
    forall l dc, In (l, dc) (combine ls (snd (list_layers thr c ls es))) -> listed (p_blobs c) l dc.
  Proof.
    induction ls as [|l ls IH]; intros c es; cbn; [intuition|].
    destruct (list_layer_spec thr c l match es with e :: _ => e | [] => mkLE (CStatus PPerm) true [] false end)
      as (Hb & Hl & Hd).
    destruct (list_layer thr c l _) as [c1 dc]. cbn [fst snd] in Hb, Hl, Hd.
    destruct (IH c1 (tl es)) as (Hb' & Hl' & Hlen & Hds). destruct (list_layers thr c1 ls (tl es)) as [c2 dcs].
    cbn [fst snd combine length] in *. rewrite Hb in *. split; [congruence|]. split; [congruence|]. split; [congruence|].
    intros l' dc' [Heq | Hin]; [inversion Heq; subst; exact Hd | apply Hds, Hin].
  Qed.

  Lemma run_job_frame c l preval j :
    p_links (fst (run_job c l preval j)) = p_links c /\
    (p_blobs (fst (run_job c l preval j)) = p_blobs c \/
     exists ld cd s n, p_blobs (fst (run_job c l preval j)) = put_bytes (p_blobs c) (mkey ld cd s n)).
  Proof.
    unfold Pull.run_job, target_set, target_get. destruct (j_resp j); cbn; [auto|].
    destruct preval.
    - destruct (j_item j) as [[cd s] n]. cbn. split; [reflexivity|]. right. eauto.
    - destruct (chunk_put D deq H _ (j_item j) _) as [f' r]. destruct r.
      + destruct (j_item j) as [[cd s] n]. cbn. split; [reflexivity|]. right. eauto.
      + cbn. auto.
  Qed.

  (** what the downloads of an attempt keep, in any order; the lengths so that "no error" means "no layer failed" *)
  Definition jobs_keep (P : list (D * list N) -> Prop) (s s' : pcache * list nat * list perr) : Prop :=
    (P (p_blobs (fst (fst s))) -> P (p_blobs (fst (fst s')))) /\
    p_links (fst (fst s')) = p_links (fst (fst s)) /\
    (length (snd (fst s)) = length (snd s) -> length (snd (fst s')) = length (snd s')).

  Lemma run_jobs_inv (P : list (D * list N) -> Prop) ls dcs ids s :
    (forall bs ld cd st n, P bs -> P (put_bytes bs (mkey ld cd st n))) ->
    jobs_keep P s (fold_left (run_jobs_step ls dcs) ids s).
  Proof.
    intros P_marker. apply (fold_left_inv _ (jobs_keep P s)); [|unfold jobs_keep; auto].
    intros [[c failed] errs] id (HP & Hl & Hf). unfold Pull.run_jobs_step, jobs_keep. cbn [fst snd] in *.
    destruct (nth_error ls (fst id)) as [l|]; [|auto]. destruct (nth_error dcs (fst id)) as [dc|]; [|auto].
    destruct (find _ (ld_jobs dc)) as [j|]; [|auto].
    destruct (run_job_frame c l (ld_preval dc) j) as [Hl' Hb].
    destruct (run_job c l (ld_preval dc) j) as [c' r]. cbn [fst] in *.
    assert (HP' : P (p_blobs (fst (fst s))) -> P (p_blobs c')).
    { intros H0. destruct Hb as [-> | (ld & cd & st & n & ->)]; auto. }
    destruct r; cbn [fst snd]; repeat split; try congruence; auto.
    intros H0. rewrite app_length. cbn. rewrite Hf by exact H0. lia.
  Qed.

  (** Commit makes the blob visible only after the whole-file digest check *)
  Lemma commit_layer_ok c l c' :
    commit_layer c l = (c', None) ->
    p_links c' = p_links c /\
    exists f, p_blobs c' = blob_put (p_blobs c) (l_d l) f /\ length f = l_size l /\ H f = l_d l.
  Proof.
    unfold Pull.commit_layer. destruct (blob_get (p_parts c) (l_d l)) as [f|]; [|discriminate].
    destruct (Nat.eqb_spec (length f) (l_size l)) as [E1|]; [|discriminate].
    destruct (deq (H f) (l_d l)) eqn:E2; [|discriminate].
    cbn. intros Hx. inversion Hx; subst. cbn. split; [reflexivity|]. exists f.
    apply deq_spec in E2. auto.
  Qed.

  Lemma commit_layer_err c l c' e : commit_layer c l = (c', Some e) -> c' = c.
  Proof.
    unfold Pull.commit_layer. destruct (blob_get (p_parts c) (l_d l)) as [f|]; [|intros Hx; inversion Hx; reflexivity].
    destruct ((length f =? l_size l) && deq (H f) (l_d l)); intros Hx; inversion Hx; reflexivity.
  Qed.

  Lemma commits_inv (P : list (D * list N) -> Prop) ls :
    (forall bs l f, In l ls -> length f = l_size l -> H f = l_d l -> P bs -> P (blob_put bs (l_d l) f)) ->
    forall i c dcs failed,
      (P (p_blobs c) -> P (p_blobs (fst (commits i c ls dcs failed)))) /\
      p_links (fst (commits i c ls dcs failed)) = p_links c.
  Proof.
    induction ls as [|l ls IH]; intros HP i c dcs failed; cbn; [auto|].
    destruct dcs as [|dc dcs]; [auto|].
    assert (IH' : forall c1, (P (p_blobs c) -> P (p_blobs c1)) -> p_links c1 = p_links c ->
              (P (p_blobs c) -> P (p_blobs (fst (commits (S i) c1 ls dcs failed)))) /\
              p_links (fst (commits (S i) c1 ls dcs failed)) = p_links c).
    { intros c1 H1 H2. destruct (IH (fun bs l0 f Hin => HP bs l0 f (or_intror Hin)) (S i) c1 dcs failed) as [H3 H4].
      split; [auto | congruence]. }
    destruct (ld_cached dc || ld_preval dc || false || existsb (Nat.eqb i) failed).
    - specialize (IH' c (fun x => x) eq_refl). destruct (commits (S i) c ls dcs failed). exact IH'.
    - destruct (commit_layer c l) as [c1 [e|]] eqn:Ec.
      + apply commit_layer_err in Ec. subst c1.
        specialize (IH' c (fun x => x) eq_refl). destruct (commits (S i) c ls dcs failed). exact IH'.
      + apply commit_layer_ok in Ec as [Hl (f & Hb & Hlen & Hh)].
        specialize (IH' c1). destruct (commits (S i) c1 ls dcs failed). apply IH'; [|exact Hl].
        rewrite Hb. apply HP; auto. left. reflexivity.
  Qed.

  Lemma commits_LInv ls i c dcs failed : LInv (p_blobs c) -> LInv (p_blobs (fst (commits i c ls dcs failed))).
  Proof. apply commits_inv. intros bs l f _ _ Hh. apply LInv_blob_put, Hh. Qed.

  Definition consistent (ls : list layer) : Prop :=
    forall l l', In l ls -> In l' ls -> l_d l = l_d l' -> l_size l = l_size l'.

  (** [all] is the manifest (consistency is about all of it), [ls] the layers whose closers are still to run *)
  Lemma commits_keep all ls l' i c dcs failed :
    consistent all -> incl ls all -> In l' all ->
    Good l' (p_blobs c) -> Good l' (p_blobs (fst (commits i c ls dcs failed))).
  Proof.
    intros Hcons Hsub Hin'. apply commits_inv. intros bs l f Hin Hlen Hh. apply Good_blob_put.
    intros Heq. split; [|congruence]. rewrite Hlen. apply Hcons; auto.
  Qed.

  Lemma commits_new all ls : forall i c dcs c',
    consistent all -> incl ls all ->
    commits i c ls dcs [] = (c', []) ->
    forall l dc, In (l, dc) (combine ls dcs) -> ld_cached dc = false -> ld_preval dc = false -> Good l (p_blobs c').
  Proof.
    induction ls as [|l0 ls IH]; intros i c dcs c' Hcons Hsub Hc l dc Hin Hnc Hnp; [destruct Hin|].
    destruct dcs as [|dc0 dcs]; [destruct Hin|]. cbn in Hc.
    assert (Hsub' : incl ls all) by (intros x Hx; apply Hsub; right; exact Hx).
    destruct (ld_cached dc0 || ld_preval dc0 || false || false) eqn:Eskip.
    - destruct (commits (S i) c ls dcs []) as [c2 es] eqn:E2. inversion Hc; subst.
      destruct Hin as [Heq | Hin]; [|apply (IH (S i) c dcs c' Hcons Hsub' E2 l dc); assumption].
      inversion Heq; subst. rewrite Hnc, Hnp in Eskip. discriminate.
    - destruct (commit_layer c l0) as [c1 [e|]] eqn:Ec;
        destruct (commits (S i) c1 ls dcs []) as [c2 es] eqn:E2; [discriminate|]. inversion Hc; subst.
      destruct Hin as [Heq | Hin]; [|apply (IH (S i) c1 dcs c' Hcons Hsub' E2 l dc); assumption].
      inversion Heq; subst. apply commit_layer_ok in Ec as [_ (f & Hb & Hlen & Hh)].
      pose proof (commits_keep all ls l (S i) c1 dcs [] Hcons Hsub' (Hsub _ (or_introl eq_refl))) as Hkeep.
      rewrite E2 in Hkeep. apply Hkeep. rewrite Hb. exists f.
      rewrite (blob_get_put D deq deq_spec), (deq_refl D deq deq_spec). auto.
  Qed.

  Lemma do_link_blobs (fl : bool) (c : cache D) p d :
    blobs (fst (do_link D deq H bufsz fl c p d)) = blobs c.
  Proof.
    unfold do_link. destruct (Model.blob_get D deq (blobs c) d) as [bf|]; [|reflexivity].
    destruct (copy_named_file D deq H _ d (length bf) (file_reads bufsz bf) None) as [fo st]. reflexivity.
  Qed.

  Theorem attempt_fail_links thr np c a es :
    snd (fst (pull_attempt thr np c a)) = PErr es -> p_links (fst (fst (pull_attempt thr np c a))) = p_links c.
  Proof.
    unfold Pull.pull_attempt. destruct (a_manifest a) as [e | ls data]; [reflexivity|].
    destruct ls as [|l0 ls']; [reflexivity|]. set (ls := l0 :: ls').
    destruct (list_layers_spec thr ls c (a_env a)) as (_ & Hl1 & _).
    destruct (list_layers thr c ls (a_env a)) as [c1 dcs]. cbn [fst] in Hl1.
    destruct (run_jobs_inv (fun _ => True) ls dcs (schedule (a_order a) dcs) (c1, [], []) (fun _ _ _ _ _ x => x))
      as (_ & Hl2 & _).
    destruct (fold_left (run_jobs_step ls dcs) (schedule (a_order a) dcs) (c1, [], [])) as [[c2 failed] errs].
    cbn [fst] in Hl2.
    destruct (commits_inv (fun _ => True) ls (fun _ _ _ _ _ _ x => x) 0 c2 dcs failed) as [_ Hl3].
    destruct (commits 0 c2 ls dcs failed) as [c3 cerrs]. cbn [fst] in Hl3.
    destruct (errs ++ cerrs) as [|e0 es0]; [|cbn; congruence].
    destruct (negb (sum_bytes dcs =? sum_sizes ls)); [cbn; congruence|].
    destruct (do_link D deq H bufsz fixed_link _ np (H data)) as [cl o]. cbn. discriminate.
  Qed.

  Theorem attempt_LInv thr np c a :
    LInv (p_blobs c) -> LInv (p_blobs (fst (fst (pull_attempt thr np c a)))).
  Proof.
    intros HL. unfold Pull.pull_attempt. destruct (a_manifest a) as [e | ls data]; [exact HL|].
    destruct ls as [|l0 ls']; [exact HL|]. set (ls := l0 :: ls').
    destruct (list_layers_spec thr ls c (a_env a)) as (Hb1 & _).
    destruct (list_layers thr c ls (a_env a)) as [c1 dcs]. cbn [fst] in Hb1. rewrite <- Hb1 in HL.
    destruct (run_jobs_inv LInv ls dcs (schedule (a_order a) dcs) (c1, [], []) (fun bs _ _ _ _ => put_bytes_LInv bs _))
      as (HL2 & _).
    destruct (fold_left (run_jobs_step ls dcs) (schedule (a_order a) dcs) (c1, [], [])) as [[c2 failed] errs].
    pose proof (commits_LInv ls 0 c2 dcs failed (HL2 HL)) as HL3.
    destruct (commits 0 c2 ls dcs failed) as [c3 cerrs]. cbn [fst] in HL3.
    destruct (errs ++ cerrs) as [|e0 es0]; [|exact HL3].
    destruct (negb (sum_bytes dcs =? sum_sizes ls)); [exact HL3|].
    pose proof (do_link_blobs fixed_link (mkC (put_bytes (p_blobs c3) data) (p_links c3)) np (H data)) as Hdl.
    destruct (do_link D deq H bufsz fixed_link _ np (H data)) as [cl o]. cbn [fst] in Hdl. cbn. rewrite Hdl. cbn.
    apply put_bytes_LInv. exact HL3.
  Qed.

  Theorem attempt_success thr np c a ls data :
    a_manifest a = MOk ls data ->
    snd (fst (pull_attempt thr np c a)) = POk ->
    LInv (p_blobs c) ->
    (forall l, In l ls -> l_size l = sz (l_d l)) ->
    forall l, In l ls -> 0 < l_size l ->
      H data <> l_d l -> (forall ld cd s n, H (mkey ld cd s n) <> l_d l) ->
      Good l (p_blobs (fst (fst (pull_attempt thr np c a)))).
  Proof.
    (* [Good l] is carried through the attempt: listing leaves the blobs alone, a download stores only a marker blob
       (Hsep2), a closer stores a verified layer (of the same size if of the same digest: Hcons), and the manifest
       blob is not l's (Hsep1).  It holds before the attempt if l was found cached, and from its own closer if not. *)
    intros Hm Hok HL Hsz l Hin Hpos Hsep1 Hsep2. unfold Pull.pull_attempt in *. rewrite Hm in *.
    destruct ls as [|l0 ls']; [destruct Hin|]. set (ls := l0 :: ls') in *.
    assert (Hcons : consistent ls).
    { intros x y Hx Hy Heq. rewrite (Hsz x Hx), (Hsz y Hy), Heq. reflexivity. }
    destruct (list_layers_spec thr ls c (a_env a)) as (Hb1 & _ & Hlen & Hlisted).
    destruct (list_layers thr c ls (a_env a)) as [c1 dcs]. cbn [fst snd] in *.
    destruct (run_jobs_inv (Good l) ls dcs (schedule (a_order a) dcs) (c1, [], [])
                (fun bs ld cd s n => Good_put_bytes l bs _ (Hsep2 ld cd s n))) as (HG2 & _ & Hfl).
    destruct (fold_left (run_jobs_step ls dcs) (schedule (a_order a) dcs) (c1, [], [])) as [[c2 failed] errs].
    cbn [fst snd] in *.
    pose proof (commits_keep ls ls l 0 c2 dcs failed Hcons (fun x Hx => Hx) Hin) as Hkeep.
    destruct (commits 0 c2 ls dcs failed) as [c3 cerrs] eqn:Ecom. cbn [fst] in Hkeep.
    destruct (errs ++ cerrs) as [|e0 es0] eqn:Ees; [|discriminate].
    apply app_eq_nil in Ees as [-> ->]. destruct failed; [|specialize (Hfl eq_refl); discriminate].
    destruct (negb (sum_bytes dcs =? sum_sizes ls)); [discriminate|].
    pose proof (do_link_blobs fixed_link (mkC (put_bytes (p_blobs c3) data) (p_links c3)) np (H data)) as Hdl.
    destruct (do_link D deq H bufsz fixed_link _ np (H data)) as [cl o]. cbn [fst] in Hdl. cbn [fst snd p_blobs].
    rewrite Hdl. cbn [blobs]. apply Good_put_bytes; [exact Hsep1|].
    destruct (In_combine_l ls dcs l (eq_sym Hlen) Hin) as [dc Hdc].
    destruct (Hlisted l dc Hdc) as [Hcached Hpreval].
    destruct (ld_cached dc) eqn:Ec.
    - (* cached: intact before the attempt by the store invariant *)
      destruct (Hcached eq_refl) as (f & Hg & Hlf & Hposf).
      apply Hkeep, HG2. rewrite Hb1. exists f. split; [exact Hg|]. split; [exact Hlf|].
      apply HL; [exact Hg | rewrite Hlf; apply Hsz; exact Hin | rewrite <- (Hsz l Hin); exact Hpos].
    - destruct (ld_preval dc) eqn:Ep; [specialize (Hpreval eq_refl eq_refl); lia|].
      apply (commits_new ls ls 0 c2 dcs c3 Hcons (fun x Hx => Hx) Ecom l dc Hdc Ec Ep).
  Qed.

  Definition pull_seq thr np (c : pcache) (atts : list (attempt D)) : pcache :=
    fold_left (fun c a => fst (fst (pull_attempt thr np c a))) atts c.

  Lemma pull_seq_LInv thr np atts c : LInv (p_blobs c) -> LInv (p_blobs (pull_seq thr np c atts)).
  Proof. apply (fold_left_inv _ (fun c => LInv (p_blobs c))). intros c' a. apply attempt_LInv. Qed.

  Notation pull_loop := (pull_loop D deq H mkey bufsz true fixed_link).

  Lemma pull_loop_LInv thr np atts : forall c, LInv (p_blobs c) -> LInv (p_blobs (fst (pull_loop thr np c atts))).
  Proof.
    induction atts as [|[a seen] atts IH]; intros c HL; cbn; [exact HL|].
    pose proof (attempt_LInv thr np c a HL) as HL1.
    destruct (pull_attempt thr np c a) as [[c' r] n]. cbn [fst] in HL1.
    destruct r; [exact HL1|]. destruct (retryable seen); [|exact HL1].
    specialize (IH c' HL1). destruct (pull_loop thr np c' atts) as [c'' rs]. exact IH.
  Qed.

  Lemma pull_loop_links thr np atts : forall c,
    Forall (fun r => r <> POk) (snd (pull_loop thr np c atts)) ->
    p_links (fst (pull_loop thr np c atts)) = p_links c.
  Proof.
    induction atts as [|[a seen] atts IH]; intros c Hall; cbn in *; [reflexivity|].
    pose proof (attempt_fail_links thr np c a) as Hf.
    destruct (pull_attempt thr np c a) as [[c' r] n]. cbn [fst snd] in *.
    destruct r as [|es].
    - inversion Hall; subst. congruence.
    - specialize (Hf es eq_refl). destruct (retryable seen); [|exact Hf].
      specialize (IH c'). destruct (pull_loop thr np c' atts) as [c'' rs]. cbn [fst snd] in *.
      inversion Hall; subst. rewrite IH by assumption. exact Hf.
  Qed.

End PullProofs.

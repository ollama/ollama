(** C17 - streaming, non-streaming and OpenAI-compatible responses carry the same result.  Theorems only.

    Reading guide.  A runner output [o : rout] is what the handler's callback receives: the content chunks and how
    Completion ended (final response | error | silent return).  [text_of o] is the text the model produced; two
    outputs with the same text and the same ending are two splits of one model output (the failure point is the
    position of the ending).  [stream_result] concatenates the NDJSON records of a stream up to its terminal
    record; [http_result] reads the single non-streamed body; [sse_result] / [v1_result] do the same for the /v1
    endpoints and [openai_of] is the OpenAI rendering of a native result (finish_reason tool_calls when calls
    are present, usage = prompt/eval counts).  The model describes the writers and the client with the fixes applied
    (fixes/C17-openai-stream-error.patch, fixes/C17-client-scanner-err.patch). *)
From Coq Require Import List NArith ZArith Bool Arith.
From V Require Import Common.Bytes Stream.Model Stream.Proofs.
Import ListNotations.

(** for every request shape (raw or not, final tokenization failing or not) and every two splits of the same
    output with the same ending (final response, error at any point, silent return): the streamed records
    concatenate to the non-streamed response: same text, done reason, counts, context - or the same error *)
Theorem C17_generate_equiv : forall cfg o1 o2,
  text_of o1 = text_of o2 -> ending o1 = ending o2 ->
  stream_result (gen_stream cfg o1) = http_result (gen_nonstream cfg o2).
Proof. intros cfg o1 o2 Ht He. rewrite gen_stream_result, gen_nonstream_result, Ht, He. reflexivity. Qed.
Print Assumptions C17_generate_equiv.

(** ... and the streamed result does not depend on the split *)
Theorem C17_generate_split_independent : forall cfg o1 o2,
  text_of o1 = text_of o2 -> ending o1 = ending o2 ->
  stream_result (gen_stream cfg o1) = stream_result (gen_stream cfg o2).
Proof. intros cfg o1 o2 Ht He. rewrite !gen_stream_result, Ht, He. reflexivity. Qed.
Print Assumptions C17_generate_split_independent.

Theorem C17_chat_equiv_no_tools : forall P s o1 o2,
  text_of o1 = text_of o2 -> ending o1 = ending o2 ->
  stream_result (chat_stream P (mkCc s false) o1) = http_result (chat_nonstream P false o2).
Proof. exact chat_equiv_no_tools. Qed.
Print Assumptions C17_chat_equiv_no_tools.

(** two raw requests with the same normal form (stream: absent = null = true; tools: absent = null = []) get the same
    streamed records and the same non-streamed response, for every parser and every runner output *)
Theorem C17_request_normalisation : forall q1 q2, norm_raw q1 = norm_raw q2 -> forall P o,
  chat_stream P (chat_cfg_of q1) o = chat_stream P (chat_cfg_of q2) o /\
  chat_nonstream P (chat_ns_tools_of q1) o = chat_nonstream P (chat_ns_tools_of q2) o.
Proof. intros q1 q2 H P o. destruct (norm_raw_cfg q1 q2 H) as [-> ->]. split; reflexivity. Qed.
Print Assumptions C17_request_normalisation.

(** for every raw request whose tools field is absent, null or an empty list - whatever its stream field - the streamed
    and the non-streamed response of any two splits carry the same result (the streaming callback and the non-stream
    parse read "tools requested" the same way: both are [tools_len_pos]) *)
Theorem C17_chat_equiv_raw_request : forall q, tools_len_pos (q_tools q) = false -> forall P o1 o2,
  text_of o1 = text_of o2 -> ending o1 = ending o2 ->
  stream_result (chat_stream P (chat_cfg_of q) o1) = http_result (chat_nonstream P (chat_ns_tools_of q) o2).
Proof.
  intros q Hq P o1 o2 Ht He. unfold chat_cfg_of, chat_ns_tools_of. rewrite Hq. apply chat_equiv_no_tools; assumption.
Qed.
Print Assumptions C17_chat_equiv_raw_request.

(** the agreement of the sites is needed: if the streaming callback asked `req.Tools != nil` while the non-stream parse
    asks `len(req.Tools) > 0`, the request {"tools": []} with a tool-call shaped output streams content "" plus a call
    and answers non-streamed with the text and no call *)
Theorem C17_tools_site_mismatch_refuted :
  ~ (forall q P o, stream_result (chat_stream P (mkCc true (tools_non_nil (q_tools q))) o) =
                   http_result (chat_nonstream P (tools_len_pos (q_tools q)) o)).
Proof.
  intros H. specialize (H (mkRaw JAbsent (JVal [])) Pm (mkOut [[33%N]] (FDone [] RStop zeroc))).
  vm_compute in H. discriminate.
Qed.
Print Assumptions C17_tools_site_mismatch_refuted.

Example C17_request_normalisation_nonvacuous :
  norm_raw (mkRaw JAbsent (JVal [])) = norm_raw (mkRaw JNull JAbsent) /\
  norm_raw (mkRaw (JVal true) JNull) = norm_raw (mkRaw JAbsent JAbsent) /\
  norm_raw (mkRaw JAbsent (JVal [[102%N]])) <> norm_raw (mkRaw JAbsent (JVal [])).
Proof. vm_compute. repeat split; try reflexivity. discriminate. Qed.

(** full statement: every native stream, however the runner ends *)
Definition C17_exactly_one_terminal_full : Prop :=
  forall cfg o, one_terminal_last is_terminal (gen_stream cfg o).

(** false when Completion returns without a final response and without an error (known finding
    C17-silent-runner-end): the stream is just the content records *)
Theorem C17_exactly_one_terminal_refuted : ~ C17_exactly_one_terminal_full.
Proof.
  intros H. specialize (H (mkG false false [104%N]) (mkOut [[72%N]; [105%N]] FSilent)).
  apply one_terminal_last_count in H. destruct H as [H _]. vm_compute in H. discriminate.
Qed.
Print Assumptions C17_exactly_one_terminal_refuted.

(** for every runner that ends with a final response or an error - after any number of chunks, with any
    request shape, any tool-call parser, tokenization failing or not - the NDJSON stream of /api/generate and
    of /api/chat consists of non-terminal records followed by exactly one terminal record *)
Theorem C17_exactly_one_terminal_partial : forall o, ending o <> FSilent ->
  (forall cfg, one_terminal_last is_terminal (gen_stream cfg o)) /\
  (forall P cfg, one_terminal_last is_terminal (chat_stream P cfg o)).
Proof.
  intros o Hs. split.
  - intros cfg. apply gen_items_terminal; exact Hs.
  - intros P cfg. apply chat_items_terminal; exact Hs.
Qed.
Print Assumptions C17_exactly_one_terminal_partial.

Example C17_exactly_one_terminal_nonvacuous :
  ending (mkOut [[72%N]; [105%N]] (FErr [98%N])) <> FSilent /\
  count_terminal (gen_stream (mkG false false [104%N]) (mkOut [[72%N]; [105%N]] (FErr [98%N]))) = 1 /\
  length (gen_stream (mkG false false [104%N]) (mkOut [[72%N]; [105%N]] (FErr [98%N]))) = 3.
Proof. split; [discriminate|]. vm_compute. split; reflexivity. Qed.

(** what the handlers need from llm.LlamaServer.Completion.  For ANY callback trace (any number of final responses
    anywhere, callbacks after a final response, any return value - e.g. "done then fault": a final response
    followed by an error return), every request shape and every parser, the NDJSON stream carries exactly one
    terminal record per final response plus one per error return ... *)
Theorem C17_terminal_count : forall t,
  (forall cfg, count_terminal (gen_trace_stream cfg t) = finals t + errs t) /\
  (forall P cfg, count_terminal (chat_trace_stream P cfg t) = finals t + errs t).
Proof. intros t. split; [intros; apply gen_trace_count|intros; apply chat_trace_count]. Qed.
Print Assumptions C17_terminal_count.

(** ... so "exactly one final message or one error" holds for the API stream iff it holds for Completion itself; and
    when Completion keeps its contract ([contractb]: at most one final response, nothing after it, an error return
    iff there is none - tested on the real llmServer.Completion against a scripted runner on every run), the stream
    is the one of C17_exactly_one_terminal_partial: non-terminal records, then exactly one terminal record *)
Theorem C17_exactly_one_terminal_under_contract : forall t, contractb t = true ->
  (forall cfg, one_terminal_last is_terminal (gen_trace_stream cfg t)) /\
  (forall P cfg, one_terminal_last is_terminal (chat_trace_stream P cfg t)).
Proof.
  intros t H. destruct (contract_trace t H) as (o & Hs & ->). split.
  - intros cfg. rewrite gen_trace_of. apply gen_items_terminal; exact Hs.
  - intros P cfg. rewrite chat_trace_of. apply chat_items_terminal; exact Hs.
Qed.
Print Assumptions C17_exactly_one_terminal_under_contract.

(** the contract is needed: a Completion that delivers the final response and then reports a fault makes the handlers
    send done:true AND an error line *)
Theorem C17_done_then_fault_refuted :
  ~ (forall t cfg, finals t >= 1 -> one_terminal_last is_terminal (gen_trace_stream cfg t)).
Proof.
  intros H.
  specialize (H (mkTrace [CChunk [72%N]; CFinal [] RStop zeroc] (Some [69%N])) (mkG true false []) (le_n _)).
  apply one_terminal_last_count in H. destruct H as [H _]. vm_compute in H. discriminate.
Qed.
Print Assumptions C17_done_then_fault_refuted.

Example C17_contract_nonvacuous :
  contractb (mkTrace [CChunk [72%N]; CFinal [] RStop zeroc] None) = true /\
  contractb (mkTrace [CChunk [72%N]] (Some [69%N])) = true /\
  contractb (mkTrace [CChunk [72%N]; CFinal [] RStop zeroc] (Some [69%N])) = false /\
  contractb (mkTrace [CFinal [] RStop zeroc; CChunk [72%N]] None) = false /\
  contractb (mkTrace [CChunk [72%N]] None) = false /\
  count_terminal (gen_trace_stream (mkG true false []) (mkTrace [CChunk [72%N]; CFinal [] RStop zeroc] (Some [69%N]))) = 2.
Proof. vm_compute. repeat split; reflexivity. Qed.

(** the same through the OpenAI writers: one [DONE] marker or one error event, last *)
Theorem C17_openai_exactly_one_terminal : forall o, ending o <> FSilent ->
  (forall u cfg, one_terminal_last sse_terminal (v1comp_stream u (gen_stream cfg o))) /\
  (forall u P cfg, one_terminal_last sse_terminal (v1chat_stream u false (chat_stream P cfg o))).
Proof.
  intros o Hs. split.
  - intros u cfg. rewrite v1comp_plain by apply gen_items_plain.
    apply v1chat_stream_terminal, gen_items_terminal; exact Hs.
  - intros u P cfg. apply v1chat_stream_terminal, chat_items_terminal; exact Hs.
Qed.
Print Assumptions C17_openai_exactly_one_terminal.

(** api.Client.stream (with `return scanner.Err()`): over a response whose lines end with exactly one terminal
    line - of any lengths, any status, possibly with undecodable lines before it - the caller gets either nil
    and exactly one final message (the last delivered), or an error and no final message *)
Theorem C17_client_exactly_one_terminal : forall max status ls,
  one_terminal_last line_terminal ls ->
  let '(d, r) := client_stream true max status ls in
  (r = COk /\ one_terminal_last line_terminal d) \/
  (exists e, r = CFail e /\ forallb (fun x => negb (line_terminal x)) d = true).
Proof.
  intros max status ls H. rewrite client_stream_as_cut.
  pose proof (client_cut_terminal max status ls [] CutNone) as T. rewrite app_nil_r in T. specialize (T H eq_refl).
  destruct (client_stream_cut true max status ls CutNone) as [d r].
  destruct T as [T|[T|(e & _ & _ & [])]]; [left|right]; exact T.
Qed.
Print Assumptions C17_client_exactly_one_terminal.

(** the client without the scanner.Err() check on a final line of 512000 bytes: nil and no final message *)
Theorem C17_client_unchecked_refuted :
  ~ (forall max status ls, one_terminal_last line_terminal ls ->
       let '(d, r) := client_stream false max status ls in
       (r = COk /\ one_terminal_last line_terminal d) \/ (exists e, r = CFail e)).
Proof.
  intros H. specialize (H 512000%N 200%Z [LMsg 512000 true] (one_terminal_last_single _ _ eq_refl)).
  vm_compute in H. destruct H as [[_ (pre & t & E & _)]|[e E]]; [destruct pre; discriminate|discriminate].
Qed.
Print Assumptions C17_client_unchecked_refuted.

(** the same under transport faults: the reader receives any prefix of the body - the complete lines [ls] and then, per
    [c], nothing more (CutBetween), a proper part of the next line (CutInside), or the next line without its newline
    (CutBeforeNewline) - and then a read error instead of the end of the body (chunked terminator / Content-Length not
    reached).  For every stream [ls ++ tail] with exactly one terminal line (last), any lengths, any status: the
    client with the scanner.Err() check never returns nil without a final message; it returns an error and no final message - except when the whole
    content of the final line had arrived (only the newline or the end-of-body marker was lost): then the final message
    was delivered and the call still reports the transport error. *)
Theorem C17_client_transport_fault : forall max status ls tail c,
  one_terminal_last line_terminal (ls ++ tail) ->
  match c with
  | CutNone => tail = []
  | CutBetween => True
  | CutInside _ => tail <> []
  | CutBeforeNewline l => exists tl, tail = l :: tl
  end ->
  let '(d, r) := client_stream_cut true max status ls c in
  (r = COk /\ one_terminal_last line_terminal d) \/
  (exists e, r = CFail e /\ nonterm d) \/
  (exists e, r = CFail e /\ one_terminal_last line_terminal d /\
             match c with CutBetween => tail = [] | CutBeforeNewline l => tail = [l] | _ => False end).
Proof. exact client_cut_terminal. Qed.
Print Assumptions C17_client_transport_fault.

(** a client that ends its loop silently on a read error (no scanner.Err() check; equally a json.Decoder loop
    `for dec.More() {...}; return nil`) returns nil with no final message when the connection is lost between two lines *)
Theorem C17_client_transport_fault_unchecked_refuted :
  ~ (forall max status ls tail c,
       one_terminal_last line_terminal (ls ++ tail) ->
       let '(d, r) := client_stream_cut false max status ls c in
       (r = COk /\ one_terminal_last line_terminal d) \/ (exists e, r = CFail e)).
Proof.
  intros H. specialize (H 512000%N 200%Z [LMsg 70 false] [LMsg 80 true] CutBetween).
  assert (W : one_terminal_last line_terminal ([LMsg 70 false] ++ [LMsg 80 true])).
  { exists [LMsg 70 false], (LMsg 80 true). repeat split; reflexivity. }
  specialize (H W). vm_compute in H.
  destruct H as [[_ (pre & t & E & Ht & _)]|[e E]]; [|discriminate].
  destruct pre as [|p [|q pre]]; inversion E; subst; discriminate.
Qed.
Print Assumptions C17_client_transport_fault_unchecked_refuted.

Example C17_client_transport_fault_nonvacuous :
  client_stream_cut true 512000 200 [LMsg 70 false] CutBetween = ([LMsg 70 false], CFail ETransport) /\
  client_stream_cut true 512000 200 [LMsg 70 false] (CutInside 10) = ([LMsg 70 false], CFail EUnmarshal) /\
  client_stream_cut true 512000 200 [LMsg 70 false] (CutBeforeNewline (LMsg 80 true)) = ([LMsg 70 false; LMsg 80 true], CFail ETransport) /\
  client_stream_cut true 512000 200 [LMsg 70 false; LMsg 80 true] CutNone = ([LMsg 70 false; LMsg 80 true], COk).
Proof. vm_compute. repeat split; reflexivity. Qed.

(** full statement: for every tool-call parser *)
Definition C17_chat_equiv_tools_full : Prop :=
  forall (P : str -> option (list (str * str))) o1 o2,
    text_of o1 = text_of o2 -> ending o1 = ending o2 ->
    ending o1 <> FSilent -> fin_content (ending o1) = [] ->
    stream_result (chat_stream P (mkCc true true) o1) = http_result (chat_nonstream P true o2).

(** false (known finding C17-tools-split-dependent): with a parser that, like parseObjects, reads calls left to
    right and ignores an unfinished one at the end, the chunks "<a><b" "c>" stream the call a only (the buffer
    holding "<b" is cleared when a is reported) while the non-streamed response has a and bc *)
Theorem C17_chat_equiv_tools_refuted : ~ C17_chat_equiv_tools_full.
Proof.
  intros H.
  specialize (H P0 (mkOut [[60;97;62;60;98]%N; [99;62]%N] (FDone [] RStop zeroc))
                   (mkOut [[60;97;62;60;98]%N; [99;62]%N] (FDone [] RStop zeroc)) eq_refl eq_refl).
  assert (E : FDone [] RStop zeroc <> FSilent) by discriminate.
  specialize (H E eq_refl). vm_compute in H. discriminate.
Qed.
Print Assumptions C17_chat_equiv_tools_refuted.

(** ... and the streamed tool calls depend on the split *)
Theorem C17_chat_tools_split_dependent :
  exists P o1 o2, text_of o1 = text_of o2 /\ ending o1 = ending o2 /\
    stream_result (chat_stream P (mkCc true true) o1) <> stream_result (chat_stream P (mkCc true true) o2).
Proof.
  exists P0, (mkOut [[60;97;62;60;98]%N; [99;62]%N] (FDone [] RStop zeroc)),
             (mkOut [[60;97;62]%N; [60;98;99;62]%N] (FDone [] RStop zeroc)).
  split; [reflexivity|]. split; [reflexivity|]. vm_compute. discriminate.
Qed.
Print Assumptions C17_chat_tools_split_dependent.

(** for every parser that never succeeds with an empty list and is additive over concatenation once it has
    succeeded on the left part (P a = Some ca -> P (a ++ b) = Some (ca ++ cb) when P b = Some cb, Some ca when
    P b = None), every two splits of one output, every failure point, final response without content (the
    llm.Completion contract): the streamed records carry the same text, tool calls (name, arguments), done
    reason and counts as the non-streamed response.  The hypothesis is evaluated on the real parseToolCalls by
    the check on every split where the modes disagree. *)
Theorem C17_chat_equiv_tools_partial : forall P, parser_nonempty P -> parser_additive P -> forall o1 o2,
  text_of o1 = text_of o2 -> ending o1 = ending o2 ->
  ending o1 <> FSilent -> fin_content (ending o1) = [] ->
  stream_result (chat_stream P (mkCc true true) o1) = http_result (chat_nonstream P true o2).
Proof. exact chat_equiv_tools_partial. Qed.
Print Assumptions C17_chat_equiv_tools_partial.

(** the hypotheses are satisfiable by a parser that finds calls (every '!' is a call), and the theorem then
    speaks about streams that do carry tool calls: "a!b" "!" streams two calls *)
Example C17_chat_equiv_tools_nonvacuous :
  parser_nonempty Pm /\ parser_additive Pm /\
  stream_result (chat_stream Pm (mkCc true true) (mkOut [[97;33;98]%N; [33]%N] (FDone [] RLength (mkC 3 7 5 9)))) =
  ROk [] [([33%N], []); ([33%N], [])] s_length (mkC 3 7 5 9) None.
Proof. split; [exact Pm_nonempty|]. split; [exact Pm_additive|]. vm_compute. reflexivity. Qed.

(** /v1/completions, stream (with or without usage) and non-stream, for every split: the SSE events
    concatenate to, and the completion object is, the OpenAI rendering of the one native result *)
Theorem C17_openai_same_content_generate : forall cfg o,
  (forall u, sse_result (v1comp_stream u (gen_stream cfg o)) = openai_of u (stream_result (gen_stream cfg o))) /\
  (ending o <> FSilent ->
   v1_result (v1comp_nonstream (gen_nonstream cfg o)) = openai_of true (http_result (gen_nonstream cfg o))).
Proof.
  intros cfg o. split.
  - intros u. rewrite openai_gen_stream, gen_stream_result. reflexivity.
  - intros Hs. rewrite openai_gen_nonstream, gen_nonstream_result by exact Hs. reflexivity.
Qed.
Print Assumptions C17_openai_same_content_generate.

(** /v1/chat/completions: without tools for every parser; with tools when the parser does not succeed on the
    empty string and the final runner response carries no content (so that no call arrives in the final record);
    non-stream: unless tool calls meet the empty done reason of a closed connection *)
Theorem C17_openai_same_content_chat : forall P cfg o,
  (negb (c_stream cfg) || negb (c_tools cfg) = true \/ (P [] = None /\ fin_content (ending o) = [])) ->
  (forall u, sse_result (v1chat_stream u false (chat_stream P cfg o)) = openai_of u (stream_result (chat_stream P cfg o))) /\
  (forall tools,
     match ending o with
     | FDone _ r _ => tools = false \/ r <> RClosed
     | FErr _ => True
     | FSilent => False
     end ->
     v1_result (v1chat_nonstream (chat_nonstream P tools o)) = openai_of true (http_result (chat_nonstream P tools o))).
Proof.
  intros P cfg o H. split.
  - intros u. apply openai_chat_stream. exact H.
  - intros tools Ht. apply openai_chat_nonstream. exact Ht.
Qed.
Print Assumptions C17_openai_same_content_chat.

(** tool-call indices.  An OpenAI client rebuilds the tool calls of a streamed /v1/chat/completions by merging the
    tool_calls deltas of all chunks by their index ([reassemble]: same index = concatenate name and arguments).
    For every parser, request shape, split and ending: the streamed deltas carry the handler's running toolCallIndex,
    so merging by index gives back exactly the calls of the native stream, one per call, in order *)
Theorem C17_openai_tool_index_stream : forall P cfg u o,
  reassemble (sse_calls (v1chat_stream u false (chat_stream P cfg o))) = strip (rec_calls (chat_stream P cfg o)).
Proof. exact openai_tool_index_stream. Qed.
Print Assumptions C17_openai_tool_index_stream.

(** ... and, under the parser hypotheses of C17_chat_equiv_tools_partial, for any two splits of one output that ends
    with a final response: the reassembled calls are the tool_calls list of the non-streamed /v1 response *)
Theorem C17_openai_tool_index_consistent : forall P, parser_nonempty P -> parser_additive P -> forall u o1 o2 r cnt,
  text_of o1 = text_of o2 -> ending o1 = FDone [] r cnt -> ending o2 = ending o1 ->
  reassemble (sse_calls (v1chat_stream u false (chat_stream P (mkCc true true) o1))) =
  v1_calls (v1chat_nonstream (chat_nonstream P true o2)).
Proof.
  (* the native results are equal, and each /v1 response carries the calls of its native result *)
  intros P Hne Hadd u o1 o2 r cnt Ht He1 He2. rewrite openai_tool_index_stream, v1_calls_result.
  assert (Hs : ending o1 <> FSilent) by (rewrite He1; discriminate).
  pose proof (stream_result_calls _ (chat_items_terminal P (mkCc true true) _ Hs (chunks o1) ([], 0))) as Hc.
  fold (chat_stream P (mkCc true true) o1) in Hc.
  rewrite (chat_equiv_tools_partial P Hne Hadd o1 o2 Ht (eq_sym He2) Hs) in Hc by (rewrite He1; reflexivity).
  rewrite chat_nonstream_result, He2, He1 in *. cbn [chat_ns_ideal] in *.
  destruct (P (text_of o2)); symmetry; exact Hc.
Qed.
Print Assumptions C17_openai_tool_index_consistent.

(** two calls in two chunks and two calls in one chunk reassemble to the same two calls; with every delta at index 0
    (what `Index = position inside the converted message` would produce) the merge collapses them into one *)
Example C17_openai_tool_index_nonvacuous :
  reassemble (sse_calls (v1chat_stream false false (chat_stream Pm (mkCc true true) (mkOut [[33]%N; [33]%N] (FDone [] RStop zeroc))))) =
    [([33%N], []); ([33%N], [])] /\
  reassemble (sse_calls (v1chat_stream false false (chat_stream Pm (mkCc true true) (mkOut [[33;33]%N] (FDone [] RStop zeroc))))) =
    [([33%N], []); ([33%N], [])] /\
  reassemble [mkCall [97%N] [49%N] 0; mkCall [98%N] [50%N] 0] = [([97;98]%N, [49;50]%N)].
Proof. vm_compute. repeat split; reflexivity. Qed.

(** all four views of one generate output and of one chat output without tools, for any two splits *)
Theorem C17_openai_same_content : forall o1 o2,
  text_of o1 = text_of o2 -> ending o1 = ending o2 -> ending o1 <> FSilent ->
  (forall cfg u,
     sse_result (v1comp_stream u (gen_stream cfg o1)) = openai_of u (http_result (gen_nonstream cfg o2)) /\
     v1_result (v1comp_nonstream (gen_nonstream cfg o1)) = openai_of true (stream_result (gen_stream cfg o2))) /\
  (forall P s u,
     sse_result (v1chat_stream u false (chat_stream P (mkCc s false) o1)) = openai_of u (http_result (chat_nonstream P false o2)) /\
     v1_result (v1chat_nonstream (chat_nonstream P false o1)) = openai_of true (stream_result (chat_stream P (mkCc s false) o2))).
Proof.
  intros o1 o2 Ht He Hs. split.
  - intros cfg u. split.
    + rewrite openai_gen_stream, gen_nonstream_result, Ht, He. reflexivity.
    + rewrite openai_gen_nonstream, gen_stream_result, Ht, He by exact Hs. reflexivity.
  - intros P s u. split.
    + rewrite openai_chat_stream by (left; cbn; apply orb_true_r).
      rewrite (chat_equiv_no_tools P s o1 o2 Ht He). reflexivity.
    + rewrite openai_chat_nonstream.
      * rewrite <- (chat_equiv_no_tools P s o2 o1 (eq_sym Ht) (eq_sym He)). reflexivity.
      * destruct (ending o1); auto.
Qed.
Print Assumptions C17_openai_same_content.

Example C17_openai_same_content_nonvacuous :
  sse_result (v1chat_stream true false (chat_stream P0 (mkCc true false) (mkOut [[72]%N; [105]%N] (FDone [] RStop (mkC 3 7 5 9))))) =
  OOk [72;105]%N [] (Some s_stop) (Some (3, 5)%Z).
Proof. vm_compute. reflexivity. Qed.

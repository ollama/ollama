(** C17 - lemmas about Stream/Model.v.  A handler stream is non-terminal records followed by an end; the readers
    are characterised once on such lists. *)
From Coq Require Import List NArith ZArith Bool Arith Lia.
From V Require Import Common.Bytes Stream.Model.
Import ListNotations.

Definition one_terminal_last {A} (p : A -> bool) (l : list A) : Prop :=
  exists pre t, l = pre ++ [t] /\ p t = true /\ forallb (fun x => negb (p x)) pre = true.

Definition body {A} (p : A -> bool) (l : list A) : Prop := forallb (fun x => negb (p x)) l = true.

Lemma body_app {A} (p : A -> bool) a b : body p (a ++ b) <-> body p a /\ body p b.
Proof. unfold body. rewrite forallb_app. apply andb_true_iff. Qed.

Lemma one_terminal_last_app {A} (p : A -> bool) a l :
  body p a -> one_terminal_last p l -> one_terminal_last p (a ++ l).
Proof.
  intros Ha (pre & t & -> & Ht & Hpre). exists (a ++ pre), t.
  rewrite app_assoc. repeat split; auto. apply body_app. auto.
Qed.

Lemma one_terminal_last_cons {A} (p : A -> bool) x l :
  p x = false -> one_terminal_last p l -> one_terminal_last p (x :: l).
Proof. intros Hx. apply (one_terminal_last_app p [x]). unfold body. cbn. rewrite Hx. reflexivity. Qed.

Lemma one_terminal_last_single {A} (p : A -> bool) t : p t = true -> one_terminal_last p [t].
Proof. intros Ht. exists [], t. repeat split; auto. Qed.

Lemma filter_none {A} (p : A -> bool) l : body p l -> filter p l = [].
Proof. unfold body. induction l as [|x l IH]; cbn; [reflexivity|]. destruct (p x); [discriminate|exact IH]. Qed.

Lemma one_terminal_last_count {A} (p : A -> bool) l :
  one_terminal_last p l -> length (filter p l) = 1 /\ last_is p l = true.
Proof.
  intros (pre & t & -> & Ht & Hpre). split.
  - rewrite filter_app, (filter_none p pre Hpre). cbn. rewrite Ht. reflexivity.
  - unfold last_is. rewrite rev_app_distr. exact Ht.
Qed.

Lemma one_terminal_last_prefix {A} (p : A -> bool) a x b :
  one_terminal_last p (a ++ x :: b) -> body p a.
Proof.
  intros (pre & t & E & _ & Hpre). apply (f_equal (@removelast A)) in E.
  rewrite removelast_app, removelast_last in E by discriminate. subst pre.
  apply body_app in Hpre. apply Hpre.
Qed.

Definition rec_text (l : list nrec) : str :=
  flat_map (fun r => match r with Msg c _ _ _ _ _ => c | ErrRec _ => [] end) l.

Lemma strip_app a b : strip (a ++ b) = strip a ++ strip b.
Proof. apply map_app. Qed.

Lemma strip_mk (f : str * str -> nat) l : strip (map (fun na => mkCall (fst na) (snd na) (f na)) l) = l.
Proof. unfold strip. rewrite map_map. cbn. rewrite <- (map_id l) at 2. apply map_ext. intros []; reflexivity. Qed.

Lemma strip_number : forall calls i, strip (number i calls) = calls.
Proof. induction calls as [|[n a] l IH]; intros i; cbn; [reflexivity|]. unfold strip in IH. rewrite IH. reflexivity. Qed.

Lemma stream_result_app rest : forall pre t a,
  body is_terminal pre ->
  stream_result_from t a (pre ++ rest) = stream_result_from (t ++ rec_text pre) (a ++ strip (rec_calls pre)) rest.
Proof.
  induction pre as [|[c cl [|] rs cnt x|m] pre IH]; intros t a H; try discriminate H.
  - cbn. rewrite !app_nil_r. reflexivity.
  - cbn [app stream_result_from]. rewrite IH by exact H.
    cbn [rec_text rec_calls flat_map]. rewrite strip_app, !app_assoc. reflexivity.
Qed.

Definition result_calls (r : result) : list (str * str) :=
  match r with ROk _ cl _ _ _ | RUnfinished _ cl => cl | RFail _ => [] end.

(** a reader stopped by an error record forgets the calls it has seen: that case is left out *)
Lemma stream_result_calls recs : one_terminal_last is_terminal recs ->
  match stream_result recs with RFail _ => True | r => result_calls r = strip (rec_calls recs) end.
Proof.
  intros (pre & t & -> & Ht & Hpre). unfold stream_result. rewrite stream_result_app by exact Hpre.
  unfold rec_calls. rewrite flat_map_app, strip_app. destruct t as [c cl d rs cnt x|m]; [|exact I].
  cbn in Ht. subst d. cbn. rewrite app_nil_r. reflexivity.
Qed.

(** the record of a content callback, in /api/generate and in a pass-through /api/chat *)
Definition chunk_rec (c : str) : nrec := Msg c [] false [] zeroc None.

Lemma chunk_recs_body cs : body is_terminal (map chunk_rec cs).
Proof. unfold body. induction cs; auto. Qed.

Lemma chunk_recs_text cs : rec_text (map chunk_rec cs) = concat cs.
Proof. unfold rec_text. induction cs as [|c cs IH]; cbn; [|rewrite IH]; reflexivity. Qed.

Lemma chunk_recs_calls cs : rec_calls (map chunk_rec cs) = [].
Proof. induction cs; auto. Qed.

(** [text] is the whole text: the context is prompt ++ text *)
Definition gen_end (cfg : gcfg) (text : str) (f : fin) : list nrec :=
  match f with
  | FDone content r cnt => gen_done cfg text content r cnt
  | FErr m => [ErrRec m]
  | FSilent => []
  end.

Lemma gen_items_eq cfg f : forall cs sb,
  gen_items cfg sb cs f = map chunk_rec cs ++ gen_end cfg (sb ++ concat cs ++ fin_content f) f.
Proof.
  induction cs as [|c cs IH]; intros sb; cbn [gen_items map concat app].
  - destruct f; reflexivity.
  - rewrite IH, <- !app_assoc. reflexivity.
Qed.

Lemma gen_end_terminal cfg text f : f <> FSilent -> one_terminal_last is_terminal (gen_end cfg text f).
Proof.
  destruct f as [content r cnt|m|]; [| |congruence]; intros _; cbn [gen_end].
  - unfold gen_done. destruct (g_raw cfg); [|destruct (g_tokfail cfg)]; apply one_terminal_last_single; reflexivity.
  - apply one_terminal_last_single; reflexivity.
Qed.

Lemma gen_items_terminal cfg f : f <> FSilent -> forall cs sb,
  one_terminal_last is_terminal (gen_items cfg sb cs f).
Proof.
  intros Hf cs sb. rewrite gen_items_eq.
  apply one_terminal_last_app; [apply chunk_recs_body|apply gen_end_terminal, Hf].
Qed.

Definition gen_ideal (cfg : gcfg) (text : str) (f : fin) : result :=
  match f with
  | FDone _ r c =>
      if g_raw cfg then ROk text [] (reason_str r) c None
      else if g_tokfail cfg then RFail tokfail_msg
      else ROk text [] (reason_str r) c (Some (g_prompt cfg ++ text))
  | FErr m => RFail m
  | FSilent => RUnfinished text []
  end.

Lemma gen_stream_result cfg o : stream_result (gen_stream cfg o) = gen_ideal cfg (text_of o) (ending o).
Proof.
  unfold stream_result, gen_stream, text_of. rewrite gen_items_eq, stream_result_app by apply chunk_recs_body.
  rewrite chunk_recs_text, chunk_recs_calls. destruct (ending o) as [content r cnt|m|]; cbn.
  - unfold gen_done. destruct (g_raw cfg); [|destruct (g_tokfail cfg)]; reflexivity.
  - reflexivity.
  - rewrite app_nil_r. reflexivity.
Qed.

Lemma ns_fold_chunks rest : forall cs sb c0,
  ns_fold sb (chunk_rec c0) (map chunk_rec cs ++ rest) =
  ns_fold (sb ++ concat cs) (chunk_rec (last (c0 :: cs) [])) rest.
Proof.
  induction cs as [|c cs IH]; intros sb c0; cbn [map concat app ns_fold chunk_rec].
  - rewrite app_nil_r. reflexivity.
  - fold (chunk_rec c). rewrite IH, app_assoc. reflexivity.
Qed.

Lemma gen_nonstream_eq cfg o :
  gen_nonstream cfg o =
  match gen_end cfg (text_of o) (ending o) with
  | [] => Http 200 (chunk_rec (text_of o))
  | Msg _ cl d rs cnt x :: _ => Http 200 (Msg (text_of o) cl d rs cnt x)
  | ErrRec m :: _ => Http 500 (ErrRec m)
  end.
Proof.
  unfold gen_nonstream, gen_stream. rewrite gen_items_eq. change zero_msg with (chunk_rec []).
  rewrite ns_fold_chunks. cbn [app]. unfold text_of.
  destruct (ending o) as [content r cnt|m|]; cbn [gen_end fin_content].
  - unfold gen_done. destruct (g_raw cfg); [|destruct (g_tokfail cfg)]; reflexivity.
  - reflexivity.
  - cbn. rewrite app_nil_r. reflexivity.
Qed.

Lemma gen_nonstream_result cfg o : http_result (gen_nonstream cfg o) = gen_ideal cfg (text_of o) (ending o).
Proof.
  rewrite gen_nonstream_eq. destruct (ending o) as [content r cnt|m|]; try reflexivity.
  cbn. unfold gen_done. destruct (g_raw cfg); [|destruct (g_tokfail cfg)]; reflexivity.
Qed.

(** a pass-through chat (stream=false, or no tools requested) is a raw generate *)
Definition raw_cfg : gcfg := mkG true false [].

Section ChatProofs.
  Variable P : str -> option (list (str * str)).

  Lemma chat_step_nondone cfg st c rs cnt :
    body is_terminal (snd (chat_step P cfg st c false rs cnt)).
  Proof.
    unfold chat_step. destruct st as [sb idx].
    destruct (negb (c_stream cfg) || negb (c_tools cfg)); [reflexivity|].
    destruct (P (sb ++ c)); reflexivity.
  Qed.

  Lemma chat_step_done cfg st c rs cnt :
    exists t, snd (chat_step P cfg st c true rs cnt) = [t] /\ is_terminal t = true.
  Proof.
    unfold chat_step. destruct st as [sb idx].
    destruct (negb (c_stream cfg) || negb (c_tools cfg)); [eexists; split; reflexivity|].
    destruct (P (sb ++ c)); eexists; split; reflexivity.
  Qed.

  (** the records of the content callbacks, then what the state they leave makes of the ending *)
  Lemma chat_items_body cfg f : forall cs st, exists pre st',
    body is_terminal pre /\ chat_items P cfg st cs f = pre ++ chat_items P cfg st' [] f.
  Proof.
    induction cs as [|c cs IH]; intros st.
    - exists [], st. split; reflexivity.
    - cbn [chat_items]. pose proof (chat_step_nondone cfg st c [] zeroc) as Hn.
      destruct (chat_step P cfg st c false [] zeroc) as [st1 out]. cbn [snd] in Hn.
      destruct (IH st1) as (pre & st' & Hpre & ->). exists (out ++ pre), st'.
      rewrite app_assoc. split; [apply body_app; auto|reflexivity].
  Qed.

  Lemma chat_items_terminal cfg f : f <> FSilent -> forall cs st,
    one_terminal_last is_terminal (chat_items P cfg st cs f).
  Proof.
    intros Hf cs st. destruct (chat_items_body cfg f cs st) as (pre & st' & Hpre & ->).
    apply one_terminal_last_app; [exact Hpre|]. cbn [chat_items].
    destruct f as [content r cnt|m|]; [| |congruence].
    - destruct (chat_step_done cfg st' content (reason_str r) cnt) as (t & -> & Ht).
      now apply one_terminal_last_single.
    - now apply one_terminal_last_single.
  Qed.

  Lemma chat_items_err m cfg cs st t a :
    stream_result_from t a (chat_items P cfg st cs (FErr m)) = RFail m.
  Proof.
    destruct (chat_items_body cfg (FErr m) cs st) as (pre & st' & Hpre & ->).
    rewrite stream_result_app by exact Hpre. reflexivity.
  Qed.

  (** any [sb]: a raw generate builds no context, so its string builder is never read *)
  Lemma chat_items_pass cfg f : negb (c_stream cfg) || negb (c_tools cfg) = true ->
    forall cs st sb, chat_items P cfg st cs f = gen_items raw_cfg sb cs f.
  Proof.
    intros Hp. induction cs as [|c cs IH]; intros [b idx] sb; cbn [chat_items gen_items].
    - destruct f; try reflexivity. unfold chat_step. rewrite Hp. reflexivity.
    - unfold chat_step at 1. rewrite Hp. cbn [app]. f_equal. apply IH.
  Qed.

  Lemma chat_stream_pass cfg o : negb (c_stream cfg) || negb (c_tools cfg) = true ->
    chat_stream P cfg o = gen_stream raw_cfg o.
  Proof. intros Hp. apply chat_items_pass, Hp. Qed.

  Lemma chat_ns_fold tools o :
    ns_fold [] zero_msg (chat_stream P (mkCc false tools) o) =
    match ending o with
    | FDone _ r cnt => Http 200 (Msg (text_of o) [] true (reason_str r) cnt None)
    | FErr m => Http 500 (ErrRec m)
    | FSilent => Http 200 (set_content zero_msg (text_of o))
    end.
  Proof.
    rewrite chat_stream_pass by reflexivity. fold (gen_nonstream raw_cfg o). rewrite gen_nonstream_eq.
    destruct (ending o); reflexivity.
  Qed.

  Definition chat_ns_ideal (tools : bool) (text : str) (f : fin) : result :=
    match f with
    | FDone _ r c =>
        if tools then match P text with
                      | Some calls => ROk [] calls (reason_str r) c None
                      | None => ROk text [] (reason_str r) c None
                      end
        else ROk text [] (reason_str r) c None
    | FErr m => RFail m
    | FSilent =>
        if tools then match P text with
                      | Some calls => RUnfinished [] calls
                      | None => RUnfinished text []
                      end
        else RUnfinished text []
    end.

  Lemma chat_nonstream_result tools o :
    http_result (chat_nonstream P tools o) = chat_ns_ideal tools (text_of o) (ending o).
  Proof.
    unfold chat_nonstream. rewrite chat_ns_fold. destruct (ending o) as [content r cnt|m|]; cbn.
    - destruct tools; [|reflexivity]. destruct (P (text_of o)); cbn; [rewrite (strip_mk (fun _ => 0))|]; reflexivity.
    - reflexivity.
    - destruct tools; [|reflexivity]. destruct (P (text_of o)); cbn; [rewrite (strip_mk (fun _ => 0))|]; reflexivity.
  Qed.

  Lemma gen_chat_ideal text f : gen_ideal raw_cfg text f = chat_ns_ideal false text f.
  Proof. destruct f; reflexivity. Qed.

  Lemma chat_equiv_no_tools s o1 o2 :
    text_of o1 = text_of o2 -> ending o1 = ending o2 ->
    stream_result (chat_stream P (mkCc s false) o1) = http_result (chat_nonstream P false o2).
  Proof.
    intros Ht He. rewrite chat_stream_pass by (cbn; apply orb_true_r).
    rewrite gen_stream_result, chat_nonstream_result, Ht, He. apply gen_chat_ideal.
  Qed.

  Definition parser_nonempty : Prop := forall s, P s <> Some [].
  Definition parser_additive : Prop :=
    (forall a b ca cb, P a = Some ca -> P b = Some cb -> P (a ++ b) = Some (ca ++ cb)) /\
    (forall a b ca, P a = Some ca -> P b = None -> P (a ++ b) = Some ca).

  (** a success on [sb ++ c] empties the buffer; additivity says that the calls found in the rest are exactly
      what the parse of the whole text adds *)
  Lemma tools_stream r cnt : parser_nonempty -> parser_additive -> forall cs sb idx acc,
    stream_result_from [] acc (chat_items P (mkCc true true) (sb, idx) cs (FDone [] r cnt)) =
    match P (sb ++ concat cs) with
    | Some n => ROk [] (acc ++ n) (reason_str r) cnt None
    | None => ROk (if Nat.eqb idx 0 then sb ++ concat cs else []) acc (reason_str r) cnt None
    end.
  Proof.
    intros Hne [H1 H2]. induction cs as [|c cs IH]; intros sb idx acc; cbn [chat_items concat];
      unfold chat_step at 1; cbn [c_stream c_tools negb orb].
    - rewrite !app_nil_r. destruct (P sb) as [n|]; cbn; rewrite ?strip_number, ?app_nil_r; reflexivity.
    - rewrite app_assoc. destruct (P (sb ++ c)) as [cl|] eqn:E; cbn [app stream_result_from]; [|apply IH].
      rewrite strip_number, IH. cbn [app]. destruct (P (concat cs)) as [n|] eqn:En.
      + rewrite (H1 _ _ _ _ E En), app_assoc. reflexivity.
      + rewrite (H2 _ _ _ E En). destruct cl; [elim (Hne _ E)|].
        cbn [length]. rewrite Nat.add_succ_r. reflexivity.
  Qed.

  Lemma chat_equiv_tools_partial : parser_nonempty -> parser_additive -> forall o1 o2,
    text_of o1 = text_of o2 -> ending o1 = ending o2 ->
    ending o1 <> FSilent -> fin_content (ending o1) = [] ->
    stream_result (chat_stream P (mkCc true true) o1) = http_result (chat_nonstream P true o2).
  Proof.
    intros Hne Hadd o1 o2 Ht He Hs Hc. rewrite chat_nonstream_result, <- Ht, <- He.
    unfold stream_result, chat_stream, text_of. destruct (ending o1) as [content r cnt|m|]; [| |congruence].
    - cbn in Hc. subst content. rewrite tools_stream by assumption.
      cbn. rewrite app_nil_r. destruct (P (concat (chunks o1))); reflexivity.
    - apply chat_items_err.
  Qed.
End ChatProofs.

Definition wf_nondone (r : nrec) : Prop :=
  match r with Msg _ _ d rs _ _ => d = false -> rs = [] | ErrRec _ => True end.

Definition wf_rec (r : nrec) : Prop :=
  wf_nondone r /\ match r with Msg _ cl d _ _ _ => d = true -> cl = [] | ErrRec _ => True end.

Definition plain_rec (r : nrec) : Prop :=
  match r with Msg _ cl _ _ _ _ => cl = [] | ErrRec _ => True end /\ wf_nondone r.

Lemma plain_wf recs : Forall plain_rec recs -> Forall wf_rec recs.
Proof. apply Forall_impl. intros [c cl d rs cnt x|m]; [|split; exact I]. intros [-> H]. split; auto. Qed.

Lemma gen_items_plain cfg f cs sb : Forall plain_rec (gen_items cfg sb cs f).
Proof.
  rewrite gen_items_eq. apply Forall_app. split.
  - apply Forall_map, Forall_forall. intros c _. split; cbn; auto.
  - destruct f as [content r cnt|m|]; cbn [gen_end]; [|repeat constructor..].
    unfold gen_done. destruct (g_raw cfg); [|destruct (g_tokfail cfg)]; repeat constructor; discriminate.
Qed.

Lemma v1comp_plain u recs : Forall plain_rec recs -> v1comp_stream u recs = v1chat_stream u false recs.
Proof.
  induction 1 as [|[c cl d rs cnt x|m] recs Hr _ IH]; cbn [v1comp_stream v1chat_stream]; rewrite ?IH; try reflexivity.
  destruct Hr as [-> _]. reflexivity.
Qed.

Lemma v1chat_stream_terminal u recs : one_terminal_last is_terminal recs ->
  forall s, one_terminal_last sse_terminal (v1chat_stream u s recs).
Proof.
  intros (pre & t & -> & Ht & Hpre).
  induction pre as [|[c cl [|] rs cnt x|m] pre IH]; intros s; try discriminate Hpre; cbn [app v1chat_stream].
  - destruct t as [c cl d rs cnt x|m]; cbn in Ht; [subst d|]; cbn [v1chat_stream app].
    + destruct u; repeat (apply one_terminal_last_cons; [reflexivity|]); apply one_terminal_last_single; reflexivity.
    + apply one_terminal_last_single; reflexivity.
  - apply one_terminal_last_cons; [reflexivity|]. apply IH, Hpre.
Qed.

(** [sent = nonempty calls]: toolCallSent is set exactly when the reader has collected a call *)
Lemma v1chat_stream_result u : forall recs sent text calls,
  Forall wf_rec recs -> sent = nonempty calls ->
  sse_result_from text calls None None (v1chat_stream u sent recs) =
  openai_of u (stream_result_from text calls recs).
Proof.
  induction recs as [|r recs IH]; intros sent text calls Hwf Hs; cbn [v1chat_stream stream_result_from].
  - reflexivity.
  - inversion Hwf as [|? ? Hr Hrest]; subst. destruct r as [c cl d rs cnt x|m]; [|reflexivity].
    destruct Hr as [Hnd Hd]. destruct d.
    + rewrite (Hd eq_refl). cbn [strip map]. rewrite !app_nil_r.
      cbn [sse_result_from app]. unfold openai_of, fin_opt.
      destruct (nonempty rs) eqn:Er; destruct u; cbn [app sse_result_from]; rewrite ?app_nil_r;
        destruct (nonempty calls); reflexivity.
    + rewrite (Hnd eq_refl). cbn [nonempty app sse_result_from].
      apply IH; auto. unfold strip. destruct calls, cl; reflexivity.
Qed.

(** toChatCompletion says tool_calls whenever calls are present, [openai_of] only with a non-empty done reason *)
Lemma v1chat_nonstream_result (h : http) :
  match h with
  | Http _ (Msg _ cl true rs _ _) => cl = [] \/ rs <> []
  | Http _ (Msg _ _ false _ _ _) => False
  | Http _ (ErrRec _) => True
  end ->
  v1_result (v1chat_nonstream h) = openai_of true (http_result h).
Proof.
  destruct h as [st [c cl d rs cnt x|m]]; [|reflexivity]. destruct d; [|contradiction].
  intros H. cbn. unfold strip. destruct cl; cbn; [reflexivity|].
  destruct H as [?|H]; [discriminate|]. destruct rs; [congruence|reflexivity].
Qed.

Lemma v1comp_nonstream_result (h : http) :
  match h with
  | Http _ (Msg _ cl true _ _ _) => cl = []
  | Http _ (Msg _ _ false _ _ _) => False
  | Http _ (ErrRec _) => True
  end ->
  v1_result (v1comp_nonstream h) = openai_of true (http_result h).
Proof.
  destruct h as [st [c cl d rs cnt x|m]]; [|reflexivity]. destruct d; [|contradiction].
  intros ->. reflexivity.
Qed.

Lemma v1_calls_result h : v1_calls (v1chat_nonstream h) = result_calls (http_result h).
Proof. destruct h as [st [c cl [|] rs cnt x|m]]; reflexivity. Qed.

Lemma openai_gen_stream u cfg o :
  sse_result (v1comp_stream u (gen_stream cfg o)) = openai_of u (gen_ideal cfg (text_of o) (ending o)).
Proof.
  rewrite v1comp_plain by apply gen_items_plain. unfold sse_result.
  rewrite v1chat_stream_result; [|apply plain_wf, gen_items_plain|reflexivity].
  fold (stream_result (gen_stream cfg o)). rewrite gen_stream_result. reflexivity.
Qed.

Lemma openai_gen_nonstream cfg o : ending o <> FSilent ->
  v1_result (v1comp_nonstream (gen_nonstream cfg o)) = openai_of true (gen_ideal cfg (text_of o) (ending o)).
Proof.
  intros Hs. rewrite <- gen_nonstream_result. apply v1comp_nonstream_result. rewrite gen_nonstream_eq.
  destruct (ending o) as [content r cnt|m|]; [|exact I|congruence].
  cbn. unfold gen_done. destruct (g_raw cfg); [|destruct (g_tokfail cfg)]; reflexivity.
Qed.

Lemma reason_str_nonempty r : r <> RClosed -> reason_str r <> [].
Proof. destruct r; unfold reason_str, s_stop, s_length; congruence. Qed.

Section ChatOpenAI.
  Variable P : str -> option (list (str * str)).

  (** no tool call arrives in the final record because the buffer never parses *)
  Lemma chat_items_wf cfg f : negb (c_stream cfg) || negb (c_tools cfg) = false ->
    P [] = None -> fin_content f = [] -> forall cs sb idx, P sb = None ->
    Forall wf_rec (chat_items P cfg (sb, idx) cs f).
  Proof.
    intros Ep H0 Hc. induction cs as [|c cs IH]; intros sb idx Hsb; cbn [chat_items]; unfold chat_step; rewrite Ep.
    - destruct f as [content r cnt|m|]; [|repeat constructor..].
      cbn in Hc. subst content. rewrite app_nil_r, Hsb. repeat constructor; congruence.
    - destruct (P (sb ++ c)) eqn:E; cbn [app]; [constructor; [split; congruence|]|]; apply IH; assumption.
  Qed.

  Lemma openai_chat_stream u cfg o :
    (negb (c_stream cfg) || negb (c_tools cfg) = true \/ (P [] = None /\ fin_content (ending o) = [])) ->
    sse_result (v1chat_stream u false (chat_stream P cfg o)) = openai_of u (stream_result (chat_stream P cfg o)).
  Proof.
    intros H. apply v1chat_stream_result; [|reflexivity].
    destruct (negb (c_stream cfg) || negb (c_tools cfg)) eqn:Ep.
    - rewrite chat_stream_pass by exact Ep. apply plain_wf, gen_items_plain.
    - destruct H as [?|[H0 Hc]]; [discriminate|]. apply chat_items_wf; auto.
  Qed.

  Lemma openai_chat_nonstream tools o :
    match ending o with
    | FDone _ r _ => tools = false \/ r <> RClosed
    | FErr _ => True
    | FSilent => False
    end ->
    v1_result (v1chat_nonstream (chat_nonstream P tools o)) = openai_of true (http_result (chat_nonstream P tools o)).
  Proof.
    intros H. apply v1chat_nonstream_result. unfold chat_nonstream. rewrite chat_ns_fold.
    destruct (ending o) as [content r cnt|m|]; [| exact I | contradiction].
    cbn. destruct tools.
    - destruct H as [?|H]; [discriminate|]. destruct (P (text_of o)); right; apply reason_str_nonempty; exact H.
    - left; reflexivity.
  Qed.
End ChatOpenAI.

(** an undecodable line stops the client but is not a terminal line of the stream *)
Definition line_terminal (l : line) : bool :=
  match l with LMsg _ d => d | LErr _ _ => true | LGarbage _ => false end.

Definition nonterm (d : list line) : Prop := forallb (fun x => negb (line_terminal x)) d = true.

Lemma client_stream_as_cut k max status : forall ls,
  client_stream k max status ls = client_stream_cut k max status ls CutNone.
Proof. induction ls as [|l ls IH]; cbn [client_stream client_stream_cut]; [|rewrite IH]; reflexivity. Qed.

Lemma client_cut_run max status c : forall ls,
  let '(d, r) := client_stream_cut true max status ls c in
  (exists e x b, r = CFail e /\ ls = d ++ x :: b) \/
  (exists d', d = ls ++ d' /\ cut_tail true max status c = (d', r)).
Proof.
  induction ls as [|l ls IH]; cbn [client_stream_cut].
  - destruct (cut_tail true max status c) as [d r]. right. exists d. split; reflexivity.
  - destruct (max <=? line_len l)%N; [left; exists ETooLong, l, ls; split; reflexivity|].
    destruct l as [n dn|n m|n]; [|left; eexists _, _, ls; split; reflexivity..].
    destruct (400 <=? status)%Z; [left; exists EStatus, (LMsg n dn), ls; split; reflexivity|].
    destruct (client_stream_cut true max status ls c) as [d r].
    destruct IH as [(e & x & b & -> & ->)|(d' & -> & E)].
    + left. exists e, x, b. split; reflexivity.
    + right. exists d'. split; [reflexivity|exact E].
Qed.

(** bufio.Scanner hands the unterminated last line to the loop like any other line *)
Lemma cut_before_newline k max status l :
  cut_tail k max status (CutBeforeNewline l) = client_stream_cut k max status [l] CutBetween.
Proof. reflexivity. Qed.

Lemma client_cut_terminal max status ls tail c :
  one_terminal_last line_terminal (ls ++ tail) ->
  match c with
  | CutNone => tail = []
  | CutBetween => True
  | CutInside _ => tail <> []
  | CutBeforeNewline l => exists tl, tail = l :: tl
  end ->
  let '(d, r) := client_stream_cut true max status ls c in
  (r = COk /\ one_terminal_last line_terminal d) \/
  (exists e, r = CFail e /\ nonterm d) \/
  (exists e, r = CFail e /\ one_terminal_last line_terminal d /\
             match c with CutBetween => tail = [] | CutBeforeNewline l => tail = [l] | _ => False end).
Proof.
  intros Hl Hc. pose proof (client_cut_run max status c ls) as H.
  destruct (client_stream_cut true max status ls c) as [d r].
  destruct H as [(e & x & b & -> & ->)|(d' & -> & E)].
  { (* stopped at a line of ls: what was delivered is a proper prefix of the stream *)
    right; left. exists e. split; [reflexivity|].
    rewrite <- app_assoc in Hl. exact (one_terminal_last_prefix _ _ _ _ Hl). }
  (* all of ls was delivered; unless the stream ends here, ls holds no terminal line *)
  assert (Hls : tail <> [] -> nonterm ls).
  { destruct tail; [congruence|]. intros _. exact (one_terminal_last_prefix _ _ _ _ Hl). }
  destruct c as [| |m|l].
  - injection E as <- <-. subst tail. rewrite app_nil_r in *. left. split; [reflexivity|exact Hl].
  - injection E as <- <-. rewrite app_nil_r. right. destruct tail as [|x tail].
    + right. exists ETransport. rewrite app_nil_r in Hl. auto.
    + left. exists ETransport. split; [reflexivity|]. apply Hls. discriminate.
  - right; left. cbn [cut_tail] in E. destruct (max <=? m)%N; injection E as <- <-; rewrite app_nil_r; eauto.
  - destruct Hc as (tl & ->). right.
    pose proof (client_cut_run max status CutBetween [l]) as H. rewrite <- cut_before_newline, E in H.
    destruct H as [(e & x & b & -> & Hd)|(d'' & -> & [= <- <-])].
    + left. exists e. destruct d' as [|y [|? ?]]; try discriminate Hd.
      rewrite app_nil_r. split; [reflexivity|]. apply Hls. discriminate.
    + cbn [app]. destruct tl as [|x tl].
      * right. exists ETransport. auto.
      * left. exists ETransport. split; [reflexivity|].
        apply (one_terminal_last_prefix _ _ x tl). rewrite <- app_assoc. exact Hl.
Qed.

Lemma number_app : forall a b i, number i (a ++ b) = number i a ++ number (i + length a) b.
Proof.
  induction a as [|[n x] a IH]; intros b i; cbn [app number length].
  - rewrite Nat.add_0_r. reflexivity.
  - rewrite IH, Nat.add_succ_r. reflexivity.
Qed.

Lemma merge_call_fresh c : forall acc,
  Forall (fun e => fst e <> cidx c) acc -> merge_call acc c = acc ++ [(cidx c, (cname c, cargs c))].
Proof.
  induction 1 as [|[i [n a]] acc Hi _ IH]; cbn [merge_call app]; [reflexivity|].
  apply Nat.eqb_neq in Hi. cbn [fst] in Hi. rewrite Hi, IH. reflexivity.
Qed.

Lemma fold_merge_number : forall l i acc,
  Forall (fun e => fst e < i) acc ->
  fold_left merge_call (number i l) acc = acc ++ map (fun c => (cidx c, (cname c, cargs c))) (number i l).
Proof.
  induction l as [|[n a] l IH]; intros i acc H; cbn [number fold_left map].
  - rewrite app_nil_r. reflexivity.
  - rewrite merge_call_fresh by (eapply Forall_impl; [|exact H]; cbn; lia).
    cbn [cidx cname cargs]. rewrite IH, <- app_assoc; [reflexivity|].
    apply Forall_app. split; [eapply Forall_impl; [|exact H]; cbn; lia|repeat constructor].
Qed.

Lemma reassemble_number l i : reassemble (number i l) = l.
Proof.
  unfold reassemble. rewrite fold_merge_number by constructor. cbn [app]. rewrite map_map. apply strip_number.
Qed.

Lemma sse_calls_v1chat u : forall recs s, sse_calls (v1chat_stream u s recs) = rec_calls recs.
Proof.
  unfold sse_calls, rec_calls.
  induction recs as [|[c cl d rs cnt x|m] recs IH]; intros s; cbn [v1chat_stream flat_map]; [reflexivity| |apply IH].
  rewrite flat_map_app, IH. destruct d, u; reflexivity.
Qed.

Section IndexProofs.
  Variable P : str -> option (list (str * str)).

  Lemma chat_items_numbered cfg f : forall cs sb idx,
    rec_calls (chat_items P cfg (sb, idx) cs f) = number idx (strip (rec_calls (chat_items P cfg (sb, idx) cs f))).
  Proof.
    induction cs as [|c cs IH]; intros sb idx; cbn [chat_items].
    - destruct f as [content r cnt|m|]; [|reflexivity|reflexivity].
      unfold chat_step. destruct (negb (c_stream cfg) || negb (c_tools cfg)); [reflexivity|].
      destruct (P (sb ++ content)) as [calls|]; cbn [snd]; [|reflexivity].
      cbn. rewrite !app_nil_r, strip_number. reflexivity.
    - unfold chat_step. destruct (negb (c_stream cfg) || negb (c_tools cfg)); [apply IH|].
      destruct (P (sb ++ c)) as [calls|]; [|apply IH].
      cbn [app rec_calls flat_map]. fold (rec_calls (chat_items P cfg ([], idx + length calls) cs f)).
      rewrite strip_app, strip_number, number_app. f_equal. apply IH.
  Qed.

  Lemma openai_tool_index_stream cfg u o :
    reassemble (sse_calls (v1chat_stream u false (chat_stream P cfg o))) = strip (rec_calls (chat_stream P cfg o)).
  Proof.
    rewrite sse_calls_v1chat. unfold chat_stream.
    etransitivity; [apply f_equal, chat_items_numbered|apply reassemble_number].
  Qed.
End IndexProofs.

Lemma count_terminal_app a b : count_terminal (a ++ b) = count_terminal a + count_terminal b.
Proof. unfold count_terminal. rewrite filter_app, app_length. reflexivity. Qed.

Lemma gen_done_count cfg sb content r n : count_terminal (gen_done cfg sb content r n) = 1.
Proof. unfold gen_done. destruct (g_raw cfg); [|destruct (g_tokfail cfg)]; reflexivity. Qed.

Lemma gen_trace_items_count cfg : forall evs sb,
  count_terminal (gen_trace_items cfg sb evs) = length (filter is_final evs).
Proof.
  induction evs as [|[c|content r n] evs IH]; intros sb; cbn [gen_trace_items filter is_final]; [reflexivity|apply IH|].
  rewrite count_terminal_app, gen_done_count, IH. reflexivity.
Qed.

Lemma ret_items_count t : count_terminal (ret_items t) = errs t.
Proof. unfold ret_items, errs. destruct (returned t); reflexivity. Qed.

Lemma gen_trace_count cfg t : count_terminal (gen_trace_stream cfg t) = finals t + errs t.
Proof. unfold gen_trace_stream. rewrite count_terminal_app, gen_trace_items_count, ret_items_count. reflexivity. Qed.

Definition fin_events (f : fin) : list cev := match f with FDone c r n => [CFinal c r n] | _ => [] end.
Definition fin_ret (f : fin) : list nrec := match f with FErr m => [ErrRec m] | _ => [] end.

Lemma trace_of_eq o :
  events (trace_of o) = map CChunk (chunks o) ++ fin_events (ending o) /\ ret_items (trace_of o) = fin_ret (ending o).
Proof. unfold trace_of. destruct (ending o); cbn; rewrite ?app_nil_r; split; reflexivity. Qed.

Lemma gen_trace_items_chunks cfg f : forall cs sb,
  gen_trace_items cfg sb (map CChunk cs ++ fin_events f) ++ fin_ret f = gen_items cfg sb cs f.
Proof.
  induction cs as [|c cs IH]; intros sb; cbn [map app gen_trace_items gen_items].
  - destruct f; cbn; rewrite ?app_nil_r; reflexivity.
  - f_equal. apply IH.
Qed.

Lemma gen_trace_of cfg o : gen_trace_stream cfg (trace_of o) = gen_stream cfg o.
Proof.
  unfold gen_trace_stream. destruct (trace_of_eq o) as [-> ->]. apply gen_trace_items_chunks.
Qed.

Section ChatTraceProofs.
  Variable P : str -> option (list (str * str)).

  Lemma chat_step_count cfg st c d rs cnt :
    count_terminal (snd (chat_step P cfg st c d rs cnt)) = if d then 1 else 0.
  Proof.
    unfold count_terminal. destruct d.
    - destruct (chat_step_done P cfg st c rs cnt) as (t & -> & Ht). cbn. rewrite Ht. reflexivity.
    - rewrite filter_none by apply chat_step_nondone. reflexivity.
  Qed.

  Lemma chat_trace_items_count cfg : forall evs st,
    count_terminal (chat_trace_items P cfg st evs) = length (filter is_final evs).
  Proof.
    induction evs as [|[c|content r n] evs IH]; intros st; cbn [chat_trace_items filter is_final]; [reflexivity| |].
    - pose proof (chat_step_count cfg st c false [] zeroc) as H.
      destruct (chat_step P cfg st c false [] zeroc) as [st' out]. cbn [snd] in H. rewrite count_terminal_app, H, IH. reflexivity.
    - pose proof (chat_step_count cfg st content true (reason_str r) n) as H.
      destruct (chat_step P cfg st content true (reason_str r) n) as [st' out]. cbn [snd] in H. rewrite count_terminal_app, H, IH. reflexivity.
  Qed.

  Lemma chat_trace_count cfg t : count_terminal (chat_trace_stream P cfg t) = finals t + errs t.
  Proof. unfold chat_trace_stream. rewrite count_terminal_app, chat_trace_items_count, ret_items_count. reflexivity. Qed.

  Lemma chat_trace_items_chunks cfg f : forall cs st,
    chat_trace_items P cfg st (map CChunk cs ++ fin_events f) ++ fin_ret f = chat_items P cfg st cs f.
  Proof.
    induction cs as [|c cs IH]; intros st; cbn [map app chat_trace_items chat_items].
    - destruct f as [content r n|m|]; [|reflexivity..]. cbn [fin_events fin_ret app chat_trace_items].
      destruct (chat_step P cfg st content true (reason_str r) n) as [st' out]. cbn. rewrite !app_nil_r. reflexivity.
    - destruct (chat_step P cfg st c false [] zeroc) as [st' out]. rewrite <- app_assoc, IH. reflexivity.
  Qed.

  Lemma chat_trace_of cfg o : chat_trace_stream P cfg (trace_of o) = chat_stream P cfg o.
  Proof.
    unfold chat_trace_stream. destruct (trace_of_eq o) as [-> ->]. apply chat_trace_items_chunks.
  Qed.
End ChatTraceProofs.

Lemma existsb_final_map_chunk cs : existsb is_final (map CChunk cs) = false.
Proof. induction cs; cbn; auto. Qed.

Lemma no_final_chunks : forall evs, existsb is_final evs = false -> exists cs, evs = map CChunk cs.
Proof.
  induction evs as [|[c|] evs IH]; intros H; [exists []; reflexivity| |discriminate].
  destruct (IH H) as (cs & ->). exists (c :: cs). reflexivity.
Qed.

Lemma existsb_rev {A} (f : A -> bool) l : existsb f (rev l) = existsb f l.
Proof. induction l as [|x l IH]; cbn; [reflexivity|]. rewrite existsb_app, IH. cbn. rewrite orb_false_r, orb_comm. reflexivity. Qed.

Lemma contract_trace t : contractb t = true -> exists o, ending o <> FSilent /\ t = trace_of o.
Proof.
  (* write the events as [rev l], so that [contractb]'s match on [rev (events t)] becomes a match on [l] *)
  destruct t as [evs ret]. rewrite <- (rev_involutive evs). generalize (rev evs) as l. intros l.
  unfold contractb. cbn [events returned]. rewrite rev_involutive. destruct ret as [m|].
  - intros H. destruct (no_final_chunks (rev l)) as (cs & ->).
    { rewrite existsb_rev. destruct l as [|[] ?]; apply negb_true_iff, H. }
    exists (mkOut cs (FErr m)). split; [discriminate|reflexivity].
  - destruct l as [|[c|content r n] before]; try discriminate. intros H%negb_true_iff.
    rewrite <- existsb_rev in H. destruct (no_final_chunks _ H) as (cs & E).
    exists (mkOut cs (FDone content r n)). cbn [rev]. rewrite E. split; [discriminate|reflexivity].
Qed.

Lemma raw_sites_agree q : c_tools (chat_cfg_of q) = chat_ns_tools_of q.
Proof. reflexivity. Qed.

Lemma norm_raw_cfg q1 q2 : norm_raw q1 = norm_raw q2 ->
  chat_cfg_of q1 = chat_cfg_of q2 /\ chat_ns_tools_of q1 = chat_ns_tools_of q2.
Proof.
  assert (N : forall q, chat_cfg_of q = mkCc (fst (norm_raw q)) (if snd (norm_raw q) then true else false)).
  { intros [[| |[|]] [| |[|]]]; reflexivity. }
  intros H. rewrite <- !raw_sites_agree, !N, H. split; reflexivity.
Qed.

(** a non-additive parser: calls are written <name>; an unfinished call at the end is ignored
    (the shape of parseObjects: objects are decoded left to right, an incomplete one ends the scan) *)
Fixpoint p0_scan (inside : option str) (s : str) : list (str * str) :=
  match s with
  | [] => []
  | b :: t =>
      match inside with
      | None => if N.eqb b 60 then p0_scan (Some []) t else p0_scan None t
      | Some nm => if N.eqb b 62 then (rev nm, []) :: p0_scan None t else p0_scan (Some (b :: nm)) t
      end
  end.
Definition P0 (s : str) : option (list (str * str)) :=
  match p0_scan None s with [] => None | l => Some l end.

(** an additive parser: every '!' is a call *)
Fixpoint pm_scan (s : str) : list (str * str) :=
  match s with
  | [] => []
  | b :: t => if N.eqb b 33 then ([33%N], []) :: pm_scan t else pm_scan t
  end.
Definition Pm (s : str) : option (list (str * str)) :=
  match pm_scan s with [] => None | l => Some l end.

Lemma pm_scan_app a b : pm_scan (a ++ b) = pm_scan a ++ pm_scan b.
Proof. induction a as [|x a IH]; cbn; [reflexivity|]. destruct (N.eqb x 33); cbn; rewrite IH; reflexivity. Qed.

Lemma Pm_nonempty : parser_nonempty Pm.
Proof. intros s. unfold Pm. destruct (pm_scan s); congruence. Qed.

Lemma Pm_additive : parser_additive Pm.
Proof.
  split.
  - intros a b ca cb. unfold Pm. rewrite pm_scan_app.
    destruct (pm_scan a) eqn:Ea; [discriminate|]. destruct (pm_scan b) eqn:Eb; [discriminate|].
    intros [= <-] [= <-]. reflexivity.
  - intros a b ca. unfold Pm. rewrite pm_scan_app.
    destruct (pm_scan a) eqn:Ea; [discriminate|]. destruct (pm_scan b) eqn:Eb; [|discriminate].
    intros [= <-] _. rewrite app_nil_r. reflexivity.
Qed.
